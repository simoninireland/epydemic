(* Finite distributions over the rationals: a distribution is a list of (outcome, weight) pairs,
   the probability of an outcome is the sum of the weights of its occurrences.  Two distributions
   are equivalent when every outcome has the same probability.  Nothing here mentions measure
   theory: [uniform n] is the list of the n ranks with weight 1/n each.  Used by C02 (point masses,
   equivalence), for sums of rates by GillespieSelect and KernelMember, and for sums and expectations by
   the one-step law of C06 (Binomial, KernelSyncLawAll). *)
From Coq Require Import List ZArith QArith Bool Arith Lia Lqa.
From EpyV Require Import Lib.Lists.
Import ListNotations.
Open Scope Q_scope.

Fixpoint sumf {A} (f : A -> Q) (l : list A) : Q :=
  match l with [] => 0 | x :: l' => f x + sumf f l' end.

Lemma sumf_app : forall A (f : A -> Q) l1 l2, sumf f (l1 ++ l2) == sumf f l1 + sumf f l2.
Proof.
  intros A f. induction l1 as [|x l1 IH]; intros l2; cbn [sumf app]; [ring|]. rewrite IH. ring.
Qed.

Lemma sumf_ext : forall A (f g : A -> Q) l, (forall x, In x l -> f x == g x) -> sumf f l == sumf g l.
Proof.
  intros A f g. induction l as [|x l IH]; intros H; cbn [sumf]; [reflexivity|].
  rewrite (H x (or_introl eq_refl)), IH; [reflexivity|]. intros y Hy. apply H. right. exact Hy.
Qed.

Lemma sumf_plus : forall A (f g : A -> Q) l, sumf (fun x => f x + g x) l == sumf f l + sumf g l.
Proof. intros A f g. induction l as [|x l IH]; cbn [sumf]; [ring|]. rewrite IH. ring. Qed.

Lemma sumf_scal : forall A (f : A -> Q) c l, sumf (fun x => c * f x) l == c * sumf f l.
Proof. intros A f c. induction l as [|x l IH]; cbn [sumf]; [ring|]. rewrite IH. ring. Qed.

Lemma sumf_zero : forall A (f : A -> Q) l, (forall x, In x l -> f x == 0) -> sumf f l == 0.
Proof.
  intros A f. induction l as [|x l IH]; intros H; cbn [sumf]; [reflexivity|].
  rewrite (H x (or_introl eq_refl)), IH; [ring|]. intros y Hy. apply H. right. exact Hy.
Qed.

Lemma sumf_map : forall A B (h : A -> B) (f : B -> Q) l, sumf f (map h l) = sumf (fun x => f (h x)) l.
Proof. intros A B h f. induction l as [|x l IH]; cbn [sumf map]; [reflexivity|]. rewrite IH. reflexivity. Qed.

Lemma sumf_flat_map : forall A B (h : A -> list B) (f : B -> Q) l,
  sumf f (flat_map h l) == sumf (fun x => sumf f (h x)) l.
Proof.
  intros A B h f. induction l as [|x l IH]; cbn [sumf flat_map]; [reflexivity|]. rewrite sumf_app, IH. reflexivity.
Qed.

Lemma sumf_nonneg : forall A (f : A -> Q) l, (forall x, In x l -> 0 <= f x) -> 0 <= sumf f l.
Proof.
  intros A f. induction l as [|x l IH]; intros H; cbn [sumf]; [apply Qle_refl|].
  assert (H1 := H x (or_introl eq_refl)). assert (H2 : 0 <= sumf f l) by (apply IH; intros y Hy; apply H; right; exact Hy).
  lra.
Qed.

Lemma sumf_zero_inv {A} (f : A -> Q) l : (forall x, In x l -> 0 <= f x) -> sumf f l == 0 ->
  forall x, In x l -> f x == 0.
Proof.
  induction l as [|y l IH]; intros Hnn Hz x Hx; [destruct Hx|]. cbn [sumf] in Hz.
  assert (H1 : 0 <= f y) by (apply Hnn; left; reflexivity).
  assert (H2 : 0 <= sumf f l) by (apply sumf_nonneg; intros z Hz'; apply Hnn; right; exact Hz').
  destruct Hx as [<-|Hx]; [lra|]. apply IH; [intros z Hz'; apply Hnn; right; exact Hz' | lra | exact Hx].
Qed.

(* the same sum accumulated from the left with every partial sum reduced: the form that evaluates
   with small numbers (the kernel's own [sum_rates] has it) *)
Lemma fold_sumf : forall A (f : A -> Q) l a, fold_left (fun a x => Qred (a + f x)) l a == a + sumf f l.
Proof.
  intros A f. induction l as [|x l IH]; intros a; cbn [fold_left sumf]; [ring|].
  rewrite IH, Qred_correct. ring.
Qed.

Definition dist (A : Type) := list (A * Q).

Definition ret {A} (x : A) : dist A := [(x, 1)].
Definition scale {A} (p : Q) (d : dist A) : dist A := map (fun yq => (fst yq, p * snd yq)) d.
Definition bind {A B} (d : dist A) (f : A -> dist B) : dist B :=
  flat_map (fun xp => scale (snd xp) (f (fst xp))) d.
Definition uniform (n : nat) : dist nat := map (fun k => (k, 1 / inject_Z (Z.of_nat n))) (seq 0 n).
Definition total {A} (d : dist A) : Q := sumf snd d.

Definition ind (b : bool) : Q := if b then 1 else 0.
Definition mass {A} (eqb : A -> A -> bool) (d : dist A) (x : A) : Q :=
  sumf (fun yp => ind (eqb (fst yp) x) * snd yp) d.
Definition expect {A} (d : dist A) (g : A -> Q) : Q := sumf (fun xp => snd xp * g (fst xp)) d.

Definition deq {A} (eqb : A -> A -> bool) (d1 d2 : dist A) : Prop := forall x, mass eqb d1 x == mass eqb d2 x.

Lemma ind_true : forall b, b = true -> ind b = 1. Proof. intros b ->. reflexivity. Qed.
Lemma ind_false : forall b, b = false -> ind b = 0. Proof. intros b ->. reflexivity. Qed.

Section Mass.
Context {A : Type} (eqb : A -> A -> bool).

Lemma mass_nil : forall x, mass eqb [] x = 0.
Proof. reflexivity. Qed.

Lemma mass_cons : forall y p d x, mass eqb ((y, p) :: d) x = ind (eqb y x) * p + mass eqb d x.
Proof. reflexivity. Qed.

Lemma mass_app : forall d1 d2 x, mass eqb (d1 ++ d2) x == mass eqb d1 x + mass eqb d2 x.
Proof. intros. apply sumf_app. Qed.

Lemma mass_scale : forall p d x, mass eqb (scale p d) x == p * mass eqb d x.
Proof.
  intros p d x. unfold mass, scale. rewrite sumf_map. cbn [fst snd].
  rewrite <- sumf_scal. apply sumf_ext. intros y _. ring.
Qed.

(* only the entries for x carry its mass; summing these alone avoids the many terms 0 * p, each of
   which would put the denominator of p into the sum *)
Lemma mass_filter : forall d x, mass eqb d x == total (filter (fun yp => eqb (fst yp) x) d).
Proof.
  intros d x. unfold mass, total. induction d as [|[y p] d IH]; [reflexivity|].
  cbn [sumf filter fst snd]. destruct (eqb y x); cbn [ind sumf snd]; rewrite IH; ring.
Qed.

Lemma mass_ret : forall y x, mass eqb (ret y) x == ind (eqb y x).
Proof. intros. unfold ret. rewrite mass_cons, mass_nil. ring. Qed.

Lemma mass_flat_map : forall B (h : B -> dist A) l x, mass eqb (flat_map h l) x == sumf (fun j => mass eqb (h j) x) l.
Proof. intros. apply sumf_flat_map. Qed.

Lemma mass_bind : forall B (d : dist B) (f : B -> dist A) x,
  mass eqb (bind d f) x == expect d (fun y => mass eqb (f y) x).
Proof.
  intros B d f x. unfold bind, expect. rewrite mass_flat_map. apply sumf_ext. intros y _. apply mass_scale.
Qed.

Lemma deq_refl : forall d, deq eqb d d. Proof. intros d x. reflexivity. Qed.
Lemma deq_sym : forall d1 d2, deq eqb d1 d2 -> deq eqb d2 d1. Proof. intros d1 d2 H x. symmetry. apply H. Qed.
Lemma deq_trans : forall d1 d2 d3, deq eqb d1 d2 -> deq eqb d2 d3 -> deq eqb d1 d3.
Proof. intros d1 d2 d3 H1 H2 x. rewrite (H1 x). apply H2. Qed.

Lemma bind_cong_r : forall B (d : dist B) (f g : B -> dist A),
  (forall y, In y (map fst d) -> deq eqb (f y) (g y)) -> deq eqb (bind d f) (bind d g).
Proof.
  intros B d f g H x. rewrite !mass_bind. unfold expect. apply sumf_ext. intros yp Hy.
  rewrite (H (fst yp) (in_map fst d yp Hy) x). reflexivity.
Qed.

End Mass.

Lemma expect_ret : forall A (x : A) g, expect (ret x) g == g x.
Proof. intros. unfold expect, ret. cbn [sumf fst snd]. ring. Qed.

Lemma expect_app : forall A (d1 d2 : dist A) g, expect (d1 ++ d2) g == expect d1 g + expect d2 g.
Proof. intros. apply sumf_app. Qed.

Lemma expect_scale : forall A p (d : dist A) g, expect (scale p d) g == p * expect d g.
Proof.
  intros A p d g. unfold expect, scale. rewrite sumf_map. cbn [fst snd]. rewrite <- sumf_scal.
  apply sumf_ext. intros y _. ring.
Qed.

Lemma expect_cons : forall A (x : A) p d g, expect ((x, p) :: d) g = p * g x + expect d g.
Proof. reflexivity. Qed.

Lemma expect_bind : forall A B (d : dist A) (f : A -> dist B) g,
  expect (bind d f) g == expect d (fun x => expect (f x) g).
Proof.
  intros A B d f g. unfold bind. induction d as [|[x p] d IH]; [reflexivity|].
  cbn [flat_map fst snd]. rewrite expect_app, IH, expect_scale, expect_cons. reflexivity.
Qed.

Lemma expect_ext : forall A (d : dist A) g h, (forall x, In x (map fst d) -> g x == h x) -> expect d g == expect d h.
Proof.
  intros A d g h H. unfold expect. apply sumf_ext. intros xp Hx. rewrite (H (fst xp) (in_map fst d xp Hx)). reflexivity.
Qed.

Lemma expect_ext_in : forall A (d : dist A) g h, (forall x p, In (x, p) d -> g x == h x) -> expect d g == expect d h.
Proof. intros A d g h H. unfold expect. apply sumf_ext. intros [x p] Hx. rewrite (H x p Hx). reflexivity. Qed.

Lemma expect_lin : forall A (d : dist A) c g h, expect d (fun x => c * g x + h x) == c * expect d g + expect d h.
Proof.
  intros A d c g h. unfold expect. rewrite <- sumf_scal, <- sumf_plus. apply sumf_ext. intros xp _. ring.
Qed.

Lemma expect_const : forall A (d : dist A) c, expect d (fun _ => c) == total d * c.
Proof.
  intros A d c. unfold expect, total. rewrite Qmult_comm, <- sumf_scal. apply sumf_ext. intros xp _. ring.
Qed.

Lemma expect_swap : forall A B (d1 : dist A) (d2 : dist B) (h : A -> B -> Q),
  expect d1 (fun a => expect d2 (h a)) == expect d2 (fun b => expect d1 (fun a => h a b)).
Proof.
  intros A B d1 d2 h. induction d1 as [|[a q] d1 IH].
  - unfold expect at 1. cbn [sumf]. symmetry. apply sumf_zero. intros bp _. unfold expect. cbn [sumf]. ring.
  - rewrite expect_cons, IH, <- expect_lin. apply expect_ext_in. intros b r _. rewrite expect_cons. reflexivity.
Qed.

Lemma mass_expect : forall A (eqb : A -> A -> bool) (d : dist A) x, mass eqb d x == expect d (fun y => ind (eqb y x)).
Proof. intros. unfold mass, expect. apply sumf_ext. intros yp _. ring. Qed.

Lemma sumf_ranks : forall A (h : A -> Q) (l : list A) d,
  sumf (fun k => h (nth (k mod length l) l d)) (seq 0 (length l)) == sumf h l.
Proof.
  intros A h l d. transitivity (sumf h (map (fun k => nth k l d) (seq 0 (length l)))); [|rewrite map_nth_seq; reflexivity].
  rewrite sumf_map. apply sumf_ext. intros k Hk. apply in_seq in Hk. rewrite Nat.mod_small; [reflexivity | lia].
Qed.

Lemma sumf_single : forall (g : nat -> Q) j l, NoDup l -> In j l -> (forall k, In k l -> k <> j -> g k == 0) -> sumf g l == g j.
Proof.
  intros g j. induction l as [|x l IH]; intros Hnd Hin Hz; [destruct Hin|].
  inversion Hnd as [|? ? Hx Hnd']; subst. cbn [sumf]. destruct Hin as [->|Hin].
  - rewrite sumf_zero; [ring|]. intros k Hk. apply Hz; [right; exact Hk|]. intros ->. contradiction.
  - rewrite (Hz x (or_introl eq_refl)); [|intros ->; contradiction].
    rewrite IH; [ring | exact Hnd' | exact Hin|]. intros k Hk. apply Hz. right. exact Hk.
Qed.

Section Expect.
Context {A : Type} (eqb : A -> A -> bool).
Hypothesis eqb_spec : forall x y, eqb x y = true <-> x = y.

Lemma eqb_refl' : forall x, eqb x x = true. Proof. intros x. apply eqb_spec. reflexivity. Qed.
Lemma eqb_neq : forall x y, x <> y -> eqb x y = false.
Proof. intros x y H. destruct (eqb x y) eqn:E; [|reflexivity]. apply eqb_spec in E. contradiction. Qed.

Lemma A_dec : forall x y : A, {x = y} + {x <> y}.
Proof.
  intros x y. destruct (eqb x y) eqn:E.
  - left. apply eqb_spec. exact E.
  - right. intros H. apply eqb_spec in H. congruence.
Qed.

Lemma sum_indicator : forall (g : A -> Q) x0 p0 sup, NoDup sup -> In x0 sup ->
  sumf (fun x => (ind (eqb x0 x) * p0) * g x) sup == p0 * g x0.
Proof.
  intros g x0 p0. induction sup as [|y sup IH]; intros Hnd Hin; [destruct Hin|].
  cbn [sumf]. inversion Hnd as [|? ? Hny Hnd']; subst. destruct Hin as [->|Hin].
  - rewrite (ind_true _ (eqb_refl' x0)). rewrite sumf_zero; [ring|].
    intros x Hx. rewrite (ind_false (eqb x0 x)); [ring|]. apply eqb_neq. intros ->. contradiction.
  - rewrite (IH Hnd' Hin). rewrite (ind_false (eqb x0 y)); [ring|]. apply eqb_neq. intros ->. contradiction.
Qed.

Lemma expect_mass : forall (g : A -> Q) sup d, NoDup sup -> (forall x, In x (map fst d) -> In x sup) ->
  expect d g == sumf (fun x => mass eqb d x * g x) sup.
Proof.
  intros g sup. induction d as [|[x0 p0] d IH]; intros Hnd Hsup.
  - unfold expect. cbn [sumf]. symmetry. apply sumf_zero. intros x _. rewrite mass_nil. ring.
  - unfold expect. cbn [sumf fst snd]. fold (expect d g). rewrite IH; [|exact Hnd|intros x Hx; apply Hsup; right; exact Hx].
    rewrite <- (sum_indicator g x0 p0 sup Hnd); [|apply Hsup; left; reflexivity].
    rewrite <- sumf_plus. apply sumf_ext. intros x _. rewrite mass_cons. ring.
Qed.

Lemma expect_deq : forall (g : A -> Q) d1 d2, deq eqb d1 d2 -> expect d1 g == expect d2 g.
Proof.
  intros g d1 d2 H.
  set (sup := nodup A_dec (map fst d1 ++ map fst d2)).
  assert (Hnd : NoDup sup) by apply NoDup_nodup.
  rewrite (expect_mass g sup d1 Hnd), (expect_mass g sup d2 Hnd).
  - apply sumf_ext. intros x _. rewrite (H x). reflexivity.
  - intros x Hx. apply nodup_In. apply in_or_app. right. exact Hx.
  - intros x Hx. apply nodup_In. apply in_or_app. left. exact Hx.
Qed.

Lemma bind_cong_l : forall B (eqbB : B -> B -> bool) (d1 d2 : dist A) (f : A -> dist B),
  deq eqb d1 d2 -> deq eqbB (bind d1 f) (bind d2 f).
Proof. intros B eqbB d1 d2 f H y. rewrite !mass_bind. apply expect_deq. exact H. Qed.

Lemma bind_cong : forall B (eqbB : B -> B -> bool) (d1 d2 : dist A) (f g : A -> dist B),
  deq eqb d1 d2 -> (forall x, deq eqbB (f x) (g x)) -> deq eqbB (bind d1 f) (bind d2 g).
Proof.
  intros B eqbB d1 d2 f g H1 H2. apply (deq_trans eqbB _ (bind d2 f)).
  - apply bind_cong_l. exact H1.
  - apply bind_cong_r. intros y _. apply H2.
Qed.

End Expect.

Lemma mass_uniform : forall n k, (k < n)%nat -> mass Nat.eqb (uniform n) k == 1 / inject_Z (Z.of_nat n).
Proof.
  intros n k Hk. unfold uniform, mass. rewrite sumf_map. cbn [fst snd].
  assert (H := sum_indicator Nat.eqb Nat.eqb_eq (fun _ => 1) k (1 / inject_Z (Z.of_nat n)) (seq 0 n) (seq_NoDup n 0)).
  rewrite <- (Qmult_1_r (1 / inject_Z (Z.of_nat n))). rewrite <- H; [|apply in_seq; lia].
  apply sumf_ext. intros x _. rewrite (Nat.eqb_sym x k). ring.
Qed.

Lemma total_uniform : forall n, (0 < n)%nat -> total (uniform n) == 1.
Proof.
  intros n Hn. unfold total, uniform. rewrite sumf_map. cbn [snd].
  assert (E : forall l : list nat, sumf (fun _ => 1 / inject_Z (Z.of_nat n)) l == inject_Z (Z.of_nat (length l)) * (1 / inject_Z (Z.of_nat n))).
  { induction l as [|x l IH]; cbn [sumf length]; [ring|]. rewrite IH, Nat2Z.inj_succ, <- Z.add_1_r, inject_Z_plus. ring. }
  rewrite E, seq_length. field. intros H.
  unfold Qeq in H. cbn in H. lia.
Qed.
