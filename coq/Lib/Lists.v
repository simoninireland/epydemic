(* Generic facts about lists, NoDup and the boolean tests of Lib/Prelude. *)
From Coq Require Import List ZArith Bool Arith Lia Permutation.
From EpyV Require Import Lib.Prelude.
Import ListNotations.

Lemma zpair_eqb_iff a b : zpair_eqb a b = true <-> a = b.
Proof.
  destruct a as [a1 a2], b as [b1 b2]; unfold zpair_eqb; cbn [fst snd].
  rewrite andb_true_iff, !Z.eqb_eq. split; [intros [-> ->]; reflexivity | intros [= -> ->]; auto].
Qed.

Section BoolTests.
  Context {A : Type} (eqb : A -> A -> bool).
  Hypothesis eqb_spec : forall x y, eqb x y = true <-> x = y.

  Lemma memb_In x l : memb eqb x l = true <-> In x l.
  Proof.
    unfold memb. rewrite existsb_exists. split.
    - intros (y & Hy & E). apply eqb_spec in E. subst y. exact Hy.
    - intros H. exists x. split; [exact H | apply eqb_spec; reflexivity].
  Qed.

  Lemma set_eqb_spec a b : set_eqb eqb a b = true <-> (forall x, In x a <-> In x b).
  Proof.
    unfold set_eqb, subsetb. rewrite andb_true_iff, !forallb_forall. split.
    - intros [H1 H2] x. split; intros H; [apply memb_In, H1, H | apply memb_In, H2, H].
    - intros H. split; intros x Hx; apply memb_In, H, Hx.
  Qed.
End BoolTests.

Lemma NoDup_app_iff {A} (a b : list A) :
  NoDup (a ++ b) <-> NoDup a /\ NoDup b /\ (forall x, In x a -> In x b -> False).
Proof.
  induction a as [|y a IH]; cbn.
  - split; [intros H; split; [constructor | split; [exact H | intros x []]] | intros (_ & H & _); exact H].
  - split.
    + intros H. inversion H as [|? ? Hn H']; subst. apply IH in H'. destruct H' as (Ha & Hb & Hd).
      split; [constructor; [intros Hy; apply Hn, in_or_app; left; exact Hy | exact Ha]|]. split; [exact Hb|].
      intros x [<-|Hx] Hxb; [apply Hn, in_or_app; right; exact Hxb | exact (Hd x Hx Hxb)].
    + intros (Ha & Hb & Hd). inversion Ha as [|? ? Hn Ha']; subst. constructor.
      * intros H. apply in_app_or in H. destruct H as [H|H]; [exact (Hn H) | exact (Hd y (or_introl eq_refl) H)].
      * apply IH. split; [exact Ha' | split; [exact Hb | intros x Hx; apply Hd; right; exact Hx]].
Qed.

Lemma NoDup_snoc {A} (l : list A) (a : A) : NoDup l -> ~ In a l -> NoDup (l ++ [a]).
Proof.
  intros Hl Ha. apply NoDup_app_iff. split; [exact Hl|]. split; [constructor; [intros []|constructor]|].
  intros x Hx [<-|[]]. exact (Ha Hx).
Qed.

Lemma filter_partition_perm {A} (f : A -> bool) (l : list A) :
  Permutation (filter f l ++ filter (fun x => negb (f x)) l) l.
Proof.
  induction l as [|a l IH]; simpl; [constructor|]. destruct (f a); simpl.
  - constructor. exact IH.
  - apply Permutation_sym, Permutation_cons_app, Permutation_sym, IH.
Qed.

Lemma NoDup_flat_map {A B} (f : A -> list B) (l : list A) :
  NoDup l -> (forall a, In a l -> NoDup (f a)) ->
  (forall a b y, In a l -> In b l -> In y (f a) -> In y (f b) -> a = b) ->
  NoDup (flat_map f l).
Proof.
  induction l as [|a l IH]; cbn; intros ND Hf Hd; [constructor|].
  inversion ND as [|? ? Hn ND']; subst. apply NoDup_app_iff. split; [|split].
  - apply Hf. left; reflexivity.
  - apply IH; [exact ND' | intros b Hb; apply Hf; right; exact Hb|].
    intros b c y Hb Hc. apply Hd; right; assumption.
  - intros y Hy Hy'. apply in_flat_map in Hy'. destruct Hy' as (b & Hb & Hyb).
    apply Hn. rewrite (Hd a b y (or_introl eq_refl) (or_intror Hb) Hy Hyb). exact Hb.
Qed.

Lemma flat_map_const_length {A B} (f : A -> list B) (l : list A) n :
  (forall a, In a l -> length (f a) = n) -> length (flat_map f l) = length l * n.
Proof.
  induction l as [|a l IH]; cbn; intros H; [reflexivity|].
  rewrite app_length, (H a (or_introl eq_refl)), IH; [reflexivity|].
  intros b Hb. apply H. right; exact Hb.
Qed.

Lemma map_nth_seq {A} (d : A) (l : list A) : map (fun i => nth i l d) (seq 0 (length l)) = l.
Proof.
  induction l as [|x l IH]; [reflexivity|].
  cbn [length seq map nth]. f_equal.
  rewrite <- seq_shift, map_map. exact IH.
Qed.

Lemma firstn_app_len {A} (a b : list A) k : length a = k -> firstn k (a ++ b) = a.
Proof. intros <-. induction a as [|x a IH]; cbn; [reflexivity | f_equal; exact IH]. Qed.

Lemma firstn_min_len {A} (p : list A) k : firstn k p = firstn (Nat.min k (length p)) p.
Proof.
  destruct (Nat.le_ge_cases k (length p)) as [H|H].
  - rewrite (Nat.min_l _ _ H). reflexivity.
  - rewrite (Nat.min_r _ _ H), firstn_all. apply firstn_all2. exact H.
Qed.

Lemma filter_none {A} (f : A -> bool) l : (forall x, In x l -> f x = false) -> filter f l = [].
Proof.
  induction l as [|x l IH]; cbn; intros H; [reflexivity|].
  rewrite (H x (or_introl eq_refl)). apply IH. intros y Hy. apply H. right; exact Hy.
Qed.

Lemma filter_all {A} (f : A -> bool) l : (forall x, In x l -> f x = true) -> filter f l = l.
Proof.
  induction l as [|x l IH]; cbn; intros H; [reflexivity|].
  rewrite (H x (or_introl eq_refl)). f_equal. apply IH. intros y Hy. apply H. right; exact Hy.
Qed.

Lemma filter_map_length {A B} (g : A -> B) (f : B -> bool) (l : list A) :
  length (filter (fun x => f (g x)) l) = length (filter f (map g l)).
Proof.
  induction l as [|x l IH]; cbn; [reflexivity|]. destruct (f (g x)); cbn; rewrite IH; reflexivity.
Qed.

Lemma filter_length_mono {A} (p q : A -> bool) l :
  (forall x, In x l -> p x = true -> q x = true) -> length (filter p l) <= length (filter q l).
Proof.
  induction l as [|x l IH]; intros H; [cbn; lia|]. cbn [filter].
  assert (IH' : length (filter p l) <= length (filter q l)) by (apply IH; intros; apply H; [right|]; assumption).
  destruct (p x) eqn:Hp.
  - rewrite (H x (or_introl eq_refl) Hp). cbn. lia.
  - destruct (q x); cbn; lia.
Qed.

Lemma filter_length_or {A} (p q : A -> bool) l :
  length (filter (fun x => p x || q x) l) <= length (filter p l) + length (filter q l).
Proof. induction l as [|x l IH]; cbn; [lia|]. destruct (p x), (q x); cbn; lia. Qed.

(* [Add x q p] (standard library): p is q with x put in somewhere. *)
Lemma Add_unique {A} (x : A) q q' p : ~ In x q -> Add x q p -> Add x q' p -> q = q'.
Proof.
  intros Hn H. revert q'. induction H as [q|y q p H IH]; intros q' H'; inversion H' as [|z l l' H'']; subst.
  - reflexivity.
  - destruct Hn. apply (Add_in H''). left; reflexivity.
  - destruct Hn. left; reflexivity.
  - f_equal. apply IH; [intros Hx; apply Hn; right; exact Hx | exact H''].
Qed.

Lemma filter_map_comm {A B} (g : A -> B) (p : B -> bool) (l : list A) :
  filter p (map g l) = map g (filter (fun x => p (g x)) l).
Proof.
  induction l as [|x l IH]; [reflexivity|]. cbn [map filter]. rewrite IH.
  destruct (p (g x)); reflexivity.
Qed.

Lemma filter_flat_map {A B} (p : B -> bool) (f : A -> list B) l :
  filter p (flat_map f l) = flat_map (fun x => filter p (f x)) l.
Proof. induction l; simpl; [reflexivity | rewrite filter_app, IHl; reflexivity]. Qed.

Lemma flat_map_ext_in {A B} (f g : A -> list B) l : (forall a, In a l -> f a = g a) -> flat_map f l = flat_map g l.
Proof.
  induction l; intros H; simpl; [reflexivity|].
  rewrite (H a) by (left; reflexivity). rewrite IHl by (intros; apply H; right; assumption). reflexivity.
Qed.

Lemma nth_map_lt {A B} (f : A -> B) l j d d' : j < length l -> nth j (map f l) d' = f (nth j l d).
Proof.
  revert j. induction l as [|x l IH]; intros j H; [cbn in H; lia|].
  destruct j; cbn; [reflexivity | apply IH; cbn in H; lia].
Qed.

Lemma nth_map_seq {A} (F : nat -> A) n i d : nth i (map F (seq 0 n)) d = if i <? n then F i else d.
Proof.
  destruct (Nat.ltb_spec i n).
  - rewrite (nth_map_lt _ _ _ 0) by (rewrite seq_length; assumption). rewrite seq_nth by assumption. reflexivity.
  - apply nth_overflow. rewrite map_length, seq_length. assumption.
Qed.

Lemma list_sum_map_add {A} (f g : A -> nat) l :
  list_sum (map (fun v => f v + g v) l) = list_sum (map f l) + list_sum (map g l).
Proof. induction l; simpl; [reflexivity | rewrite IHl; lia]. Qed.

Lemma all_same_nodup {A} (x : A) l : NoDup l -> In x l -> (forall y, In y l -> y = x) -> l = [x].
Proof.
  intros Hnd Hin Hall. destruct l as [|a l]; [destruct Hin|].
  assert (a = x) by (apply Hall; left; reflexivity). subst a.
  destruct l as [|b l]; [reflexivity|].
  assert (b = x) by (apply Hall; right; left; reflexivity). subst b.
  inversion Hnd as [|? ? Hn _]; subst. exfalso. apply Hn. left. reflexivity.
Qed.

Lemma list_sum_indicator (x : Z) l : NoDup l -> In x l -> list_sum (map (fun y => if Z.eqb x y then 1 else 0) l) = 1.
Proof.
  induction l as [|y l IH]; intros Hnd Hin; [destruct Hin|]. inversion Hnd as [|? ? Hn Hnd']; subst. cbn [map list_sum fold_right].
  destruct (Z.eqb_spec x y) as [->|Hne].
  - assert (Z0 : list_sum (map (fun z => if Z.eqb y z then 1 else 0) l) = 0).
    { clear IH Hnd Hnd' Hin. induction l as [|z l IH]; [reflexivity|]. cbn [map list_sum fold_right].
      destruct (Z.eqb_spec y z) as [->|_]; [exfalso; apply Hn; left; reflexivity|]. apply IH. intros H. apply Hn. right. exact H. }
    unfold list_sum in Z0. rewrite Z0. reflexivity.
  - destruct Hin as [E|Hin]; [congruence|]. exact (IH Hnd' Hin).
Qed.

Lemma snoc_cases {A} (l : list A) : l = [] \/ exists l' z, l = l' ++ [z].
Proof. destruct l as [|x l]; [left; reflexivity|]. right. destruct (exists_last (l := x :: l)) as [l' [z E]]; [discriminate|]. eauto. Qed.

Lemma nth_error_indexed {A B} (f : nat * A -> B) (l : list A) : forall a j,
  nth_error (map f (combine (seq a (length l)) l)) j = option_map (fun x => f ((a + j)%nat, x)) (nth_error l j).
Proof.
  induction l as [|x l IH]; intros a j; [destruct j; reflexivity|].
  destruct j as [|j]; cbn [length seq combine map nth_error option_map]; [rewrite Nat.add_0_r; reflexivity|].
  rewrite IH. replace (S a + j)%nat with (a + S j)%nat by lia. reflexivity.
Qed.
