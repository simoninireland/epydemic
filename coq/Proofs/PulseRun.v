(* The invariant of Proofs/PulseInv.v along whole runs: set-up, every event, both scheduler loops
   (every state a run passes through between events is [reach]able), and what the statements of C20
   read off it. *)
From Coq Require Import List ZArith QArith Qabs Bool Arith Lia Lqa.
From EpyV Require Import Lib.Prelude Lib.Lists Model.Kernel Model.Pulse Proofs.KernelBase Proofs.KernelLoops
  Proofs.PulseBase Proofs.PulseInv.
Import ListNotations.
Open Scope Q_scope.

Section Run.
Variable cfg : pcfg.
Variable ub : Q -> Q.
Hypothesis ub_mono : forall x y, x <= y -> ub x <= ub y.
Hypothesis ub_ahead : forall t c, c <= 1 -> ub (t + c * pc_period cfg) <= ub (t + pc_period cfg).
Variable oracle : list (rkind * Q).
Variable orders : list (list Z).
Notation tb := (pulse_table cfg oracle orders).

(* the states of a run between events *)
Inductive reach : kst -> Prop :=
| rc_setup rs ls ds : reach (setup_state tb rs ls ds)
| rc_discard s : reach s -> reach (discard s)
| rc_clock t s : reach s -> reach (set_clock t s)
| rc_stuck s : reach s -> reach (set_stuck s)
| rc_event s h : reach s -> head (queue s) = Some h -> e_live h = true -> reach (pend_step tb h s).

(* set-up runs the actions of initialisePhases and the probe from the empty kernel state *)
Definition empty_state (w : pworld) (rs ls : list Q) (ds : list nat) : kst :=
  {| clock := 0; nextid := 0; queue := []; loci := []; world := w;
     ids := []; out := []; rands := rs; lns := ls; draws := ds; stuck := false |}.

Lemma setup_eq rs ls ds : let st := init_phases cfg oracle orders in
  setup_state tb rs ls ds = run_actions 0 0 (EN 0) (snd st ++ probe cfg (fst st)) (empty_state (fst st) rs ls ds).
Proof. reflexivity. Qed.

Lemma link_empty s : queue s = [] -> ids s = [] -> link [] 0 s.
Proof.
  intros Eq Ei. split; unfold dead_id; rewrite ?Eq, ?Ei.
  - reflexivity.
  - constructor.
  - intros x [].
  - intros i [].
  - intros n k T Hn. discriminate.
  - intros x [].
Qed.

Lemma setup_PInv rs ls ds : good ub (pw_reqs (world (setup_state tb rs ls ds))) -> PInv cfg ub (setup_state tb rs ls ds).
Proof.
  intros Hg. rewrite setup_eq in *.
  destruct (init_phases_spec cfg oracle orders) as [HS HD].
  destruct (init_phases cfg oracle orders) as [w a]. cbn [fst snd] in *.
  set (s00 := empty_state w rs ls ds) in *.
  destruct (run_actions_frame 0 0 (EN 0) (a ++ probe cfg w) s00) as [_ [W O]]. change (world s00) with w in W.
  rewrite W in Hg. pose proof (kp_ft (steps_kept HS)) as F. pose proof (kp_fn (steps_kept HS)) as N.
  cbn [fst pw_ftimes pw_fnodes init_world] in F, N.
  assert (Y : sync cfg ub 0 (EN 0) s00 (fun _ => True) (w, a ++ probe cfg w)).
  { apply sync_queries; [apply probe_queries|].
    apply (sync_steps cfg ub ub_mono ub_ahead 0 (EN 0) s00 (Qle_refl 0) HS Hg).
    split; [apply link_empty; reflexivity|intros n _ k T E; discriminate E|intros n k T E; discriminate E]. }
  destruct Y as [L Pn Tm]. cbn [fst snd] in L, Pn, Tm.
  split; rewrite ?W, ?O, ?F, ?N.
  - exact L.
  - intros n. exact (Pn n I).
  - exact HD.
  - unfold lastT. rewrite F. exact Tm.
  - exact I.
  - reflexivity.
  - reflexivity.
Qed.

Lemma reach_Inv s : reach s -> good ub (pw_reqs (world s)) -> PInv cfg ub s.
Proof.
  induction 1 as [rs ls ds|s R IH|t s R IH|s R IH|s h R IH Hh Hl]; intros Hg.
  - apply setup_PInv, Hg.
  - apply PInv_discard, IH, Hg.
  - eapply PInv_ext; [| | | | |apply IH, Hg]; reflexivity.
  - eapply PInv_ext; [| | | | |apply IH, Hg]; reflexivity.
  - apply (pend_step_PInv cfg ub ub_mono ub_ahead oracle orders s h); [|exact Hh|exact Hl|exact Hg].
    apply IH. exact (good_incl ub _ _ (pend_step_reqs cfg oracle orders h s) Hg).
Qed.

Lemma run_pending_reach pf t n s : reach s -> reach (snd (run_pending tb pf t n s)).
Proof.
  intros R. rewrite <- run_pendingL_fst. destruct (run_pendingL tb pf t n s) as [[n' s'] l] eqn:E.
  refine (lift_run_pendingL tb (fun s _ => reach s) _ _ _ (lg := []) R E).
  - intros s1 _. apply rc_stuck.
  - intros s1 _. apply rc_discard.
  - intros h s1 _ Hh Hl R1. exact (rc_event s1 h R1 Hh Hl).
Qed.

(* the process has no stochastic events: both loops only run pending events *)
Lemma stoch_loop_reach pf fuel : forall t ev s, reach s -> reach (snd (stoch_loop tb pf fuel t ev s)).
Proof.
  induction fuel as [|f IH]; intros t ev s R; cbn [stoch_loop].
  - apply rc_stuck, R.
  - destruct (Qle_bool (t_maxtime tb) t || t_equil tb (loci s) (world s)); [exact R|].
    change (transitions tb) with (@nil (nat * nat * event)). cbn [sum_rates fold_left].
    change (Qeq_bool 0 0) with true. cbn iota.
    unfold next_pending_time.
    destruct (head (queue (discard s))) as [h|] eqn:Eh; cbn [option_map]; [|apply rc_discard, R].
    pose proof (run_pending_reach pf (e_time h) 0 (discard s) (rc_discard s R)) as R1.
    destruct (run_pending tb pf (e_time h) 0 (discard s)) as [n s'']. apply IH. exact R1.
Qed.

Lemma sync_loop_reach pf fuel : forall t ev k s, reach s -> reach (snd (sync_loop tb pf fuel t ev k s)).
Proof.
  induction fuel as [|f IH]; intros t ev k s R; cbn [sync_loop].
  - apply rc_stuck, R.
  - destruct (Qle_bool (t_maxtime tb) t || t_equil tb (loci s) (world s)); [exact R|].
    pose proof (run_pending_reach pf t 0 (set_clock t s) (rc_clock t s R)) as R1.
    destruct (run_pending tb pf t 0 (set_clock t s)) as [n s1]. cbn [snd] in R1.
    unfold tranche. change (per_element tb) with (@nil (nat * nat * event)). change (fixed_rate tb) with (@nil (nat * nat * event)).
    cbn [tranche_elem tranche_fixed app fire_tranche].
    apply IH. apply rc_clock, R1.
Qed.

Lemma stoch_run_reach pf fuel rs ls ds : reach (r_final (stoch_run tb pf fuel rs ls ds)).
Proof.
  unfold stoch_run.
  pose proof (stoch_loop_reach pf fuel 0 0%nat _ (rc_setup rs ls ds)) as R.
  destruct (stoch_loop tb pf fuel 0 0 (setup_state tb rs ls ds)) as [[t ev] s]. exact R.
Qed.

Lemma sync_run_reach pf fuel rs ds : reach (r_final (sync_run tb pf fuel rs ds)).
Proof.
  unfold sync_run.
  pose proof (sync_loop_reach pf fuel 1 0%nat 0%nat _ (rc_setup rs [] ds)) as R.
  destruct (sync_loop tb pf fuel 1 0 0 (setup_state tb rs [] ds)) as [[[t ev] k] s]. exact R.
Qed.

End Run.

Definition live_of (n : Z) (x : entry) : bool := e_live x && elem_eqb (e_elem x) (EN n).

Lemma link_one_live m np (s : kst) n k T : link m np s -> ev_look m n = Some (k, T) -> pending m s n ->
  filter (live_of n) (queue s) = [fentry T (nth k (ids s) 0%nat) n].
Proof.
  intros L Hn Hp. apply all_same_nodup.
  - apply NoDup_filter. eapply NoDup_map_inv. exact (lk_nodup L).
  - apply filter_In. split; [exact (Hp k T Hn)|]. unfold live_of. cbn. apply Z.eqb_refl.
  - intros y Hy. apply filter_In in Hy. destruct Hy as [Hy Hl]. unfold live_of in Hl.
    apply andb_true_iff in Hl. destruct Hl as [Hl He].
    destruct (lk_bwd L y Hy Hl) as [n' [k' [T' [A ->]]]]. cbn in He.
    apply Z.eqb_eq in He. subst n'. rewrite Hn in A. injection A as <- <-. reflexivity.
Qed.

(* With only the lower hypothesis on the oracle: the largest answer in the log bounds every answer, so
   [good_lo] is [good] for that constant bound. *)
Definition qmax (a b : Q) : Q := if Qle_bool a b then b else a.
Definition maxans (l : list req) : Q := fold_right (fun r a => qmax (rq_ans r) a) 0 l.

Lemma qmax_l a b : a <= qmax a b.
Proof. unfold qmax. destruct (Qle_bool a b) eqn:E; [apply Qle_bool_iff in E; exact E|lra]. Qed.
Lemma qmax_r a b : b <= qmax a b.
Proof. unfold qmax. destruct (Qle_bool a b) eqn:E; [lra|apply Qle_bool_false in E; lra]. Qed.

Lemma maxans_ge l r : In r l -> rq_ans r <= maxans l.
Proof.
  induction l as [|x l IH]; [intros []|]. cbn [maxans fold_right]. intros [<-|H].
  - apply qmax_l.
  - eapply Qle_trans; [apply IH, H|apply qmax_r].
Qed.

Lemma good_lo_good l : good_lo l -> good (fun _ => maxans l) l.
Proof. intros H r Hr. split; [apply H, Hr|]. intros _. apply maxans_ge, Hr. Qed.

(* the invariant under the lower hypothesis alone, on any log l that extends the state's (so that the states of
   one event can share the bound): all of it but the upper time bound, which is the constant above *)
Lemma reach_PInv_lo cfg oracle orders (s : kst) l : reach cfg oracle orders s -> incl (pw_reqs (world s)) l ->
  good_lo l -> PInv cfg (fun _ => maxans l) s.
Proof.
  intros R Hi Hg. apply (reach_Inv cfg (fun _ => maxans l) (fun x y _ => Qle_refl _) (fun t c _ => Qle_refl _) oracle orders s R).
  exact (good_incl _ _ _ Hi (good_lo_good l Hg)).
Qed.

(* a boolean form of the hypothesis on the oracle, for concrete runs *)
Definition good_b (eps : Q) (l : list req) : bool :=
  forallb (fun r => match rq_kind r with
                    | RT => Qle_bool (rq_t r) (rq_ans r) && Qle_bool (rq_ans r) (rq_arg r + eps)
                    | _ => true end) l.
Lemma good_b_good eps l : good_b eps l = true -> good (fun x => x + eps) l.
Proof.
  unfold good_b. rewrite forallb_forall. intros H r Hr. specialize (H r Hr).
  split; intros E; rewrite E in H; apply andb_true_iff in H; destruct H as [H1 H2]; apply Qle_bool_iff; assumption.
Qed.
