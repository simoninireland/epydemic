(* The kernel table of a (nested) ProcessSequence (kprocs of Model/Sequence.v): its events are
   the concatenation of the component processes' events; the distributions that the sequence
   builds itself are the two halves of the kernel's event list; and putting in a process
   without stochastic events only renumbers the processes behind it. *)
From Coq Require Import List ZArith QArith Bool Arith String Lia.
From EpyV Require Import Lib.Lists Model.Kernel Model.Sequence Proofs.KernelRelabel Proofs.Sequence.
Import ListNotations.
Close Scope Q_scope.
Open Scope list_scope.

(* the union of the components' events, by recursion on the nesting *)
Fixpoint tree_events (t : ptree procdesc) : list event :=
  match t with
  | Leaf p => p_events (kproc p)
  | Seq cs => flat_map tree_events cs
  | NamedSeq cs => flat_map (fun nc => tree_events (snd nc)) cs
  end.

Lemma tree_events_seq t : is_seq t = true -> tree_events t = flat_map tree_events (children t).
Proof. destruct t as [p|cs|cs]; [discriminate|reflexivity|]. intros _. symmetry. apply flat_map_map. Qed.

Lemma tree_events_flat (t : ptree procdesc) : flat_map p_events (kprocs t) = tree_events t.
Proof.
  unfold kprocs. rewrite flat_map_map.
  induction t as [p|t Ht IH] using ptree_ind'; [apply app_nil_r|].
  rewrite (all_processes_seq t Ht), (tree_events_seq t Ht).
  induction IH as [|c cs Hc _ IHl]; cbn [flat_map]; [reflexivity|]. rewrite flat_map_app, Hc, IHl. reflexivity.
Qed.

Definition strip (x : nat * nat * event) : nat * event := (fst (fst x), snd x).

Lemma filter_index_events (f : event -> bool) pi j evs :
  map strip (filter (fun x => f (snd x)) (index_events pi j evs)) = map (pair pi) (filter f evs).
Proof.
  revert j. induction evs as [|e evs IH]; intro j; simpl; [reflexivity|].
  destruct (f e); simpl; rewrite IH; reflexivity.
Qed.

Lemma filter_map_const {A B} (f : B -> bool) (g : A -> B) (b : bool) (l : list A) :
  (forall a, f (g a) = b) -> filter f (map g l) = if b then map g l else [].
Proof.
  intro H. induction l as [|a l IH]; simpl; [destruct b; reflexivity|]. rewrite H, IH. destruct b; reflexivity.
Qed.

(* kproc lists the per-element events first, and kevent records the kind *)
Lemma filter_elem_kproc p :
  filter ev_elem (p_events (kproc p)) = map (kevent true) (pd_elem p)
  /\ filter (fun e => negb (ev_elem e)) (p_events (kproc p)) = map (kevent false) (pd_fixed p).
Proof.
  simpl. rewrite !filter_app.
  rewrite (filter_map_const ev_elem (kevent true) true), (filter_map_const ev_elem (kevent false) false),
    (filter_map_const (fun e => negb (ev_elem e)) (kevent true) false),
    (filter_map_const (fun e => negb (ev_elem e)) (kevent false) true) by reflexivity.
  rewrite app_nil_r. split; reflexivity.
Qed.

Lemma dist_from_kernel (f : event -> bool) pi (ps : list procdesc) :
  map strip (filter (fun x => f (snd x)) (all_events_from pi (map kproc ps)))
  = dist_from (fun p => filter f (p_events (kproc p))) pi ps.
Proof.
  revert pi. induction ps as [|p ps IH]; intro pi; [reflexivity|].
  cbn [map all_events_from dist_from]. rewrite filter_app, map_app, filter_index_events, IH. reflexivity.
Qed.

Lemma dist_from_map {X Y} (g : X -> Y) (sel : procdesc -> list X) (sel' : procdesc -> list Y) pi ps :
  (forall p, sel' p = map g (sel p)) ->
  dist_from sel' pi ps = map (fun x => (fst x, g (snd x))) (dist_from sel pi ps).
Proof.
  intro H. revert pi. induction ps as [|p ps IH]; intro pi; simpl; [reflexivity|].
  rewrite map_app, H, IH, !map_map. reflexivity.
Qed.

(* renumbering of the processes behind position k; GillespieRates.shift, for an observer in
   front of all processes, is shift 0 *)
Definition shift (k : nat) (x : nat * nat * event) : nat * nat * event :=
  let '(pi, j, e) := x in (if Nat.leb k pi then S pi else pi, j, e).

Lemma shift_snd k x : snd (shift k x) = snd x.
Proof. destruct x as [[pi j] e]. reflexivity. Qed.

Lemma shift_lt k pi j e : pi < k -> shift k (pi, j, e) = (pi, j, e).
Proof. intro H. simpl. destruct (Nat.leb_spec k pi); [lia|reflexivity]. Qed.

Lemma shift_ge k pi j e : k <= pi -> shift k (pi, j, e) = (S pi, j, e).
Proof. intro H. simpl. destruct (Nat.leb_spec k pi); [reflexivity|lia]. Qed.

Lemma all_events_from_shift_ge k pi ps : k <= pi ->
  map (shift k) (all_events_from pi ps) = all_events_from (S pi) ps.
Proof.
  revert pi. induction ps as [|p ps IH]; intros pi H; simpl; [reflexivity|].
  rewrite map_app, IH by lia. rewrite (index_events_relabel (shift k) pi (S pi)); [reflexivity|].
  intros j e. apply shift_ge, H.
Qed.

(* a process without events, put in at position length ps1 *)
Lemma all_events_from_insert n ps1 o ps2 : p_events o = [] ->
  all_events_from n (ps1 ++ o :: ps2) = map (shift (n + List.length ps1)) (all_events_from n (ps1 ++ ps2)).
Proof.
  intro Ho. revert n. induction ps1 as [|p ps1 IH]; intro n; simpl.
  - rewrite Ho. simpl. rewrite Nat.add_0_r. symmetry. apply all_events_from_shift_ge. lia.
  - rewrite map_app, IH, Nat.add_succ_r. rewrite (index_events_relabel _ n n); [reflexivity|].
    intros j e. apply shift_lt. lia.
Qed.

(* the same renumbering on what the tranche selects, for an observer put in behind ps1 *)
Section Passive.
Variable ps1 : list proc.
Let k := List.length ps1.

Definition shift_sel (xe : (nat * nat * event) * elem) := (shift k (fst xe), snd xe).
End Passive.

Lemma shift_sel_relabel ps1 : shift_sel ps1 = relabel_sel (shift (List.length ps1)).
Proof. reflexivity. Qed.

(* a leaf with empty event tables anywhere in a sequence is such a process *)
Lemma kprocs_insert_leaf (cs1 cs2 : list (ptree procdesc)) (o : procdesc) :
  kprocs (Seq (cs1 ++ Leaf o :: cs2)) = kprocs (Seq cs1) ++ kproc o :: kprocs (Seq cs2)
  /\ kprocs (Seq (cs1 ++ cs2)) = kprocs (Seq cs1) ++ kprocs (Seq cs2).
Proof.
  unfold kprocs. simpl. rewrite !flat_map_app. simpl. rewrite !map_app. simpl. split; reflexivity.
Qed.

Lemma kproc_passive (o : procdesc) : pd_elem o = [] -> pd_fixed o = [] -> p_events (kproc o) = [].
Proof. intros H1 H2. simpl. rewrite H1, H2. reflexivity. Qed.
