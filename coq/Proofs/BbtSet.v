(* C09: the Good invariant is kept by add and discard, and the tree refines the abstract
   set (a strictly ascending list).  Uses the rotation specification of BbtRot.v.
   Then: histories and queries of DrawSet; the order-preserving encoding of int pairs;
   the logarithmic height of a balanced tree; soundness of the boolean checks that tie
   level 2 evaluates on a dumped tree. *)
From Coq Require Import ZArith List Bool Arith Lia Sorted.
From EpyV Require Import Model.Bbt Proofs.BbtRot Tie.C09.
Import ListNotations. Close Scope Z_scope. Open Scope nat_scope.

Fixpoint sorted (l : list Z) : Prop :=
  match l with [] => True | x :: l' => Forall (fun y => (x < y)%Z) l' /\ sorted l' end.

Lemma sorted_app l1 d l2 :
  sorted (l1 ++ d :: l2) <->
  sorted l1 /\ sorted l2 /\ Forall (fun x => (x < d)%Z) l1 /\ Forall (fun x => (d < x)%Z) l2.
Proof.
  induction l1 as [|x l1 IH]; cbn [app sorted].
  - split; [intros [H1 H2]; auto | intros (_ & H2 & _ & H4); auto].
  - rewrite IH. rewrite Forall_app. split.
    + intros ([Ha Hb] & H1 & H2 & H3 & H4). inversion Hb; subst. repeat split; auto.
    + intros ((Ha & H1) & H2 & H3 & H4). inversion H3; subst. repeat split; auto.
      constructor; [assumption|]. eapply Forall_impl; [|exact H4]. cbn. intros; lia.
Qed.

Lemma sorted_app2 l1 l2 :
  sorted l1 -> sorted l2 -> (forall x y, In x l1 -> In y l2 -> (x < y)%Z) -> sorted (l1 ++ l2).
Proof.
  induction l1 as [|x l1 IH]; cbn [app sorted]; [auto|].
  intros [Ha H1] H2 H. split.
  - apply Forall_app. split; [assumption|]. apply Forall_forall. intros y Hy. apply H; [left; reflexivity|assumption].
  - apply IH; auto. intros; apply H; [right|]; assumption.
Qed.

Lemma sorted_StronglySorted l : sorted l <-> StronglySorted Z.lt l.
Proof.
  induction l as [|x l IH]; cbn [sorted].
  - split; [constructor|auto].
  - split.
    + intros [H1 H2]. constructor; [apply IH; assumption|assumption].
    + intros H. inversion H; subst. split; [assumption|apply IH; assumption].
Qed.

Lemma sorted_NoDup l : sorted l -> NoDup l.
Proof.
  induction l as [|x l IH]; cbn [sorted]; [constructor|].
  intros [H1 H2]. constructor; [|auto].
  intro Hin. rewrite Forall_forall in H1. specialize (H1 _ Hin). lia.
Qed.

(* [ins] and [del] go down a list cut at [d] as [add] and [discard] go down a node holding [d] *)
Lemma ins_app e d l1 l2 : Forall (fun x => (x < d)%Z) l1 ->
  ins e (l1 ++ d :: l2) =
  if (e =? d)%Z then l1 ++ d :: l2 else if (e <? d)%Z then ins e l1 ++ d :: l2 else l1 ++ d :: ins e l2.
Proof.
  induction 1 as [|x l1 Hx _ IH]; cbn [app ins]; [reflexivity|]. rewrite IH.
  destruct (Z.eqb_spec e x), (Z.ltb_spec e x), (Z.eqb_spec e d), (Z.ltb_spec e d); (reflexivity || lia).
Qed.
Lemma del_app e d l1 l2 : Forall (fun x => (x < d)%Z) l1 ->
  del e (l1 ++ d :: l2) =
  if (e =? d)%Z then l1 ++ l2 else if (e <? d)%Z then del e l1 ++ d :: l2 else l1 ++ d :: del e l2.
Proof.
  induction 1 as [|x l1 Hx _ IH]; cbn [app del]; [reflexivity|]. rewrite IH.
  destruct (Z.eqb_spec e x), (Z.ltb_spec e x), (Z.eqb_spec e d), (Z.ltb_spec e d); (reflexivity || lia).
Qed.
Lemma del_absent_small e l : Forall (fun x => (e < x)%Z) l -> del e l = l.
Proof.
  destruct l as [|x l]; [reflexivity|]. intros H. inversion H; subst. cbn [del].
  destruct (Z.eqb_spec e x); [lia|]. destruct (Z.ltb_spec e x); [reflexivity|lia].
Qed.

Lemma ins_In e l x : In x (ins e l) <-> x = e \/ In x l.
Proof.
  induction l as [|y l IH]; cbn [ins].
  - cbn. intuition.
  - destruct (Z.eqb_spec e y).
    + subst. cbn. intuition.
    + destruct (Z.ltb_spec e y); cbn [In]; [intuition|]. rewrite IH. intuition.
Qed.
Lemma del_In e l x : sorted l -> (In x (del e l) <-> In x l /\ x <> e).
Proof.
  induction l as [|y l IH]; cbn [del sorted]; [cbn; intuition|].
  intros [H1 H2]. rewrite Forall_forall in H1.
  destruct (Z.eqb_spec e y).
  - subst. cbn [In]. split.
    + intros Hx. split; [right; assumption|]. specialize (H1 _ Hx). lia.
    + intros [[Hx|Hx] Hne]; [congruence|assumption].
  - destruct (Z.ltb_spec e y); cbn [In].
    + split; [|intuition]. intros [Hx|Hx]; (split; [auto|]); [lia|]. specialize (H1 _ Hx). lia.
    + rewrite IH by assumption. split; [intuition; lia|]. intros [[Hx|Hx] Hne]; [left; assumption|right; auto].
Qed.
Lemma ins_Forall (P : Z -> Prop) e l : P e -> Forall P l -> Forall P (ins e l).
Proof. intros He H. apply Forall_forall. intros x Hx. apply ins_In in Hx. destruct Hx as [->|Hx]; [assumption|]. rewrite Forall_forall in H. auto. Qed.
Lemma del_subset e l x : In x (del e l) -> In x l.
Proof.
  induction l as [|y l IH]; cbn [del]; [auto|].
  destruct (Z.eqb_spec e y); [right; assumption|].
  destruct (Z.ltb_spec e y); [auto|]. cbn [In]. intros [Hx|Hx]; [left; assumption|right; auto].
Qed.
Lemma del_Forall (P : Z -> Prop) e l : Forall P l -> Forall P (del e l).
Proof. intros H. apply Forall_forall. intros x Hx. apply del_subset in Hx. rewrite Forall_forall in H. auto. Qed.
Lemma ins_sorted e l : sorted l -> sorted (ins e l).
Proof.
  induction l as [|y l IH]; cbn [ins sorted]; [auto|].
  intros [H1 H2]. destruct (Z.eqb_spec e y); [cbn [sorted]; auto|].
  destruct (Z.ltb_spec e y); cbn [sorted].
  - split; [|auto]. constructor; [assumption|]. eapply Forall_impl; [|exact H1]. cbn; intros; lia.
  - split; [|auto]. apply ins_Forall; [lia|assumption].
Qed.
Lemma del_sorted e l : sorted l -> sorted (del e l).
Proof.
  induction l as [|y l IH]; cbn [del sorted]; [auto|].
  intros [H1 H2]. destruct (Z.eqb_spec e y); [assumption|].
  destruct (Z.ltb_spec e y); cbn [sorted]; [auto|]. split; [apply del_Forall; assumption|auto].
Qed.

Definition BST (t : tree) : Prop := sorted (inorder t).
Definition Good (t : tree) : Prop := BST t /\ Inv t.

Lemma size_0 t : size t = 0 -> t = Leaf.
Proof. destruct t; [reflexivity|cbn [size]; lia]. Qed.
Lemma ht_0 t : ht t = 0 -> t = Leaf.
Proof. destruct t; [reflexivity|cbn [ht]; lia]. Qed.
Lemma inv_single e : Inv (Node Leaf e 0 0 0 Leaf).
Proof. split; cbn; auto 10. Qed.

Lemma find_In e t : BST t -> (find e t = true <-> In e (inorder t)).
Proof.
  unfold BST. induction t as [|l IHl d h ls rs r IHr]; cbn [find inorder]; intros Hb.
  - cbn. split; [discriminate|tauto].
  - apply sorted_app in Hb. destruct Hb as (Hsl & Hsr & Hfl & Hfr).
    rewrite Forall_forall in Hfl, Hfr. rewrite in_app_iff. cbn [In].
    destruct (Z.eqb_spec e d) as [->|Hne]; [split; auto|].
    destruct (Z.ltb_spec e d) as [Hlt|Hge].
    + rewrite IHl by assumption. split; [auto|]. intros [H|[H|H]]; [assumption|congruence|].
      specialize (Hfr _ H). lia.
    + rewrite IHr by assumption. split; [auto|]. intros [H|[H|H]]; [|congruence|assumption].
      specialize (Hfl _ H). lia.
Qed.

(* What [add] reports with its status: after [Rotated] (and [Dup]) the height is what it was and the
   ancestors only update their fields; after [Added] it may have grown by one, and then the new tree
   is a single node or is not level, so that a rotation above it lowers the height again. *)
Definition AddPost (t t' : tree) (st : ast) : Prop :=
  Inv t' /\
  match st with
  | Dup => t' = t
  | Added => ht t' = ht t \/ ht t' = S (ht t) /\ (ht t' = 1 \/ ~ level t')
  | Rotated => ht t' = ht t
  end.

Lemma addpost_refl t st : Inv t -> AddPost t t st.
Proof. intros H. split; [exact H|]. destruct st; auto. Qed.

(* one level of [add] on the way back up, whichever child was descended into *)
Lemma add_up l l' d r r' st : Inv l -> Inv r -> ht l <= S (ht r) -> ht r <= S (ht l) ->
  AddPost l l' st -> AddPost r r' st -> l' = l \/ r' = r ->
  let res := match st with
             | Dup => (mk l d r, Dup)
             | Added => let t' := mk l' d r' in if unbal t' then (rot (S (sh t')) t', Rotated) else (t', Added)
             | Rotated => (mk l' d r', Rotated)
             end in
  AddPost (mk l d r) (fst res) (snd res) /\ inorder (fst res) = inorder l' ++ d :: inorder r'.
Proof.
  intros Hl Hr B1 B2 [Hl' Pl] [Hr' Pr] Hone.
  assert (Hh : ht l' = ht l \/ ht r' = ht r) by (destruct Hone as [-> | ->]; auto).
  destruct st; cbv zeta.
  - subst l' r'. split; [apply addpost_refl, inv_mk; assumption|reflexivity].
  - destruct (unbal_mk l' d r' (proj1 Hl') (proj1 Hr')) as [Hu|Hb]; cbn [fst snd].
    + destruct (rot_drop l' d r' Hl' Hr') as (Hi & Hin & D1 & D2); [lia|].
      split; [split; [exact Hi|]|exact Hin]. rewrite ht_mk.
      (* the child that is too high has grown, into more than a single node: the rotation lowers *)
      destruct Hu as [Hu|Hu].
      * destruct Pl as [Pl|(Pl & [Pl1|Lv])]; [lia|lia|]. rewrite D1; [lia|lia|exact Lv].
      * destruct Pr as [Pr|(Pr & [Pr1|Lv])]; [lia|lia|]. rewrite D2; [lia|lia|exact Lv].
    + split; [|reflexivity]. split; [apply inv_mk; (assumption || lia)|].
      cbn [level mk]. rewrite !ht_mk. lia.
  - cbn [fst snd]. split; [|reflexivity]. split; [apply inv_mk; (assumption || lia)|]. rewrite !ht_mk. lia.
Qed.

Lemma add_spec e t : Inv t -> BST t ->
  AddPost t (fst (add e t)) (snd (add e t)) /\ inorder (fst (add e t)) = ins e (inorder t).
Proof.
  induction t as [|l IHl d h ls rs r IHr]; intros Hi Hb.
  - split; [|reflexivity]. split; [apply inv_single|]. right. cbn. auto.
  - destruct (inv_node Hi) as (Hl & Hr & Heq & H1 & H2).
    apply sorted_app in Hb. destruct Hb as (Hsl & Hsr & Hfl & Hfr).
    cbn [add inorder]. rewrite ins_app by assumption.
    destruct (e =? d)%Z; [split; [apply addpost_refl, Hi|reflexivity]|].
    destruct (e <? d)%Z.
    + destruct (IHl Hl Hsl) as [IH1 IH2]. destruct (add e l) as [l' st]. cbn [fst snd] in IH1, IH2.
      rewrite <- IH2, Heq. apply add_up; try assumption; [apply addpost_refl, Hr|right; reflexivity].
    + destruct (IHr Hr Hsr) as [IH1 IH2]. destruct (add e r) as [r' st]. cbn [fst snd] in IH1, IH2.
      rewrite <- IH2, Heq. apply add_up; try assumption; [apply addpost_refl, Hl|left; reflexivity].
Qed.

Theorem add_good e t : Good t -> Good (fst (add e t)) /\ inorder (fst (add e t)) = ins e (inorder t).
Proof.
  intros [Hb Hi]. destruct (add_spec e t Hi Hb) as [[Hi' _] Hin].
  split; [|exact Hin]. split; [|exact Hi']. unfold BST. rewrite Hin. apply ins_sorted, Hb.
Qed.

(* what removing at most one element leaves of a tree of height [h]: height the same or one less *)
Definition Shrunk (h : nat) (t' : tree) : Prop := Inv t' /\ (ht t' = h \/ S (ht t') = h).

Lemma shrunk_refl t : Inv t -> Shrunk (ht t) t.
Proof. intros H. split; [exact H|left; reflexivity]. Qed.

(* [rebal] at a node below which something was removed, on either side *)
Lemma rebal_shrunk l l' d r r' : Shrunk (ht l) l' -> Shrunk (ht r) r' -> ht l <= S (ht r) -> ht r <= S (ht l) ->
  let t' := rebal (mk l' d r') in
  Shrunk (S (Nat.max (ht l) (ht r))) t' /\ inorder t' = inorder l' ++ d :: inorder r'.
Proof.
  intros [Hl' Pl] [Hr' Pr] B1 B2.
  destruct (rebal_repair l' d r' Hl' Hr') as (Hi & Hin & Hh); [lia|lia|].
  split; [split; [exact Hi|lia]|exact Hin].
Qed.

Lemma remove_max_spec t : Inv t -> t <> Leaf ->
  exists m t', remove_max t = Some (m, t') /\ Shrunk (ht t) t' /\ inorder t = inorder t' ++ [m].
Proof.
  induction t as [|l IHl d h ls rs r IHr]; intros Hi Hne; [congruence|].
  destruct (inv_node Hi) as (Hl & Hr & Heq & H1 & H2).
  cbn [remove_max]. destruct r as [|rl rd rh rls rrs rr].
  - exists d, l. split; [reflexivity|]. split; [|reflexivity].
    split; [exact Hl|]. cbn [ht]. right. rewrite Nat.max_0_r. reflexivity.
  - destruct (IHr Hr) as (m & r' & -> & Hsh & Hin); [discriminate|].
    exists m, (rebal (mk l d r')). split; [reflexivity|].
    destruct (rebal_shrunk l l d _ r' (shrunk_refl l Hl) Hsh H1 H2) as [Hs Hi'].
    split; [exact Hs|]. rewrite Heq, Hi', inorder_mk, Hin. symmetry. apply app_mid.
Qed.
Lemma remove_min_spec t : Inv t -> t <> Leaf ->
  exists m t', remove_min t = Some (m, t') /\ Shrunk (ht t) t' /\ inorder t = m :: inorder t'.
Proof.
  induction t as [|l IHl d h ls rs r IHr]; intros Hi Hne; [congruence|].
  destruct (inv_node Hi) as (Hl & Hr & Heq & H1 & H2).
  cbn [remove_min]. destruct l as [|ll ld lh lls lrs lr].
  - exists d, r. split; [reflexivity|]. split; [|reflexivity].
    split; [exact Hr|]. right. reflexivity.
  - destruct (IHl Hl) as (m & l' & -> & Hsh & Hin); [discriminate|].
    exists m, (rebal (mk l' d r)). split; [reflexivity|].
    destruct (rebal_shrunk _ l' d r r Hsh (shrunk_refl r Hr) H1 H2) as [Hs Hi'].
    split; [exact Hs|]. rewrite Heq, Hi', inorder_mk, Hin. reflexivity.
Qed.

(* removing the entry of the root (bbt.py:331-399): the node is replaced by its only child, or its entry
   by the in-order neighbour taken from the side with the larger stored height *)
Lemma discard_root l d h ls rs r : Inv (Node l d h ls rs r) ->
  let t' := fst (discard d (Node l d h ls rs r)) in
  Shrunk (ht (Node l d h ls rs r)) t' /\ inorder t' = inorder l ++ inorder r.
Proof.
  intros Hi. destruct (inv_node Hi) as (Hl & Hr & _ & H1 & H2).
  cbn [discard]. rewrite Z.eqb_refl.
  destruct l as [|ll ld lh lls lrs lr] eqn:El; [|destruct r as [|rl rd rh rls rrs rr] eqn:Er].
  - assert (E : (match r with Leaf => (Leaf, true) | _ => (r, true) end) = (r, true)) by (destruct r; reflexivity).
    rewrite E. split; [|reflexivity]. split; [exact Hr|]. right. reflexivity.
  - split; [|symmetry; apply app_nil_r]. split; [exact Hl|]. cbn [ht]. right. rewrite Nat.max_0_r. reflexivity.
  - rewrite <- El, <- Er in *. cbn [ht]. destruct (stored_h r <? stored_h l).
    + destruct (remove_max_spec l Hl) as (m & l' & -> & Hsh & Hin); [subst l; discriminate|].
      destruct (rebal_shrunk l l' m r r Hsh (shrunk_refl r Hr) H1 H2) as [Hs Hin'].
      split; [exact Hs|]. cbn [fst]. rewrite Hin', Hin. symmetry. apply app_mid.
    + destruct (remove_min_spec r Hr) as (m & r' & -> & Hsh & Hin); [subst r; discriminate|].
      destruct (rebal_shrunk l l m r r' (shrunk_refl l Hl) Hsh H1 H2) as [Hs Hin'].
      split; [exact Hs|]. cbn [fst]. rewrite Hin', Hin. reflexivity.
Qed.

Lemma discard_find e t : snd (discard e t) = find e t /\ (find e t = false -> fst (discard e t) = t).
Proof.
  induction t as [|l IHl d h ls rs r IHr]; [split; reflexivity|]. cbn [discard find].
  destruct (e =? d)%Z; [split; [|discriminate]|].
  - destruct l, r; try reflexivity.
    destruct (_ <? _); [destruct (remove_max _) as [[? ?]|]|destruct (remove_min _) as [[? ?]|]]; reflexivity.
  - destruct (e <? d)%Z.
    + destruct IHl as [<- _]. destruct (discard e l) as [l' []]; split; (reflexivity || discriminate).
    + destruct IHr as [<- _]. destruct (discard e r) as [r' []]; split; (reflexivity || discriminate).
Qed.

Lemma discard_spec e t : Inv t -> BST t ->
  Shrunk (ht t) (fst (discard e t)) /\ inorder (fst (discard e t)) = del e (inorder t).
Proof.
  induction t as [|l IHl d h ls rs r IHr]; intros Hi Hb.
  - split; [apply (shrunk_refl Leaf), inv_leaf|reflexivity].
  - destruct (inv_node Hi) as (Hl & Hr & _ & H1 & H2).
    apply sorted_app in Hb. destruct Hb as (Hsl & Hsr & Hfl & Hfr).
    cbn [inorder]. rewrite del_app by assumption.
    destruct (Z.eqb_spec e d) as [->|Hne]; [apply discard_root, Hi|].
    cbn [discard]. rewrite (proj2 (Z.eqb_neq e d) Hne). destruct (e <? d)%Z.
    + destruct (IHl Hl Hsl) as [IH1 IH2]. rewrite <- IH2.
      destruct (discard_find e l) as [Ep Eid]. destruct (discard e l) as [l' []]; cbn [fst snd] in *.
      * apply rebal_shrunk; [exact IH1|apply shrunk_refl, Hr|exact H1|exact H2].
      * rewrite Eid by (symmetry; exact Ep). split; [apply shrunk_refl, Hi|reflexivity].
    + destruct (IHr Hr Hsr) as [IH1 IH2]. rewrite <- IH2.
      destruct (discard_find e r) as [Ep Eid]. destruct (discard e r) as [r' []]; cbn [fst snd] in *.
      * apply rebal_shrunk; [apply shrunk_refl, Hl|exact IH1|exact H1|exact H2].
      * rewrite Eid by (symmetry; exact Ep). split; [apply shrunk_refl, Hi|reflexivity].
Qed.

Theorem discard_good e t : Good t ->
  Good (fst (discard e t)) /\ inorder (fst (discard e t)) = del e (inorder t).
Proof.
  intros [Hb Hi]. destruct (discard_spec e t Hi Hb) as ([Hi' _] & Hin).
  split; [|exact Hin]. split; [|exact Hi']. unfold BST. rewrite Hin. apply del_sorted, Hb.
Qed.
Theorem discard_present e t : BST t -> (snd (discard e t) = true <-> In e (inorder t)).
Proof. intros Hb. rewrite (proj1 (discard_find e t)). apply find_In, Hb. Qed.

Lemma good_leaf : Good Leaf.
Proof. split; [exact I|apply inv_leaf]. Qed.

Lemma apply_cases t o :
  apply t o = match o with A e => fst (add e t) | D e => fst (discard e t)
                      | R e => fst (discard e t) | _ => t end.
Proof.
  unfold apply, step. destruct o as [e|e|e|ints|e|]; try reflexivity.
  - destruct (discard_find e t) as [Ep Eid]. destruct (discard e t) as [t' []]; cbn [fst snd] in *; [reflexivity|].
    symmetry. apply Eid. symmetry. exact Ep.
  - destruct t; [reflexivity|]. destruct (run_ct _ ints). reflexivity.
Qed.

Theorem apply_good t o : Good t -> Good (apply t o) /\ inorder (apply t o) = aapply (inorder t) o.
Proof.
  intros H. rewrite apply_cases. destruct o; cbn [aapply]; try (split; [exact H|reflexivity]);
    [apply add_good|apply discard_good|apply discard_good]; exact H.
Qed.

Lemma fold_good ops : forall t, Good t ->
  Good (fold_left apply ops t) /\ inorder (fold_left apply ops t) = fold_left aapply ops (inorder t).
Proof.
  induction ops as [|o ops IH]; intros t H; cbn [fold_left]; [auto|].
  destruct (apply_good t o H) as [H1 H2]. rewrite <- H2. apply IH, H1.
Qed.
Theorem history_good ops : Good (run ops).
Proof. apply (fold_good ops Leaf good_leaf). Qed.
Theorem history_inorder ops : inorder (run ops) = aset ops.
Proof. apply (fold_good ops Leaf good_leaf). Qed.

Lemma aset_snoc ops o : aset (ops ++ [o]) = aapply (aset ops) o.
Proof. unfold aset. rewrite fold_left_app. reflexivity. Qed.
Lemma aset_sorted ops : sorted (aset ops).
Proof. rewrite <- history_inorder. apply history_good. Qed.

Lemma len_inorder t : Ok t -> len t = length (inorder t).
Proof. intros Ho. unfold len. rewrite ok_slen by assumption. apply size_inorder. Qed.
Lemma is_empty_iff t : is_empty t = true <-> inorder t = [].
Proof.
  destruct t as [|l d h ls rs r]; cbn [is_empty inorder]; [tauto|].
  split; [discriminate|]. intros H. destruct (inorder l); discriminate.
Qed.

Lemma remove_spec e t : BST t ->
  (In e (inorder t) -> step t (R e) = (fst (discard e t), RUnit, [])) /\
  (~ In e (inorder t) -> step t (R e) = (t, RKeyError, [])).
Proof.
  intros H. pose proof (discard_present e t H) as Hp. cbn [step].
  destruct (discard e t) as [t' p]. cbn [fst snd] in *. destruct p.
  - split; [reflexivity|]. intros Hn. exfalso. apply Hn, Hp. reflexivity.
  - split; [|reflexivity]. intros Hin. apply Hp in Hin. discriminate.
Qed.

(* (a, b) |-> a * K + b is an order isomorphism from lexicographic pairs with 0 <= b < K:
   if a < c then a*K + b < (a+1)*K <= c*K <= c*K + d, and symmetrically for c < a; these are the
   products nia has to find *)
Lemma pair_code_lt K a b c d : (0 <= b < K)%Z -> (0 <= d < K)%Z ->
  ((a * K + b < c * K + d)%Z <-> (a < c)%Z \/ (a = c /\ b < d)%Z).
Proof. intros Hb Hd. split; [intros H|intros [H|[-> H]]]; nia. Qed.
Lemma pair_code_eq K a b c d : (0 <= b < K)%Z -> (0 <= d < K)%Z ->
  ((a * K + b = c * K + d)%Z <-> a = c /\ b = d).
Proof. intros Hb Hd. split; [intros H|intros [-> ->]; reflexivity]. assert (a = c) by nia. subst. split; [reflexivity|lia]. Qed.

Lemma pow_half_mono a b : a <= b -> 2 ^ (a / 2) <= 2 ^ (b / 2).
Proof. intros H. apply Nat.pow_le_mono_r; [lia|]. apply Nat.div_le_mono; lia. Qed.
Lemma pow_half_step a : 2 ^ ((a + 2) / 2) = 2 * 2 ^ (a / 2).
Proof.
  replace (a + 2) with (a + 1 * 2) by lia. rewrite Nat.div_add by lia.
  rewrite Nat.add_1_r, Nat.pow_succ_r'. reflexivity.
Qed.

Theorem height_bound t : Bal t -> 2 ^ (ht t / 2) <= size t + 1.
Proof.
  induction t as [|l IHl d h ls rs r IHr]; intros Hb; [cbn; lia|].
  destruct Hb as (Hbl & Hbr & H1 & H2). specialize (IHl Hbl). specialize (IHr Hbr).
  cbn [ht size].
  destruct (Nat.eq_dec (Nat.max (ht l) (ht r)) 0) as [H0|H0].
  - rewrite H0. cbn. lia.
  - (* both children have height at least max - 1 *)
    set (m := Nat.max (ht l) (ht r)) in *.
    assert (Hm : S m = (m - 1) + 2) by lia. rewrite Hm, pow_half_step.
    pose proof (pow_half_mono (m - 1) (ht l) ltac:(lia)).
    pose proof (pow_half_mono (m - 1) (ht r) ltac:(lia)).
    lia.
Qed.
Corollary half_height_log t : Bal t -> ht t / 2 <= Nat.log2 (size t + 1).
Proof. intros Hb. apply Nat.log2_le_pow2; [lia|]. apply height_bound; assumption. Qed.

Lemma sorted_b_sound l : sorted_b l = true -> sorted l.
Proof.
  induction l as [|x l IH]; [intros; exact I|].
  destruct l as [|y l]; [intros; cbn; auto|].
  cbn [sorted_b]. intros H. apply andb_true_iff in H. destruct H as [Hxy Hs]. apply Z.ltb_lt in Hxy.
  specialize (IH Hs). cbn [sorted] in *. destruct IH as [IH1 IH2]. split; [|split; assumption].
  constructor; [assumption|]. eapply Forall_impl; [|exact IH1]. cbn. intros; lia.
Qed.

Lemma shape_b_sound t : forall h n, shape_b t = Some (h, n) -> Inv t /\ ht t = h /\ size t = n.
Proof.
  induction t as [|l IHl d h0 ls rs r IHr]; intros h n H.
  - cbn in H. inversion H; subst. split; [apply inv_leaf|split; reflexivity].
  - cbn [shape_b] in H.
    destruct (shape_b l) as [[hl nl]|]; [|discriminate]. destruct (shape_b r) as [[hr nr]|]; [|discriminate].
    destruct (IHl hl nl eq_refl) as ([Hol Hbl] & Hhl & Hnl). destruct (IHr hr nr eq_refl) as ([Hor Hbr] & Hhr & Hnr).
    match type of H with (if ?c then _ else _) = _ => destruct c eqn:Hc end; [|discriminate].
    inversion H; subst h n. clear H.
    rewrite !andb_true_iff, !Nat.eqb_eq, !Nat.leb_le in Hc. destruct Hc as ((((-> & ->) & ->) & L1) & L2).
    subst. split; [split; cbn [Ok Bal]; auto 10|split; reflexivity].
Qed.
