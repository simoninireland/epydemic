(* The partition property of the component computation of Model/NetStats.v (C12, statistics clause):
   the final labels of [labels nodes es] identify exactly the connected components of the undirected
   graph (nodes, es), every label is the least node of its class, and [component_sizes nodes es] is the
   list of the sizes of the classes.  Then the summary that [statistics] reports (number of components,
   largest, second largest) against any partition of the nodes into connected components. *)
From Coq Require Import List ZArith Bool Arith Lia Permutation.
From EpyV Require Import Lib.Lists Model.NetStats Proofs.NetStats.
Import ListNotations.
Open Scope nat_scope.

(* the reflexive-symmetric-transitive closure of the edge relation.  For an edge list closed over
   [nodes] it never leaves [nodes] (connected_nodes), so on nodes it is the closure restricted to nodes. *)
Inductive connected (es : list edge) : Z -> Z -> Prop :=
| cn_refl x : connected es x x
| cn_edge e : In e es -> connected es (fst e) (snd e)
| cn_sym x y : connected es x y -> connected es y x
| cn_trans x y z : connected es x y -> connected es y z -> connected es x z.

Lemma connected_incl es es' : incl es es' -> forall x y, connected es x y -> connected es' x y.
Proof.
  intros H x y C. induction C as [x|e He|x y _ IH|x y z _ IH1 _ IH2].
  - apply cn_refl.
  - apply cn_edge, H, He.
  - apply cn_sym, IH.
  - eapply cn_trans; eassumption.
Qed.

(* what takes the same value at the two ends of every edge is constant on a class *)
Lemma connected_const {A} (g : Z -> A) es : (forall e, In e es -> g (fst e) = g (snd e)) ->
  forall x y, connected es x y -> g x = g y.
Proof.
  intros H x y C. induction C as [x|e He|x y _ IH|x y z _ IH1 _ IH2].
  - reflexivity.
  - apply H, He.
  - symmetry; exact IH.
  - rewrite IH1; exact IH2.
Qed.

Lemma connected_nil x y : connected [] x y -> x = y.
Proof. apply (connected_const (fun z => z)). intros e []. Qed.

Lemma connected_nodes nodes es : closed nodes es -> forall x y, connected es x y -> (In x nodes <-> In y nodes).
Proof.
  intros Hc x y C. induction C as [x|e He|x y _ IH|x y z _ IH1 _ IH2].
  - tauto.
  - destruct (Hc e He) as [H1 H2]. tauto.
  - tauto.
  - tauto.
Qed.

Definition relabel_with (a b m : Z) (lab : list (Z * Z)) : list (Z * Z) :=
  map (fun x : Z * Z => if Z.eqb (snd x) a || Z.eqb (snd x) b then (fst x, m) else x) lab.

Lemma relabel_unfold lab e :
  relabel lab e = relabel_with (label_of lab (fst e)) (label_of lab (snd e))
                               (Z.min (label_of lab (fst e)) (label_of lab (snd e))) lab.
Proof. reflexivity. Qed.

Lemma relabel_with_fst a b m lab : map fst (relabel_with a b m lab) = map fst lab.
Proof.
  unfold relabel_with. rewrite map_map. apply map_ext. intros [k v]. cbn [fst snd].
  destruct (Z.eqb v a || Z.eqb v b); reflexivity.
Qed.

Lemma label_of_cons k v lab n : label_of ((k, v) :: lab) n = if Z.eqb k n then v else label_of lab n.
Proof. unfold label_of. cbn [find fst]. destruct (Z.eqb k n); reflexivity. Qed.

Lemma label_of_id nodes x : label_of (map (fun n : Z => (n, n)) nodes) x = x.
Proof.
  induction nodes as [|n ns IH]; [reflexivity|]. cbn [map]. rewrite label_of_cons.
  destruct (Z.eqb_spec n x) as [E|_]; [exact E | exact IH].
Qed.

Lemma label_of_in lab n l : NoDup (map fst lab) -> In (n, l) lab -> label_of lab n = l.
Proof.
  induction lab as [|[k v] lab IH]; intros ND H; [destruct H|].
  cbn [map fst] in ND. inversion ND as [|? ? Hk ND']; subst. rewrite label_of_cons.
  destruct H as [H|H].
  - inversion H; subst. rewrite Z.eqb_refl. reflexivity.
  - destruct (Z.eqb_spec k n) as [->|_].
    + exfalso. apply Hk. apply in_map_iff. exists (n, l). split; [reflexivity | exact H].
    + apply IH; assumption.
Qed.

Lemma label_of_relabel_with a b m lab n : In n (map fst lab) ->
  label_of (relabel_with a b m lab) n =
  if Z.eqb (label_of lab n) a || Z.eqb (label_of lab n) b then m else label_of lab n.
Proof.
  induction lab as [|[k v] lab IH]; intros H; [destruct H|].
  change (relabel_with a b m ((k, v) :: lab))
    with ((if Z.eqb v a || Z.eqb v b then (k, m) else (k, v)) :: relabel_with a b m lab).
  rewrite (label_of_cons k v lab n).
  destruct (Z.eqb_spec k n) as [->|Hne].
  - destruct (Z.eqb v a || Z.eqb v b); rewrite label_of_cons, Z.eqb_refl; reflexivity.
  - destruct H as [H|H]; [cbn [fst] in H; congruence|].
    destruct (Z.eqb v a || Z.eqb v b); rewrite label_of_cons;
      (destruct (Z.eqb_spec k n) as [E|_]; [congruence|]); apply IH, H.
Qed.

(* [P] is the list of the edges processed so far: every node carries the least node of its class
   under [connected P].  With [P] the whole edge list this is what is to be proved. *)
Record Inv (nodes : list Z) (P : list edge) (lab : list (Z * Z)) : Prop := {
  inv_fst : map fst lab = nodes;
  inv_in : forall x, In x nodes -> In (label_of lab x) nodes;
  inv_conn : forall x, In x nodes -> connected P x (label_of lab x);
  inv_least : forall x y, In x nodes -> In y nodes -> connected P x y -> (label_of lab x <= y)%Z }.
Arguments inv_fst {nodes P lab}. Arguments inv_in {nodes P lab}.
Arguments inv_conn {nodes P lab}. Arguments inv_least {nodes P lab}.

Lemma inv_same {nodes P lab} : Inv nodes P lab -> forall x y, In x nodes -> In y nodes ->
  (label_of lab x = label_of lab y <-> connected P x y).
Proof.
  intros I x y Hx Hy. assert (Cx := inv_conn I x Hx). assert (Cy := inv_conn I y Hy). split.
  - intros E. rewrite E in Cx. eapply cn_trans; [exact Cx | apply cn_sym, Cy].
  - intros C. apply Z.le_antisymm.
    + apply (inv_least I x _ Hx (inv_in I y Hy)). eapply cn_trans; eassumption.
    + apply (inv_least I y _ Hy (inv_in I x Hx)). eapply cn_trans; [apply cn_sym, C | exact Cx].
Qed.

Lemma inv_idem {nodes P lab} : Inv nodes P lab -> forall x, In x nodes ->
  label_of lab (label_of lab x) = label_of lab x.
Proof.
  intros I x Hx. apply (inv_same I _ _ (inv_in I x Hx) Hx), cn_sym, (inv_conn I), Hx.
Qed.

Lemma Inv_init nodes : Inv nodes [] (map (fun n : Z => (n, n)) nodes).
Proof.
  constructor.
  - rewrite map_map. cbn [fst]. apply map_id.
  - intros x Hx. rewrite label_of_id. exact Hx.
  - intros x _. rewrite label_of_id. apply cn_refl.
  - intros x y _ _ C. rewrite label_of_id, (connected_nil x y C). apply Z.le_refl.
Qed.

Lemma Inv_equiv nodes P P' lab : incl P P' -> incl P' P -> Inv nodes P lab -> Inv nodes P' lab.
Proof.
  intros H1 H2 I. constructor; try apply I.
  - intros x Hx. apply (connected_incl _ _ H1), (inv_conn I), Hx.
  - intros x y Hx Hy C. apply (inv_least I x y Hx Hy), (connected_incl _ _ H2), C.
Qed.

(* The label [l] of a class once the classes labelled [a] and [b] are joined. *)
Lemma joined_label a b l : let m := if Z.eqb l a || Z.eqb l b then Z.min a b else l in
  (m <= l)%Z /\ (m = l \/ (l = a \/ l = b) /\ (m = a \/ m = b)).
Proof. cbv zeta. destruct (Z.eqb_spec l a); [|destruct (Z.eqb_spec l b)]; cbn [orb]; lia. Qed.

(* One edge: the two classes it joins take the smaller of their labels [a], [b]. *)
Lemma Inv_relabel nodes P lab e : closed nodes (e :: P) -> Inv nodes P lab -> Inv nodes (e :: P) (relabel lab e).
Proof.
  intros Hc I. destruct (Hc e (or_introl eq_refl)) as [Hu Hv].
  pose (f := label_of lab). pose (a := f (fst e)). pose (b := f (snd e)).
  assert (F : forall x, In x nodes ->
            label_of (relabel lab e) x = if Z.eqb (f x) a || Z.eqb (f x) b then Z.min a b else f x).
  { intros x Hx. rewrite relabel_unfold. apply label_of_relabel_with. rewrite (inv_fst I). exact Hx. }
  assert (Mono : forall p q, connected P p q -> connected (e :: P) p q) by apply connected_incl, incl_tl, incl_refl.
  assert (Cab : connected (e :: P) a b).
  { eapply cn_trans; [apply cn_sym, Mono, (inv_conn I), Hu|].
    eapply cn_trans; [apply cn_edge; left; reflexivity | apply Mono, (inv_conn I), Hv]. }
  (* the new label is the same at the two ends of every edge of e :: P *)
  assert (G : forall x y, connected (e :: P) x y -> label_of (relabel lab e) x = label_of (relabel lab e) y).
  { apply connected_const. intros e' He'. destruct (Hc e' He') as [Hx Hy']. rewrite (F _ Hx), (F _ Hy').
    destruct He' as [<-|He'].
    - fold a b. rewrite !Z.eqb_refl, orb_true_r. reflexivity.
    - assert (E : f (fst e') = f (snd e')) by apply (inv_same I _ _ Hx Hy'), cn_edge, He'.
      rewrite E. reflexivity. }
  constructor.
  - rewrite relabel_unfold, relabel_with_fst. apply I.
  - intros x Hx. rewrite (F x Hx).
    destruct (joined_label a b (f x)) as [_ [->|[_ [->| ->]]]]; apply (inv_in I); assumption.
  - intros x Hx. rewrite (F x Hx). apply (cn_trans _ _ (f x)); [apply Mono, (inv_conn I), Hx|].
    destruct (joined_label a b (f x)) as [_ [->|[[->| ->] [->| ->]]]];
      [apply cn_refl | apply cn_refl | exact Cab | apply cn_sym, Cab | apply cn_refl].
  - intros x y Hx Hy C. rewrite (G x y C), (F y Hy).
    apply Z.le_trans with (f y); [apply (joined_label a b (f y)) | apply (inv_least I y y Hy Hy), cn_refl].
Qed.

Lemma closed_cons nodes e es : closed nodes (e :: es) -> closed nodes es.
Proof. intros H x Hx. apply H. right. exact Hx. Qed.

Lemma closed_app nodes es P : closed nodes es -> closed nodes P -> closed nodes (es ++ P).
Proof. intros H1 H2 x Hx. apply in_app_or in Hx. destruct Hx as [Hx|Hx]; [apply H1 | apply H2]; exact Hx. Qed.

Lemma Inv_fold nodes es : closed nodes es -> forall P lab, closed nodes P -> Inv nodes P lab ->
  Inv nodes (rev es ++ P) (fold_left relabel es lab).
Proof.
  induction es as [|e es IH]; intros Hc P lab HP I; [exact I|].
  cbn [fold_left rev]. rewrite <- app_assoc. cbn [app].
  assert (HeP : closed nodes (e :: P)).
  { intros x [<-|Hx]; [apply Hc; left; reflexivity | apply HP, Hx]. }
  apply IH; [exact (closed_cons _ _ _ Hc) | exact HeP | apply Inv_relabel; assumption].
Qed.

(* any number of passes; with no pass at all the processed list must already be everything *)
Lemma Inv_passes nodes es k : closed nodes es -> forall P lab, Inv nodes P lab -> incl P es ->
  (k = 0 -> incl es P) -> Inv nodes es (passes k es lab).
Proof.
  intros Hc. induction k as [|k IH]; intros P lab I H1 H2.
  - cbn [passes]. apply (Inv_equiv nodes P es lab H1 (H2 eq_refl) I).
  - cbn [passes]. apply (IH (rev es ++ P)).
    + apply Inv_fold; [exact Hc | intros x Hx; apply Hc, H1, Hx | exact I].
    + intros x Hx. apply in_app_or in Hx. destruct Hx as [Hx|Hx]; [apply in_rev, Hx | apply H1, Hx].
    + intros _ x Hx. apply in_or_app. left. apply in_rev in Hx. exact Hx.
Qed.

Theorem labels_Inv nodes es : closed nodes es -> Inv nodes es (labels nodes es).
Proof.
  intros Hc. unfold labels. apply (Inv_passes nodes es (length nodes) Hc []).
  - apply Inv_init.
  - intros x [].
  - intros E x Hx. apply length_zero_iff_nil in E. subst nodes. destruct (Hc x Hx) as [[] _].
Qed.

Theorem labels_same_iff_connected nodes es : closed nodes es ->
  forall x y, In x nodes -> In y nodes ->
  (label_of (labels nodes es) x = label_of (labels nodes es) y <-> connected es x y).
Proof. intros Hc. exact (inv_same (labels_Inv nodes es Hc)). Qed.
Print Assumptions labels_same_iff_connected.

Lemma labels_fst nodes es : closed nodes es -> map fst (labels nodes es) = nodes.
Proof. intros Hc. exact (inv_fst (labels_Inv nodes es Hc)). Qed.

Lemma concat_length_sum {A} (l : list (list A)) : length (concat l) = list_sum (map (@length A) l).
Proof. induction l as [|c l IH]; [reflexivity|]. cbn [concat map list_sum]. rewrite app_length, IH. reflexivity. Qed.

Definition disjoint (c d : list Z) : Prop := forall x, In x c -> ~ In x d.

Lemma NoDup_concat (cs : list (list Z)) : Forall (@NoDup Z) cs -> ForallOrdPairs disjoint cs -> NoDup (concat cs).
Proof.
  intros N D. induction D as [|c cs Hc D IH]; [constructor|].
  inversion N as [|? ? Nc N']; subst. cbn [concat]. apply NoDup_app_iff. split; [exact Nc|]. split; [exact (IH N')|].
  intros x Hx Hx'. apply in_concat in Hx'. destruct Hx' as (d & Hd & Hxd).
  rewrite Forall_forall in Hc. exact (Hc d Hd x Hx Hxd).
Qed.

Lemma zdedup_In l x : In x (zdedup l) <-> In x l.
Proof.
  induction l as [|a l IH]; [reflexivity|]. cbn [zdedup].
  destruct (existsb (Z.eqb a) l) eqn:E.
  - rewrite IH. split; [intros H; right; exact H|]. intros [<-|H]; [apply (memb_In Z.eqb Z.eqb_eq), E | exact H].
  - cbn [In]. rewrite IH. reflexivity.
Qed.

Lemma zdedup_NoDup l : NoDup (zdedup l).
Proof.
  induction l as [|a l IH]; [constructor|]. cbn [zdedup].
  destruct (existsb (Z.eqb a) l) eqn:E; [exact IH|].
  constructor; [|exact IH]. rewrite zdedup_In. intros H. apply (memb_In Z.eqb Z.eqb_eq) in H. exact (eq_true_false_abs _ H E).
Qed.

Definition class_of (lab : list (Z * Z)) (nodes : list Z) (r : Z) : list Z :=
  filter (fun n => Z.eqb (label_of lab n) r) nodes.
Definition lab_reps (lab : list (Z * Z)) : list Z := zdedup (map snd lab).
Definition lab_classes (lab : list (Z * Z)) (nodes : list Z) : list (list Z) :=
  map (class_of lab nodes) (lab_reps lab).

(* the connected components as node lists: one class per distinct final label (ordered by the last
   occurrence of the label in the label list, as zdedup does), each class in node order *)
Definition components (nodes : list Z) (es : list edge) : list (list Z) :=
  lab_classes (labels nodes es) nodes.
Definition representatives (nodes : list Z) (es : list edge) : list Z := lab_reps (labels nodes es).

Definition is_class (nodes : list Z) (es : list edge) (c : list Z) : Prop :=
  c <> [] /\ NoDup c /\ exists x, In x nodes /\ forall y, In y c <-> (In y nodes /\ connected es x y).
Definition is_partition (nodes : list Z) (es : list edge) (cs : list (list Z)) : Prop :=
  Permutation (concat cs) nodes /\ Forall (is_class nodes es) cs /\ ForallOrdPairs disjoint cs.

Lemma class_of_In lab nodes r y : In y (class_of lab nodes r) <-> In y nodes /\ label_of lab y = r.
Proof. unfold class_of. rewrite filter_In, Z.eqb_eq. reflexivity. Qed.

Lemma snd_labels lab : NoDup (map fst lab) -> map snd lab = map (label_of lab) (map fst lab).
Proof.
  intros ND. rewrite map_map. apply map_ext_in. intros [k v] H. cbn [fst snd]. symmetry.
  apply label_of_in; assumption.
Qed.

Lemma count_by_label lab r : NoDup (map fst lab) ->
  length (filter (fun x : Z * Z => Z.eqb (snd x) r) lab) = length (class_of lab (map fst lab) r).
Proof.
  intros ND. unfold class_of. rewrite <- filter_map_length. f_equal.
  apply filter_ext_in. intros [k v] H. cbn [fst snd]. rewrite (label_of_in lab k v ND H). reflexivity.
Qed.

Lemma component_sizes_components nodes es : NoDup nodes -> closed nodes es ->
  component_sizes nodes es = map (@length Z) (components nodes es).
Proof.
  intros ND Hc. unfold component_sizes, components, lab_classes, lab_reps. cbv zeta.
  rewrite map_map. apply map_ext. intros r.
  assert (E := labels_fst nodes es Hc).
  rewrite count_by_label by (rewrite E; exact ND). rewrite E. reflexivity.
Qed.

Section Classes.
  Variables (nodes : list Z) (es : list edge) (lab : list (Z * Z)).
  Hypothesis ND : NoDup nodes.
  Hypothesis I : Inv nodes es lab.

  Lemma reps_In r : In r (lab_reps lab) <-> exists n, In n nodes /\ label_of lab n = r.
  Proof.
    unfold lab_reps. rewrite zdedup_In, snd_labels by (rewrite (inv_fst I); exact ND).
    rewrite (inv_fst I), in_map_iff. split; intros (n & A & B); exists n; tauto.
  Qed.

  Lemma classes_concat_In y : In y (concat (lab_classes lab nodes)) <-> In y nodes.
  Proof.
    rewrite in_concat. split.
    - intros (c & Hc & Hy). apply in_map_iff in Hc. destruct Hc as (r & <- & _).
      apply class_of_In in Hy. tauto.
    - intros Hy. exists (class_of lab nodes (label_of lab y)). split.
      + apply in_map, reps_In. exists y. split; [exact Hy | reflexivity].
      + apply class_of_In. split; [exact Hy | reflexivity].
  Qed.

  Lemma classes_disjoint rs : NoDup rs -> ForallOrdPairs disjoint (map (class_of lab nodes) rs).
  Proof.
    induction 1 as [|r rs Hr _ IH]; cbn [map]; constructor; [|exact IH].
    apply Forall_forall. intros c Hc x Hx Hxc. apply in_map_iff in Hc. destruct Hc as (r' & <- & Hr').
    apply class_of_In in Hx, Hxc. destruct Hx as [_ Ex]. destruct Hxc as [_ Ex'].
    apply Hr. rewrite <- Ex, Ex'. exact Hr'.
  Qed.

  Lemma class_of_is_class r : In r (lab_reps lab) -> is_class nodes es (class_of lab nodes r).
  Proof.
    intros Hr. apply reps_In in Hr. destruct Hr as (n & Hn & En).
    split; [|split].
    - intros E. assert (H : In n (class_of lab nodes r)) by (apply class_of_In; split; assumption).
      rewrite E in H. destruct H.
    - apply NoDup_filter, ND.
    - exists n. split; [exact Hn|]. intros y. rewrite class_of_In. split.
      + intros [Hy Ey]. split; [exact Hy|]. apply (inv_same I n y Hn Hy). congruence.
      + intros [Hy C]. split; [exact Hy|]. apply (inv_same I n y Hn Hy) in C. congruence.
  Qed.

  Lemma lab_classes_partition : is_partition nodes es (lab_classes lab nodes).
  Proof.
    assert (D : ForallOrdPairs disjoint (lab_classes lab nodes)) by apply classes_disjoint, zdedup_NoDup.
    split; [|split; [|exact D]].
    - apply NoDup_Permutation; [|exact ND | exact classes_concat_In].
      apply NoDup_concat; [|exact D]. apply Forall_forall. intros c Hc.
      apply in_map_iff in Hc. destruct Hc as (r & <- & _). apply NoDup_filter, ND.
    - apply Forall_forall. intros c Hc. apply in_map_iff in Hc. destruct Hc as (r & <- & Hr).
      apply class_of_is_class, Hr.
  Qed.

  Lemma lab_reps_spec :
    NoDup (lab_reps lab) /\ (forall r, In r (lab_reps lab) -> In r nodes) /\
    (forall n, In n nodes -> exists r, In r (lab_reps lab) /\ connected es n r) /\
    (forall r r', In r (lab_reps lab) -> In r' (lab_reps lab) -> connected es r r' -> r = r').
  Proof.
    assert (Fix : forall r, In r (lab_reps lab) -> In r nodes /\ label_of lab r = r).
    { intros r Hr. apply reps_In in Hr. destruct Hr as (n & Hn & <-).
      split; [apply (inv_in I), Hn | apply (inv_idem I), Hn]. }
    split; [apply zdedup_NoDup|]. split; [intros r Hr; apply (Fix r Hr)|]. split.
    - intros n Hn. exists (label_of lab n). split; [apply reps_In; exists n; split; [exact Hn | reflexivity]|].
      apply (inv_conn I), Hn.
    - intros r r' Hr Hr' C. destruct (Fix r Hr) as [A B]. destruct (Fix r' Hr') as [A' B'].
      apply (inv_same I r r' A A') in C. congruence.
  Qed.

  Definition rep_of (c : list Z) : Z := label_of lab (hd 0%Z c).

  Lemma class_by_label c : is_class nodes es c ->
    In (hd 0%Z c) c /\ forall y, In y c <-> In y nodes /\ label_of lab y = rep_of c.
  Proof.
    intros (Hne & _ & x & Hx & Hc).
    assert (Hh : In (hd 0%Z c) c) by (destruct c as [|h t]; [congruence | left; reflexivity]).
    split; [exact Hh|]. intros y. rewrite (Hc y). unfold rep_of.
    destruct (proj1 (Hc _) Hh) as [Hhn Chx].
    apply (inv_same I x _ Hx Hhn) in Chx.
    split; intros [Hy H]; (split; [exact Hy|]).
    - apply (inv_same I x y Hx Hy) in H. congruence.
    - apply (inv_same I x y Hx Hy). congruence.
  Qed.

  Lemma rep_of_NoDup cs : Forall (is_class nodes es) cs -> ForallOrdPairs disjoint cs -> NoDup (map rep_of cs).
  Proof.
    intros Hcl D. induction D as [|c cs Hd D IH]; [constructor|].
    inversion Hcl as [|? ? Hc Hcl']; subst. cbn [map]. constructor; [|exact (IH Hcl')].
    intros H. apply in_map_iff in H. destruct H as (d & E & Hdin).
    rewrite Forall_forall in Hd, Hcl'.
    destruct (class_by_label c Hc) as (Hh & Hcy).
    destruct (class_by_label d (Hcl' d Hdin)) as (_ & Hdy).
    apply (Hd d Hdin _ Hh). apply Hdy. rewrite E. apply Hcy, Hh.
  Qed.

  Lemma partition_sizes cs : is_partition nodes es cs ->
    Permutation (map (@length Z) cs) (map (@length Z) (lab_classes lab nodes)).
  Proof.
    intros (Pc & Hcl & D).
    assert (E1 : map (@length Z) cs = map (fun r => length (class_of lab nodes r)) (map rep_of cs)).
    { rewrite map_map. apply map_ext_in. intros c Hc. rewrite Forall_forall in Hcl.
      destruct (Hcl c Hc) as (_ & Nc & _). destruct (class_by_label c (Hcl c Hc)) as (_ & Hy).
      apply Permutation_length. apply NoDup_Permutation; [exact Nc | apply NoDup_filter, ND|].
      intros y. rewrite class_of_In. apply Hy. }
    rewrite E1. unfold lab_classes. rewrite (map_map (class_of lab nodes) (@length Z)). apply (Permutation_map (fun r => length (class_of lab nodes r))).
    apply NoDup_Permutation; [apply rep_of_NoDup; assumption | apply zdedup_NoDup|].
    intros r. rewrite reps_In, in_map_iff. rewrite Forall_forall in Hcl. split.
    - intros (c & <- & Hc). destruct (class_by_label c (Hcl c Hc)) as (Hh & Hy).
      exists (hd 0%Z c). split; [apply Hy, Hh | reflexivity].
    - intros (n & Hn & <-). apply (Permutation_in _ (Permutation_sym Pc)) in Hn.
      apply in_concat in Hn. destruct Hn as (c & Hc & Hnc). exists c. split; [|exact Hc].
      destruct (class_by_label c (Hcl c Hc)) as (_ & Hy). symmetry. apply Hy, Hnc.
  Qed.
End Classes.

Theorem components_partition nodes es : NoDup nodes -> closed nodes es ->
  is_partition nodes es (components nodes es).
Proof. intros ND Hc. apply lab_classes_partition; [exact ND | apply labels_Inv, Hc]. Qed.
Print Assumptions components_partition.

(* the partition into connected components is unique up to order (and order inside the classes), so:
   for EVERY partition of the nodes into connected components, component_sizes is its size list *)
Theorem component_sizes_any_partition nodes es : NoDup nodes -> closed nodes es ->
  forall cs, is_partition nodes es cs -> Permutation (component_sizes nodes es) (map (@length Z) cs).
Proof.
  intros ND Hc cs P. rewrite (component_sizes_components nodes es ND Hc). symmetry.
  apply (partition_sizes nodes es (labels nodes es) ND (labels_Inv nodes es Hc) cs P).
Qed.
Print Assumptions component_sizes_any_partition.

Theorem component_sizes_sum nodes es : NoDup nodes -> closed nodes es ->
  list_sum (component_sizes nodes es) = length nodes.
Proof.
  intros ND Hc. rewrite (component_sizes_components nodes es ND Hc), <- concat_length_sum.
  apply Permutation_length. exact (proj1 (components_partition nodes es ND Hc)).
Qed.
Print Assumptions component_sizes_sum.

Theorem component_sizes_pos nodes es : NoDup nodes -> closed nodes es ->
  forall s, In s (component_sizes nodes es) -> 1 <= s.
Proof.
  intros ND Hc s Hs. rewrite (component_sizes_components nodes es ND Hc) in Hs.
  apply in_map_iff in Hs. destruct Hs as (c & <- & Hcin).
  destruct (components_partition nodes es ND Hc) as (_ & Hcl & _). rewrite Forall_forall in Hcl.
  destruct (Hcl c Hcin) as (Hne & _). destruct c as [|h t]; [congruence | cbn [length]; lia].
Qed.
Print Assumptions component_sizes_pos.

(* the reported component summary, against ANY partition cs of the nodes into connected components
   (one exists: components_partition): the number of components; the size of a largest one; the size
   of a second largest one, 0 when there is at most one component *)
Theorem stats_components_spec nodes es : NoDup nodes -> closed nodes es ->
  forall cs, is_partition nodes es cs ->
  let st := statistics nodes es in
  s_components st = length cs /\
  (forall c, In c cs -> length c <= s_lcc st) /\
  (cs <> [] -> exists c, In c cs /\ length c = s_lcc st) /\
  (length cs <= 1 -> s_slcc st = 0) /\
  (2 <= length cs -> exists c1 c2 rest, Permutation cs (c1 :: c2 :: rest) /\
     length c1 = s_lcc st /\ length c2 = s_slcc st /\ s_slcc st <= s_lcc st /\
     forall c, In c rest -> length c <= s_slcc st).
Proof.
  intros ND Hc cs P st.
  assert (Q : Permutation (sort_desc (component_sizes nodes es)) (map (@length Z) cs)).
  { rewrite sort_desc_perm. apply component_sizes_any_partition; assumption. }
  assert (D := sort_desc_desc (component_sizes nodes es)).
  unfold st, statistics; cbn [s_components s_lcc s_slcc].
  remember (sort_desc (component_sizes nodes es)) as ccs eqn:Eccs. clear Eccs.
  destruct (Permutation_map_inv _ _ Q) as (l3 & E3 & P3). subst ccs. clear Q.
  assert (Len : length cs = length l3) by (apply Permutation_length, P3).
  rewrite map_length, Len.
  destruct l3 as [|c1 [|c2 rest]].
  - apply Permutation_sym, Permutation_nil in P3. subst cs. cbn.
    split; [reflexivity|]. split; [intros c []|]. split; [congruence|]. split; [reflexivity | lia].
  - cbn [map nth length]. split; [reflexivity|].
    split; [intros c Hcin; apply (Permutation_in _ P3) in Hcin; destruct Hcin as [<-|[]]; lia|].
    split; [intros _; exists c1; split; [apply (Permutation_in _ (Permutation_sym P3)); left|]; reflexivity|].
    split; [reflexivity | lia].
  - cbn [map nth length]. cbn [map] in D.
    inversion D as [| |? ? ? H21 D']; subst.
    split; [reflexivity|].
    split.
    { intros c Hcin. apply (Permutation_in _ P3) in Hcin.
      apply (desc_head_max _ _ D). change (In (length c) (map (@length Z) (c1 :: c2 :: rest))).
      apply in_map, Hcin. }
    split; [intros _; exists c1; split; [apply (Permutation_in _ (Permutation_sym P3)); left|]; reflexivity|].
    split; [lia|]. intros _. exists c1, c2, rest.
    split; [exact P3|]. split; [reflexivity|]. split; [reflexivity|]. split; [exact H21|].
    intros c Hcin. apply (desc_head_max _ _ D'). right. apply in_map, Hcin.
Qed.
Print Assumptions stats_components_spec.

Lemma list_sum_ge x l : In x l -> x <= list_sum l.
Proof.
  induction l as [|d l IH]; intros H; [destruct H|].
  change (list_sum (d :: l)) with (d + list_sum l).
  destruct H as [<-|H]; [lia | specialize (IH H); lia].
Qed.

(* non-vacuity: three components: the isolated node 4; {1,7}; {3,5,9} with the self-loop (9,9) and the edge 5-9
   three times (once reversed).  The class sizes come out as [1;2;3] and are sorted for the summary. *)
Example components_example :
  let nodes := [4; 1; 7; 5; 3; 9]%Z in
  let es := [(5, 9); (9, 9); (7, 1); (3, 9); (9, 5); (5, 9)]%Z in
  NoDup nodes /\ closed nodes es /\
  labels nodes es = [(4, 4); (1, 1); (7, 1); (5, 3); (3, 3); (9, 3)]%Z /\
  components nodes es = [[4]; [1; 7]; [5; 3; 9]]%Z /\
  representatives nodes es = [4; 1; 3]%Z /\
  component_sizes nodes es = [1; 2; 3] /\
  s_components (statistics nodes es) = 3 /\ s_lcc (statistics nodes es) = 3 /\ s_slcc (statistics nodes es) = 2 /\
  connected es 5 3 /\ ~ connected es 7 3 /\ ~ connected es 4 1.
Proof.
  cbv zeta.
  assert (ND : NoDup [4; 1; 7; 5; 3; 9]%Z) by (repeat constructor; cbn; intuition discriminate).
  assert (Hc : closed [4; 1; 7; 5; 3; 9]%Z [(5, 9); (9, 9); (7, 1); (3, 9); (9, 5); (5, 9)]%Z).
  { intros e He. cbn in He. repeat (destruct He as [<-|He]; [cbn; tauto|]). destruct He. }
  split; [exact ND|]. split; [exact Hc|].
  do 7 (split; [vm_compute; reflexivity|]).
  split; [|split].
  - apply (labels_same_iff_connected _ _ Hc 5%Z 3%Z); [cbn; tauto | cbn; tauto | vm_compute; reflexivity].
  - intros C. apply (labels_same_iff_connected _ _ Hc 7%Z 3%Z) in C; [|cbn; tauto|cbn; tauto].
    vm_compute in C. discriminate C.
  - intros C. apply (labels_same_iff_connected _ _ Hc 4%Z 1%Z) in C; [|cbn; tauto|cbn; tauto].
    vm_compute in C. discriminate C.
Qed.
Print Assumptions components_example.
