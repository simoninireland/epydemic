(* C01, state level: a call acts on every locus of the table by its own handler (loci_inv_call), so the
   six operations preserve the invariant locus by locus; histories of valid calls, the set-up state;
   at the end what the property reads off the invariant: equal lengths (NoDup_same_length) and
   contents that depend on the network alone (same_network, truthP_network, same_networkb_spec). *)
From Coq Require Import List ZArith Bool Arith Lia Permutation.
From EpyV Require Import Model.Loci Proofs.LociBase Proofs.LociLocus.
Import ListNotations.

Definition graph_ok (s : state) : Prop :=
  (forall a b, In (a, b) (st_edges s) -> In a (st_nodes s) /\ In b (st_nodes s))
  /\ (forall v, ~ In v (st_nodes s) -> st_attr s v = None).

Definition loci_inv (R : spec -> state -> list elem -> Prop) (tbl : list spec) (s : state) : Prop :=
  length (st_loci s) = length tbl
  /\ forall i, i < length tbl -> R (nth i tbl default_spec) s (nth i (st_loci s) []).

(* weak invariant: sound, complete up to orientation, duplicate-free *)
Definition WInv (tbl : list spec) (s : state) : Prop := graph_ok s /\ loci_inv winv1 tbl s.

(* the invariant of the property: every locus is exactly its truth *)
Definition Inv (tbl : list spec) (s : state) : Prop :=
  graph_ok s /\ length (st_loci s) = length tbl
  /\ forall i, i < length tbl ->
       NoDup (nth i (st_loci s) [])
       /\ forall x, In x (nth i (st_loci s) []) <-> In x (truth (nth i tbl default_spec) s).

Lemma Inv_loci_inv : forall tbl s, Inv tbl s <-> graph_ok s /\ loci_inv sinv1 tbl s.
Proof.
  intros tbl s. unfold Inv, loci_inv, sinv1. split.
  - intros [H1 [H2 H3]]. split; [exact H1|]. split; [exact H2|]. intros i Hi. destruct (H3 i Hi) as [H4 H5].
    split; [exact H4|]. intro x. rewrite H5. apply truth_In.
  - intros [H1 [H2 H3]]. split; [exact H1|]. split; [exact H2|]. intros i Hi. destruct (H3 i Hi) as [H4 H5].
    split; [exact H4|]. intro x. rewrite H5. symmetry. apply truth_In.
Qed.

Lemma Inv_WInv : forall tbl s, Inv tbl s -> WInv tbl s.
Proof.
  intros tbl s H. apply Inv_loci_inv in H. destruct H as [H1 [H2 H3]]. split; [exact H1|]. split; [exact H2|].
  intros i Hi. apply sinv1_winv1, H3, Hi.
Qed.
Lemma WInv_Inv : forall tbl s, single_orientation tbl = true -> WInv tbl s -> Inv tbl s.
Proof.
  intros tbl s Hs [H1 [H2 H3]]. apply Inv_loci_inv. split; [exact H1|]. split; [exact H2|].
  intros i Hi. apply winv1_sinv1; [|apply H3, Hi].
  unfold single_orientation in Hs. rewrite forallb_forall in Hs. apply Hs, nth_In, Hi.
Qed.

Lemma wf_loci_In : forall tbl sp, wf_loci tbl = true -> In sp tbl -> wf_spec sp = true.
Proof. intros tbl sp H. apply forallb_forall. exact H. Qed.

Lemma getc_with_attr : forall s n a v, getc (with_attr s n a) v =
  if Z.eqb v n then match a with Some (Some c) => Some c | _ => None end else getc s v.
Proof. intros s n a v. unfold getc, with_attr. cbn. destruct (Z.eqb v n); reflexivity. Qed.

Lemma has_node_In : forall s n, has_node s n = true <-> In n (st_nodes s).
Proof. intros s n. apply zmem_In. Qed.

Lemma getc_raises_false : forall s n, getc_raises s n = false -> In n (st_nodes s) /\ st_attr s n <> None.
Proof.
  intros s n H. unfold getc_raises in H. apply orb_false_iff in H. destruct H as [H1 H2].
  apply negb_false_iff, has_node_In in H1. split; [exact H1|]. destruct (st_attr s n); [discriminate | discriminate].
Qed.

Lemma call_loci : forall tbl h s e i, length (st_loci s) = length tbl -> i < length tbl ->
  nth i (st_loci (call tbl h s e)) [] =
  Nat.iter (hits (nth i tbl default_spec) (handler_compartments s e)) (h (nth i tbl default_spec) s e) (nth i (st_loci s) []).
Proof. intros tbl h s e i HL Hi. unfold call. cbn. apply run_handlers_nth; assumption. Qed.

Lemma call_length : forall tbl h s e, length (st_loci (call tbl h s e)) = length (st_loci s).
Proof. intros. unfold call. cbn. apply run_handlers_length. Qed.

(* a call runs, on each locus, the handler of the locus as often as the locus is registered for it *)
Lemma loci_inv_call : forall tbl h s e (R R' : spec -> state -> list elem -> Prop),
  (forall sp l, In sp tbl -> R sp s l ->
     R' sp (call tbl h s e) (Nat.iter (hits sp (handler_compartments s e)) (h sp s e) l)) ->
  loci_inv R tbl s -> loci_inv R' tbl (call tbl h s e).
Proof.
  intros tbl h s e R R' H [HL HI]. split; [rewrite call_length; exact HL|]. intros i Hi.
  rewrite call_loci by assumption. apply H; [apply nth_In, Hi | apply HI, Hi].
Qed.

Lemma loci_inv_mono : forall tbl (R R' : spec -> state -> list elem -> Prop) s s', st_loci s' = st_loci s ->
  (forall sp l, In sp tbl -> R sp s l -> R' sp s' l) -> loci_inv R tbl s -> loci_inv R' tbl s'.
Proof.
  intros tbl R R' s s' E H [HL HI]. unfold loci_inv. rewrite E. split; [exact HL|].
  intros i Hi. apply H; [apply nth_In, Hi | apply HI, Hi].
Qed.

Lemma loci_inv_restrict : forall tbl s s' e, st_loci s' = st_loci s ->
  (forall x, present s' x <-> present s x /\ ~ covers e x) ->
  (forall x, ~ covers e x -> forall v, involves v x -> getc s' v = getc s v) ->
  loci_inv (without e) tbl s -> loci_inv winv1 tbl s'.
Proof.
  intros tbl s s' e E Hp Hg. apply loci_inv_mono; [exact E|]. intros sp l _.
  unfold without. rewrite winv1_tracks. apply tracks_iff. intro x.
  symmetry. apply truthP_restrict; [apply Hp | apply Hg].
Qed.

Lemma none_without : forall tbl s n, wf_loci tbl = true -> getc s n = None ->
  loci_inv winv1 tbl s -> loci_inv (without (N n)) tbl s.
Proof.
  intros tbl s n Hwf Hn. apply loci_inv_mono; [reflexivity|]. intros sp l Hsp.
  rewrite winv1_tracks. apply tracks_iff. intro x. split; [|tauto]. intro Ht. split; [exact Ht|]. intro Hi.
  destruct (truthP_regs sp s n x (wf_loci_In _ _ Hwf Hsp) Ht Hi) as [c [G _]]. congruence.
Qed.

Lemma leave_without : forall tbl s n, wf_loci tbl = true ->
  loci_inv winv1 tbl s -> loci_inv (without (N n)) tbl (call_leave tbl s (N n)).
Proof.
  intros tbl s n Hwf. apply (loci_inv_call tbl leave_handler). intros sp l Hsp.
  rewrite winv1_tracks. exact (drop_phase sp s (N n) (wf_loci_In _ _ Hwf Hsp) (leave_discards sp s n) (fun x Hx => Hx)).
Qed.

Lemma set_phase : forall tbl s n c, wf_loci tbl = true -> graph_ok s -> In n (st_nodes s) ->
  loci_inv (without (N n)) tbl s -> WInv tbl (call_enter tbl (with_attr s n (Some (Some c))) (N n)).
Proof.
  intros tbl s n c Hwf [Hg1 Hg2] Hin HI. set (s1 := with_attr s n (Some (Some c))). split.
  - split; [exact Hg1|]. intros v Hv. cbn. destruct (Z.eqb_spec v n) as [->|_]; [contradiction | apply Hg2, Hv].
  - revert HI. apply (loci_inv_call tbl enter_handler s1 (N n) (fun sp _ => without (N n) sp s)). intros sp l Hsp.
    assert (Hg : forall x v, ~ involves n x -> involves v x -> getc s1 v = getc s v).
    { intros x v Hx Hv. unfold s1. rewrite getc_with_attr. destruct (Z.eqb_spec v n) as [->|_]; [contradiction | reflexivity]. }
    unfold without. apply (add_phase sp s1 (N n) _ (wf_loci_In _ _ Hwf Hsp) (enter_supplies sp s1 n) Hin).
    + intros x [Ht Hi]. exact (truthP_mono sp s s1 x (fun H => H) (fun v => Hg x v Hi) Ht).
    + intros x Ht Hi. split; [|exact Hi].
      exact (truthP_mono sp s1 s x (fun H => H) (fun v Hv => eq_sym (Hg x v Hi Hv)) Ht).
Qed.

Lemma set_compartment_winv : forall tbl s n c, wf_loci tbl = true -> WInv tbl s ->
  has_node s n = true -> getc s n = None -> WInv tbl (fst (set_compartment tbl s n c)).
Proof.
  intros tbl s n c Hwf [Hg HI] Hn Hc. unfold set_compartment. rewrite Hn. cbn [negb fst].
  apply set_phase; [exact Hwf | exact Hg | apply has_node_In, Hn | exact (none_without tbl s n Hwf Hc HI)].
Qed.

Lemma change_compartment_winv : forall tbl s n c, wf_loci tbl = true -> WInv tbl s ->
  getc_raises s n = false -> WInv tbl (fst (change_compartment tbl s n c)).
Proof.
  intros tbl s n c Hwf [Hg HI] Hr. unfold change_compartment. rewrite Hr. cbn [fst].
  destruct (getc_raises_false s n Hr) as [Hin _].
  destruct (getc s n) as [oc|] eqn:Hc; apply set_phase; try assumption.
  - exact (leave_without tbl s n Hwf HI).
  - exact (none_without tbl s n Hwf Hc HI).
Qed.

Lemma add_node_winv : forall tbl s n c, wf_loci tbl = true -> WInv tbl s ->
  has_node s n = false -> WInv tbl (fst (add_node tbl s n c)).
Proof.
  intros tbl s n c Hwf [[Hg1 Hg2] HI] Hn. unfold add_node. rewrite Hn.
  assert (Hnin : ~ In n (st_nodes s)) by (intro H; apply has_node_In in H; congruence).
  set (s1 := mkState (st_nodes s ++ [n]) (st_edges s) (st_attr s) (st_loci s)).
  assert (Hc : getc s1 n = None) by (unfold getc; cbn; rewrite (Hg2 n Hnin); reflexivity).
  assert (W1 : WInv tbl s1).
  { split.
    - split.
      + intros a b Hab. cbn. rewrite !in_app_iff. destruct (Hg1 a b Hab). tauto.
      + intros v Hv. cbn in *. apply Hg2. intro H. apply Hv. apply in_app_iff. tauto.
    - revert HI. apply loci_inv_mono; [reflexivity|]. intros sp l Hsp. rewrite !winv1_tracks. apply tracks_iff. intro x. split.
      + apply truthP_mono; [|reflexivity]. destruct x; cbn; [rewrite in_app_iff|]; tauto.
      + (* the new node has no compartment, so nothing true involves it *)
        intro Ht. apply (truthP_mono sp s1 s x); [|reflexivity|exact Ht]. destruct x as [v|a b]; cbn; [|tauto].
        rewrite in_app_iff. cbn. intros [H|[<-|[]]]; [exact H|].
        destruct (truthP_regs sp s1 n (N n) (wf_loci_In _ _ Hwf Hsp) Ht eq_refl) as [c0 [G _]]. congruence. }
  destruct c as [c|]; [|exact W1].
  apply set_compartment_winv; [exact Hwf | exact W1 | | exact Hc].
  apply has_node_In. cbn. apply in_app_iff. right. left. reflexivity.
Qed.

(* the loop of remove_node over the incident edges touches the loci alone, each round like remove_edge *)
Lemma remove_loop : forall tbl s, wf_loci tbl = true -> forall es (P : spec -> elem -> Prop) L,
  (forall sp x, P sp x -> truthP sp s x) -> loci_inv (fun sp _ => tracks (P sp)) tbl (with_loci s L) ->
  exists L', fold_left (fun s e => call_remove tbl s (E (fst e) (snd e))) es (with_loci s L) = with_loci s L'
    /\ loci_inv (fun sp _ => tracks (fun x => P sp x /\ forall e, In e es -> ~ covers (E (fst e) (snd e)) x)) tbl
                (with_loci s L').
Proof.
  intros tbl s Hwf. induction es as [|e es IH]; intros P L HP HI; cbn [fold_left].
  - exists L. split; [reflexivity|]. revert HI. apply loci_inv_mono; [reflexivity|].
    intros sp l _. apply tracks_iff. intro x. split; [intro H; split; [exact H | intros e []] | tauto].
  - destruct (IH (fun sp x => P sp x /\ ~ covers (E (fst e) (snd e)) x)
                 (st_loci (call_remove tbl (with_loci s L) (E (fst e) (snd e))))) as [L' [E1 I1]].
    + intros sp x [H _]. exact (HP sp x H).
    + revert HI. apply (loci_inv_call tbl remove_handler (with_loci s L)). intros sp l Hsp.
      exact (drop_phase sp (with_loci s L) _ (wf_loci_In _ _ Hwf Hsp) (remove_edge_discards sp _ _ _) (HP sp)).
    + exists L'. split; [exact E1|]. revert I1. apply loci_inv_mono; [reflexivity|].
      intros sp l _. apply tracks_iff. intro x. split.
      * intros [[H1 H2] H3]. split; [exact H1|]. intros e' [<-|He']; [exact H2 | exact (H3 e' He')].
      * intros [H1 H2]. split; [split; [exact H1 | apply H2; left; reflexivity] | intros e' He'; apply H2; right; exact He'].
Qed.

Lemma with_loci_id : forall s, with_loci s (st_loci s) = s.
Proof. intros [a b c d]. reflexivity. Qed.

Lemma touches_false : forall n a b, negb (touches n (a, b)) = true <-> a <> n /\ b <> n.
Proof. intros n a b. unfold touches. cbn [fst snd]. rewrite negb_true_iff, orb_false_iff, !Z.eqb_neq. reflexivity. Qed.

Lemma remove_node_winv : forall tbl s n, wf_loci tbl = true -> WInv tbl s ->
  getc_raises s n = false -> WInv tbl (fst (remove_node tbl s n)).
Proof.
  intros tbl s n Hwf [[Hg1 Hg2] HI] Hr. unfold remove_node. rewrite Hr. cbn [fst].
  pose proof (remove_loop tbl s Hwf (incident (st_edges s) n) (fun sp => truthP sp s) (st_loci s) (fun _ _ H => H)) as Hloop.
  rewrite with_loci_id in Hloop. destruct (Hloop HI) as [L1 [E1 I1]]. rewrite E1. clear Hloop E1. split.
  - split.
    + intros a b Hab. apply filter_In in Hab. destruct Hab as [Hab Ht]. apply touches_false in Ht.
      destruct (Hg1 a b Hab) as [Ha Hb].
      split; apply filter_In; (split; [assumption | apply negb_true_iff, Z.eqb_neq; tauto]).
    + intros v Hv. cbn. cbn in Hv. destruct (Z.eqb v n) eqn:E; [reflexivity|]. apply Hg2. intro H. apply Hv.
      apply filter_In. split; [exact H | rewrite E; reflexivity].
  - apply (loci_inv_restrict tbl (call_remove tbl (with_loci s L1) (N n)) _ (N n)); [reflexivity | | |].
    + intros [v|a b]; cbn [present involves covers st_nodes].
      * rewrite filter_In, negb_true_iff, Z.eqb_neq. tauto.
      * unfold adj. cbn [st_edges]. rewrite adjb_filter by (unfold touches; cbn; rewrite orb_comm; reflexivity).
        rewrite touches_false. tauto.
    + intros x Hc v Hv. unfold getc. cbn. destruct (Z.eqb_spec v n) as [->|_]; [contradiction | reflexivity].
    + (* the call for the node itself takes it out of the node loci; the loop has taken its edges out of the edge loci *)
      revert I1. apply (loci_inv_call tbl remove_handler (with_loci s L1) (N n)). intros sp l Hsp H. unfold without.
      destruct (spec_cases sp) as [[c ->]|He].
      * apply (drop_phase (NodeLocus c) (with_loci s L1) (N n) eq_refl (remove_node_discards c _ n) (fun x Hx => proj1 Hx)) in H.
        revert H. apply tracks_iff. intro x. split; [tauto|]. intros [Ht Hi]. split; [|exact Hi]. split; [exact Ht|].
        intros e _ [->| ->]; destruct Ht.
      * rewrite (remove_edge_node_h sp (with_loci s L1) n He), iter_id by reflexivity. revert H. apply tracks_iff. intro x. split.
        -- intros [Ht Hno]. split; [exact Ht|]. intro Hi.
           destruct x as [v|a b]; [exact (truthP_edge_N sp s v He Ht)|].
           apply (truthP_edge sp s a b He) in Ht. destruct Ht as [Ha _]. destruct Hi as [->| ->].
           ++ apply (Hno (n, b)); [apply incident_In; tauto | left; reflexivity].
           ++ apply (Hno (n, a)); [apply incident_In; split; [reflexivity | apply adj_sym, Ha] | right; reflexivity].
        -- intros [Ht Hi]. split; [exact Ht|]. intros e He' Hc. apply incident_In in He'. destruct He' as [<- _].
           apply Hi. destruct Hc as [->| ->]; cbn; tauto.
Qed.

Lemma add_edge_winv : forall tbl s n m, wf_loci tbl = true -> WInv tbl s ->
  getc_raises s n = false -> getc_raises s m = false -> WInv tbl (fst (add_edge tbl s n m)).
Proof.
  intros tbl s n m Hwf [[Hg1 Hg2] HI] Hrn Hrm. unfold add_edge.
  destruct (getc_raises_false s n Hrn) as [Hn _]. destruct (getc_raises_false s m Hrm) as [Hm _].
  rewrite (proj2 (has_node_In s n) Hn), (proj2 (has_node_In s m) Hm), Hrn, Hrm. cbn [negb orb fst].
  set (es := if adjb (st_edges s) n m then st_edges s else st_edges s ++ [(n, m)]).
  set (s1 := mkState (st_nodes s) es (st_attr s) (st_loci s)).
  assert (Hadj : forall a b, adj s1 a b <-> adj s a b \/ (a = n /\ b = m) \/ (a = m /\ b = n)).
  { intros a b. unfold adj, s1, es. cbn [st_edges]. destruct (adjb (st_edges s) n m) eqn:E; [|apply adjb_snoc].
    split; [tauto|]. intros [H|[[-> ->]|[-> ->]]]; [exact H | exact E | rewrite adjb_sym; exact E]. }
  split.
  - split; [|exact Hg2]. intros a b Hab. cbn in *. unfold es in Hab. destruct (adjb (st_edges s) n m); [apply Hg1; exact Hab|].
    apply in_app_iff in Hab. destruct Hab as [Hab|[Hab|[]]]; [apply Hg1; exact Hab | inversion Hab; subst; tauto].
  - revert HI. apply (loci_inv_call tbl add_handler s1 (E n m) (fun sp _ => winv1 sp s)). intros sp l Hsp.
    rewrite winv1_tracks. apply (add_phase sp s1 (E n m) (truthP sp s) (wf_loci_In _ _ Hwf Hsp) (add_supplies sp s1 n m)).
    + apply Hadj. tauto.
    + intro x. apply truthP_mono; [|reflexivity]. destruct x as [v|a b]; cbn [present]; [tauto | rewrite Hadj; tauto].
    + intros x Ht Hc. revert Ht. apply truthP_mono; [|reflexivity]. destruct x as [v|a b]; cbn [present]; [tauto|].
      rewrite Hadj. intros [H|[[-> ->]|[-> ->]]]; [exact H | destruct Hc; cbn; tauto ..].
Qed.

Lemma remove_edge_winv : forall tbl s n m, wf_loci tbl = true -> WInv tbl s ->
  WInv tbl (fst (remove_edge tbl s n m)).
Proof.
  intros tbl s n m Hwf [[Hg1 Hg2] HI]. unfold remove_edge.
  destruct (getc_raises s n || getc_raises s m); [split; [split|]; assumption|].
  assert (H1 : loci_inv (without (E n m)) tbl (call_remove tbl s (E n m))).
  { revert HI. apply (loci_inv_call tbl remove_handler). intros sp l Hsp.
    rewrite winv1_tracks. exact (drop_phase sp s (E n m) (wf_loci_In _ _ Hwf Hsp) (remove_edge_discards sp s n m) (fun x Hx => Hx)). }
  (* with or without the edge in the network, no edge n-m is left in it *)
  assert (H2 : forall s', st_loci s' = st_loci (call_remove tbl s (E n m)) -> st_nodes s' = st_nodes s -> st_attr s' = st_attr s ->
    (forall a b, adj s' a b <-> adj s a b /\ ~ covers (E n m) (E a b)) -> loci_inv winv1 tbl s').
  { intros s' EL EN EA Ha. revert H1. apply loci_inv_restrict; [exact EL | |].
    - intros [v|a b]; cbn [present]; [rewrite EN; cbn; intuition discriminate | apply Ha].
    - intros x _ v _. unfold getc. rewrite EA. reflexivity. }
  change (st_edges (call_remove tbl s (E n m))) with (st_edges s).
  destruct (adjb (st_edges s) n m) eqn:Eadj; cbn [fst]; (split; [split|]).
  - intros a b Hab. cbn in Hab. apply filter_In in Hab. apply Hg1. tauto.
  - exact Hg2.
  - apply H2; try reflexivity. intros a b. unfold adj. cbn [st_edges].
    rewrite adjb_filter by (rewrite same_edge_sym; reflexivity).
    rewrite negb_true_iff, <- not_true_iff_false, same_edge_spec. cbn [covers].
    split; intros [H H']; (split; [exact H|]); intros [H''|H'']; apply H'; inversion H''; tauto.
  - exact Hg1.
  - exact Hg2.
  - apply H2; try reflexivity. intros a b. change (adj s a b <-> adj s a b /\ ~ covers (E n m) (E a b)). split; [|tauto]. intro H. split; [exact H|]. unfold adj in H.
    intros [E1|E1]; inversion E1; subst; [|rewrite adjb_sym in H]; congruence.
Qed.

Theorem winv_step : forall tbl s o, wf_loci tbl = true -> WInv tbl s -> preb s o = true -> WInv tbl (step tbl s o).
Proof.
  intros tbl s o Hwf W Hp. unfold step. destruct o as [n c|n c|n c|n|n m|n m]; cbn [step_out preb] in *.
  - apply andb_true_iff in Hp. destruct Hp as [H1 H2]. apply set_compartment_winv; try assumption.
    destruct (getc s n); [discriminate | reflexivity].
  - apply change_compartment_winv; try assumption. apply negb_true_iff. exact Hp.
  - apply add_node_winv; try assumption. apply negb_true_iff. exact Hp.
  - apply remove_node_winv; try assumption. apply negb_true_iff. exact Hp.
  - apply andb_true_iff in Hp. destruct Hp as [H1 H2]. apply add_edge_winv; try assumption; apply negb_true_iff; assumption.
  - apply remove_edge_winv; assumption.
Qed.

Theorem inv_step : forall tbl s o, wf_loci tbl = true -> single_orientation tbl = true ->
  Inv tbl s -> preb s o = true -> Inv tbl (step tbl s o).
Proof. intros tbl s o Hwf Hs H Hp. apply WInv_Inv; [exact Hs|]. apply winv_step; [exact Hwf | apply Inv_WInv; exact H | exact Hp]. Qed.

(* the invariant along a history, for any test of histories that, on a non-empty one, lets the first
   call keep the invariant and passes the rest ([validb] below, [admissibleb] in LociRaise.v) *)
Lemma winv_along : forall tbl (chk : state -> list op -> bool),
  (forall s o r, WInv tbl s -> chk s (o :: r) = true -> WInv tbl (step tbl s o) /\ chk (step tbl s o) r = true) ->
  forall ops s, WInv tbl s -> chk s ops = true -> WInv tbl (fold_left (step tbl) ops s).
Proof.
  intros tbl chk H ops. induction ops as [|o r IH]; intros s W Hc; cbn [fold_left]; [exact W|].
  destruct (H s o r W Hc) as [W' Hc']. exact (IH _ W' Hc').
Qed.

Lemma winv_history : forall tbl ops s, wf_loci tbl = true -> WInv tbl s -> validb tbl s ops = true ->
  WInv tbl (fold_left (step tbl) ops s).
Proof.
  intros tbl ops s Hwf. apply (winv_along tbl (validb tbl)). intros s0 o r W Hv.
  cbn [validb] in Hv. apply andb_true_iff in Hv. split; [apply winv_step; tauto | tauto].
Qed.

Lemma validb_app : forall tbl a b s, validb tbl s (a ++ b) = validb tbl s a && validb tbl (fold_left (step tbl) a s) b.
Proof.
  intros tbl a. induction a as [|o r IH]; intros b s; cbn [app validb fold_left]; [reflexivity|].
  rewrite IH, andb_assoc. reflexivity.
Qed.

Lemma state0_winv : forall tbl nodes edges, wf_loci tbl = true -> graph_okb nodes edges = true ->
  WInv tbl (state0 tbl nodes edges).
Proof.
  intros tbl nodes edges Hwf Hg. unfold graph_okb in Hg. rewrite forallb_forall in Hg.
  assert (Hc : forall v, getc (state0 tbl nodes edges) v = None).
  { intro v. unfold getc, state0. cbn. destruct (zmem v nodes); reflexivity. }
  split.
  - split.
    + intros a b Hab. specialize (Hg _ Hab). cbn in Hg. apply andb_true_iff in Hg. rewrite !zmem_In in Hg. exact Hg.
    + intros v Hv. cbn in *. apply zmem_false in Hv. rewrite Hv. reflexivity.
  - split; [cbn; apply map_length|]. intros i Hi.
    assert (Hn : nth i (st_loci (state0 tbl nodes edges)) [] = [])
      by exact (map_nth (fun _ => []) tbl default_spec i).
    rewrite Hn. split; [constructor|]. split; [intros x []|].
    (* nothing is true while no node has a compartment *)
    intros x Hx. exfalso. assert (Hv : exists v, involves v x) by (destruct x as [v|a b]; [exists v | exists a]; cbn; tauto).
    destruct Hv as [v Hv]. destruct (truthP_regs _ _ v x (wf_loci_In _ _ Hwf (nth_In _ _ Hi)) Hx Hv) as [c [G _]].
    rewrite Hc in G. discriminate.
Qed.

Theorem weak_history : forall tbl nodes edges init ops, wf_loci tbl = true -> graph_okb nodes edges = true ->
  validb tbl (state0 tbl nodes edges) (init_ops init ++ ops) = true ->
  WInv tbl (fold_left (step tbl) ops (setup tbl nodes edges init)).
Proof.
  intros tbl nodes edges init ops Hwf Hg Hv. unfold setup. rewrite <- fold_left_app.
  apply winv_history; [exact Hwf | apply state0_winv; assumption | exact Hv].
Qed.

Theorem inv_history : forall tbl nodes edges init ops, wf_loci tbl = true -> single_orientation tbl = true ->
  graph_okb nodes edges = true -> validb tbl (state0 tbl nodes edges) (init_ops init ++ ops) = true ->
  Inv tbl (fold_left (step tbl) ops (setup tbl nodes edges init)).
Proof. intros. apply WInv_Inv; [assumption|]. apply weak_history; assumption. Qed.

Lemma attr_present_step_change : forall tbl s n c v,
  getc_raises s v = false -> getc_raises (fst (change_compartment tbl s n c)) v = false.
Proof.
  intros tbl s n c v Hv. unfold change_compartment. destruct (getc_raises s n) eqn:Hn; [exact Hv|]. cbn [fst].
  set (s2 := match getc s n with Some _ => call_leave tbl s (N n) | None => s end).
  assert (H1 : has_node s2 v = has_node s v) by (unfold s2; destruct (getc s n); reflexivity).
  assert (H2 : st_attr s2 v = st_attr s v) by (unfold s2; destruct (getc s n); reflexivity).
  unfold getc_raises in *.
  change (has_node (call_enter tbl (with_attr s2 n (Some (Some c))) (N n)) v) with (has_node s2 v).
  change (st_attr (call_enter tbl (with_attr s2 n (Some (Some c))) (N n)) v)
    with (if Z.eqb v n then Some (Some c) else st_attr s2 v).
  rewrite H1, H2. apply orb_false_iff in Hv. destruct Hv as [Hv1 Hv2]. rewrite Hv1. cbn [orb].
  destruct (Z.eqb v n); [reflexivity | exact Hv2].
Qed.

Lemma init_valid : forall tbl init s, (forall nc, In nc init -> getc_raises s (fst nc) = false) ->
  validb tbl s (init_ops init) = true.
Proof.
  intros tbl init. induction init as [|[n c] r IH]; intros s H; cbn [init_ops map validb]; [reflexivity|].
  apply andb_true_iff. split.
  - cbn [preb fst snd]. apply negb_true_iff. apply (H (n, c)). left. reflexivity.
  - apply IH. intros nc Hnc. unfold step. cbn [step_out fst snd]. apply attr_present_step_change. apply H. right. exact Hnc.
Qed.

Lemma setup_valid : forall tbl nodes edges init, forallb (fun nc => zmem (fst nc) nodes) init = true ->
  validb tbl (state0 tbl nodes edges) (init_ops init) = true.
Proof.
  intros tbl nodes edges init H. apply init_valid. rewrite forallb_forall in H. intros nc Hnc. specialize (H nc Hnc).
  unfold getc_raises, has_node, state0. cbn [st_nodes st_attr]. rewrite H. reflexivity.
Qed.

Lemma valid_after_setup : forall tbl nodes edges init ops, forallb (fun nc => zmem (fst nc) nodes) init = true ->
  validb tbl (setup tbl nodes edges init) ops = true ->
  validb tbl (state0 tbl nodes edges) (init_ops init ++ ops) = true.
Proof.
  intros tbl nodes edges init ops Hi Hv. rewrite validb_app. fold (setup tbl nodes edges init).
  rewrite Hv, (setup_valid tbl nodes edges init Hi). reflexivity.
Qed.

Lemma NoDup_same_length : forall (l l' : list elem), NoDup l -> NoDup l' -> (forall x, In x l <-> In x l') -> length l = length l'.
Proof. intros l l' H1 H2 H. apply Permutation_length, NoDup_Permutation; assumption. Qed.

Definition same_network (s s' : state) : Prop :=
  (forall v, In v (st_nodes s') <-> In v (st_nodes s)) /\ (forall a b, adj s' a b <-> adj s a b)
  /\ (forall v, In v (st_nodes s) -> getc s' v = getc s v).

Lemma truthP_network : forall sp s s' x, graph_ok s -> graph_ok s' -> same_network s s' -> (truthP sp s' x <-> truthP sp s x).
Proof.
  intros sp s s' x [G1 G2] [G1' G2'] [Hn [Ha Hg]].
  assert (Hgall : forall v, getc s' v = getc s v).
  { intro v. destruct (in_dec Z.eq_dec v (st_nodes s)) as [H|H]; [apply Hg; exact H|].
    unfold getc. rewrite (G2 v H), (G2' v); [reflexivity|]. intro H'. apply H, Hn, H'. }
  assert (Hp : present s' x <-> present s x) by (destruct x as [v|a b]; [apply Hn | apply Ha]).
  split; apply truthP_mono; try tauto; intros v _; [symmetry|]; apply Hgall.
Qed.

Lemma same_networkb_spec : forall s s', same_networkb s s' = true -> same_network s s'.
Proof.
  intros s s' H. unfold same_networkb in H. rewrite !andb_true_iff in H.
  destruct H as [[[[H1 H2] H3] H4] H5]. rewrite forallb_forall in H1, H2, H3, H4, H5. split; [|split].
  - intro v. split; intro Hv; [apply zmem_In, H2, Hv | apply zmem_In, H1, Hv].
  - intros a b. unfold adj. split; intro Hab; apply adjb_spec in Hab.
    + destruct Hab as [Hab|Hab]; [exact (H4 _ Hab) | rewrite adjb_sym; exact (H4 _ Hab)].
    + destruct Hab as [Hab|Hab]; [exact (H3 _ Hab) | rewrite adjb_sym; exact (H3 _ Hab)].
  - intros v Hv. specialize (H5 v Hv). destruct (getc s v), (getc s' v); try discriminate; [|reflexivity].
    apply Z.eqb_eq in H5. congruence.
Qed.
