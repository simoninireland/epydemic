(* C19, part 1: the pieces of AddDelete - the all-nodes locus as a set and as the ascending
   enumeration the kernel keeps, newNodeName, the draw loop of add. *)
From Coq Require Import List ZArith Bool Arith Lia Sorted Permutation.
From EpyV Require Import Lib.Prelude Lib.Lists Model.Kernel Model.Loci Model.Compart Model.AddDelete Proofs.LociBase.
Import ListNotations.
Close Scope Q_scope.
Close Scope Z_scope.

Lemma zadd_In : forall x l y, In y (zadd x l) <-> In y l \/ y = x.
Proof.
  intros x l y. unfold zadd. destruct (zmem x l) eqn:E.
  - apply zmem_In in E. split; [tauto|]. intros [H| ->]; assumption.
  - rewrite in_app_iff. cbn. split; [intros [H|[H|[]]]; auto | intros [H|H]; auto].
Qed.

Lemma zadd_NoDup : forall x l, NoDup l -> NoDup (zadd x l).
Proof.
  intros x l H. unfold zadd. destruct (zmem x l) eqn:E; [exact H|].
  apply zmem_false in E. apply NoDup_snoc; assumption.
Qed.

Lemma zadd_fresh : forall x l, ~ In x l -> zadd x l = l ++ [x].
Proof. intros x l H. unfold zadd. apply zmem_false in H. rewrite H. reflexivity. Qed.

Lemma zdiscard_In : forall x l y, In y (zdiscard x l) <-> In y l /\ y <> x.
Proof.
  intros x l y. unfold zdiscard. rewrite filter_In, negb_true_iff, Z.eqb_neq. split; intros [A B]; split; auto.
Qed.

Lemma zdiscard_NoDup : forall x l, NoDup l -> NoDup (zdiscard x l).
Proof. intros x l H. apply NoDup_filter, H. Qed.

Lemma NoDup_remove_length {A} (x : A) (l l' : list A) : NoDup l -> NoDup l' -> In x l ->
  (forall y, In y l' <-> In y l /\ y <> x) -> length l = S (length l').
Proof.
  intros Hl Hl' Hx H. destruct (in_split x l Hx) as [l1 [l2 ->]]. apply NoDup_remove in Hl. destruct Hl as [Hl Hnx].
  rewrite app_length. cbn [length]. rewrite Nat.add_succ_r, <- app_length. f_equal.
  apply Permutation_length, NoDup_Permutation; [exact Hl | exact Hl' |].
  intro y. rewrite H, !in_app_iff. cbn [In]. split.
  - intro Hy. split; [tauto|]. intros ->. apply Hnx, in_app_iff, Hy.
  - intros [[Hy|[Hy|Hy]] Hne]; [left; exact Hy | congruence | right; exact Hy].
Qed.

Lemma zins_In : forall x l y, In y (zins x l) <-> y = x \/ In y l.
Proof.
  intros x l y. induction l as [|z l IH]; cbn [zins].
  - cbn. split; [intros [H|[]]; auto | intros [H|[]]; auto].
  - destruct (Z.ltb_spec x z) as [Hlt|Hge]; [cbn; split; [intros [H|H]; auto | intros [H|H]; auto]|].
    destruct (Z.eqb_spec x z) as [->|Hne].
    + cbn. split; [auto|]. intros [->|H]; auto.
    + cbn [In]. rewrite IH. split; [intros [H1|[H1|H1]]; auto | intros [H1|[H1|H1]]; auto].
Qed.

Lemma zsort_acc_In : forall l acc y, In y (fold_left (fun acc x => zins x acc) l acc) <-> In y acc \/ In y l.
Proof.
  induction l as [|x l IH]; intros acc y; cbn [fold_left].
  - cbn. tauto.
  - rewrite IH, zins_In. cbn. split; [intros [[H|H]|H]; auto | intros [H|[H|H]]; auto].
Qed.

Lemma zsort_In : forall l y, In y (zsort l) <-> In y l.
Proof. intros l y. unfold zsort. rewrite zsort_acc_In. cbn. tauto. Qed.

Definition zsorted (l : list Z) : Prop := StronglySorted Z.lt l.

Lemma zins_sorted : forall x l, zsorted l -> zsorted (zins x l).
Proof.
  intros x l H. induction H as [|z l Hs IH Hz]; cbn [zins]; [repeat constructor|].
  destruct (Z.ltb_spec x z) as [Hlt|Hge].
  - constructor; [constructor; assumption|]. constructor; [exact Hlt|].
    rewrite Forall_forall in *. intros y Hy. specialize (Hz y Hy). lia.
  - destruct (Z.eqb_spec x z); [constructor; assumption|].
    constructor; [exact IH|]. rewrite Forall_forall in *. intros y Hy. apply zins_In in Hy.
    destruct Hy as [->|Hy]; [lia | apply Hz, Hy].
Qed.

Lemma zsort_sorted : forall l, zsorted (zsort l).
Proof.
  intro l. unfold zsort.
  assert (G : forall acc, zsorted acc -> zsorted (fold_left (fun acc x => zins x acc) l acc)).
  { induction l as [|x l IH]; intros acc Ha; cbn [fold_left]; [exact Ha|]. apply IH, zins_sorted, Ha. }
  apply G. constructor.
Qed.

Lemma zsorted_ext : forall a b, zsorted a -> zsorted b -> (forall x, In x a <-> In x b) -> a = b.
Proof.
  intros a b Ha. revert b. induction Ha as [|x a Hs IH Hx]; intros b Hb Hab.
  - destruct b as [|y b]; [reflexivity|]. exfalso. apply (Hab y). left. reflexivity.
  - destruct b as [|y b]; [exfalso; apply (Hab x); left; reflexivity|].
    inversion Hb as [|? ? Hsb Hy]; subst. rewrite Forall_forall in Hx, Hy.
    assert (E : x = y).
    { destruct (proj1 (Hab x) (or_introl eq_refl)) as [E|Hin]; [auto|].
      destruct (proj2 (Hab y) (or_introl eq_refl)) as [E|Hin']; [auto|].
      specialize (Hy x Hin). specialize (Hx y Hin'). lia. }
    subst y. f_equal. apply IH; [exact Hsb|]. intro z. split; intro Hz.
    + destruct (proj1 (Hab z) (or_intror Hz)) as [E|H]; [|exact H]. subst z. specialize (Hx x Hz). lia.
    + destruct (proj2 (Hab z) (or_intror Hz)) as [E|H]; [|exact H]. subst z. specialize (Hy x Hz). lia.
Qed.

Lemma zsorted_NoDup : forall l, zsorted l -> NoDup l.
Proof.
  intros l H. induction H as [|x l Hs IH Hx]; constructor; [|exact IH].
  intro Hin. rewrite Forall_forall in Hx. specialize (Hx x Hin). lia.
Qed.

Lemma zsort_zadd : forall x l, zsort (zadd x l) = zins x (zsort l).
Proof.
  intros x l. apply zsorted_ext; [apply zsort_sorted | apply zins_sorted, zsort_sorted|].
  intro y. rewrite zsort_In, zadd_In, zins_In, zsort_In. tauto.
Qed.

(* the kernel's ordered loci hold the same enumeration *)
Lemma ins_map_EN : forall x l, ins (EN x) (map EN l) = map EN (zins x l).
Proof.
  intros x l. induction l as [|y l IH]; cbn [map ins zins]; [reflexivity|].
  cbn [Kernel.elem_ltb Kernel.elem_eqb]. destruct (x <? y)%Z; [reflexivity|]. destruct (x =? y)%Z; [reflexivity|].
  cbn [map]. rewrite IH. reflexivity.
Qed.

Lemma count_ge_mono : forall i l,
  length (filter (fun v => (i + 1 <=? v)%Z) l) <= length (filter (fun v => (i <=? v)%Z) l).
Proof.
  intros i l. induction l as [|v l IH]; [reflexivity|]. cbn [filter].
  destruct (Z.leb_spec (i + 1) v), (Z.leb_spec i v); cbn [length]; lia.
Qed.

Lemma count_ge_strict : forall i l, In i l ->
  length (filter (fun v => (i + 1 <=? v)%Z) l) < length (filter (fun v => (i <=? v)%Z) l).
Proof.
  intros i l. induction l as [|v l IH]; intros Hi; [destruct Hi|]. cbn [filter].
  pose proof (count_ge_mono i l) as Hm.
  destruct Hi as [->|Hi].
  - destruct (Z.leb_spec (i + 1) i), (Z.leb_spec i i); cbn [length]; lia.
  - specialize (IH Hi). destruct (Z.leb_spec (i + 1) v), (Z.leb_spec i v); cbn [length]; lia.
Qed.

(* the search never runs out of fuel while fewer than fuel names at or above i are taken *)
Lemma name_search_fresh : forall fuel i l,
  length (filter (fun v => (i <=? v)%Z) l) < fuel -> ~ In (name_search fuel i l) l.
Proof.
  induction fuel as [|f IH]; intros i l Hlt; [lia|]. cbn [name_search].
  destruct (zmem i l) eqn:E.
  - apply zmem_In in E. apply IH. pose proof (count_ge_strict i l E). lia.
  - apply zmem_false, E.
Qed.

Lemma name_search_ge : forall fuel i l, (i <= name_search fuel i l)%Z.
Proof.
  induction fuel as [|f IH]; intros i l; cbn [name_search]; [lia|].
  destruct (zmem i l); [|lia]. specialize (IH (i + 1)%Z l). lia.
Qed.

Lemma filter_length_le : forall A (f : A -> bool) l, length (filter f l) <= length l.
Proof. intros A f l. induction l as [|x l IH]; cbn; [lia|]. destruct (f x); cbn; lia. Qed.

Lemma new_node_name_fresh : forall s, ~ In (new_node_name s) (st_nodes s).
Proof.
  intro s. unfold new_node_name. apply name_search_fresh.
  pose proof (filter_length_le Z (fun v => (Z.of_nat (length (st_nodes s)) + 1 <=? v)%Z) (st_nodes s)). lia.
Qed.

Lemma new_node_name_above_order : forall s, (Z.of_nat (length (st_nodes s)) < new_node_name s)%Z.
Proof. intro s. unfold new_node_name. pose proof (name_search_ge (S (length (st_nodes s))) (Z.of_nat (length (st_nodes s)) + 1) (st_nodes s)). lia. Qed.

Lemma draw_at_In : forall L k, L <> [] -> In (draw_at L k) L.
Proof.
  intros L k HL. unfold draw_at. apply nth_In. apply Nat.mod_upper_bound. destruct L; [congruence|cbn; lia].
Qed.

Definition admissible (i : Z) (es : list Z) (j : Z) : Prop := ~ In j es /\ j <> i.

Lemma admissible_b : forall i es j, negb (zmem j es) && negb (Z.eqb i j) = true <-> admissible i es j.
Proof.
  intros i es j. unfold admissible. rewrite andb_true_iff, !negb_true_iff, zmem_false, Z.eqb_neq.
  split; intros [A B]; split; auto.
Qed.

Lemma pick_adm : forall L i es ds j ds', pick L i es ds = Some (j, ds') ->
  admissible i es j /\ In j (map (draw_at L) ds)
  /\ (forall v, admissible i es v -> v <> j -> In v (map (draw_at L) ds) -> In v (map (draw_at L) ds')).
Proof.
  intros L i es ds j ds'. induction ds as [|k ds IH]; cbn [pick]; [discriminate|].
  destruct (negb (zmem (draw_at L k) es) && negb (Z.eqb i (draw_at L k))) eqn:E.
  - intros [= <- <-]. apply admissible_b in E. split; [exact E|]. split; [left; reflexivity|].
    intros v Hv Hne [H|H]; [congruence|exact H].
  - intro H. destruct (IH H) as [A [B C]]. split; [exact A|]. split; [right; exact B|].
    intros v Hv Hne [Hk|Hin]; [|apply C; assumption].
    exfalso. subst v. apply admissible_b in Hv. congruence.
Qed.

Lemma pick_some : forall L i es ds, (exists v, admissible i es v /\ In v (map (draw_at L) ds)) ->
  exists j ds', pick L i es ds = Some (j, ds').
Proof.
  intros L i es ds. induction ds as [|k ds IH]; intros [v [Hv Hin]]; [destruct Hin|]. cbn [pick].
  destruct (negb (zmem (draw_at L k) es) && negb (Z.eqb i (draw_at L k))) eqn:E; [eauto|].
  apply IH. exists v. split; [exact Hv|]. destruct Hin as [Hk|Hin]; [|exact Hin].
  exfalso. subst v. apply admissible_b in Hv. congruence.
Qed.

Lemma picks_spec : forall c L i es0 ds es ds', L <> [] -> picks c L i es0 ds = Some (es, ds') ->
  NoDup es0 -> ~ In i es0 -> incl es0 L ->
  exists new, es = es0 ++ new /\ length new = c /\ NoDup es /\ ~ In i es /\ incl es L.
Proof.
  induction c as [|c IH]; intros L i es0 ds es ds' HL; cbn [picks].
  - intros [= <- <-] Hn Hi Hs. exists []. rewrite app_nil_r. repeat split; assumption.
  - destruct (pick L i es0 ds) as [[j ds1]|] eqn:E; [|discriminate]. intros H Hn Hi Hs.
    destruct (pick_adm L i es0 ds j ds1 E) as [[Hj1 Hj2] [HjL _]].
    apply in_map_iff in HjL. destruct HjL as [k [Ek _]]. pose proof (draw_at_In L k HL) as HjL. rewrite Ek in HjL.
    destruct (IH L i (es0 ++ [j]) ds1 es ds' HL H) as [new [E1 [E2 [E3 [E4 E5]]]]].
    + apply NoDup_snoc; assumption.
    + rewrite in_app_iff. cbn. intros [H1|[H1|[]]]; [contradiction|congruence].
    + intros y Hy. apply in_app_iff in Hy. destruct Hy as [Hy|[<-|[]]]; [apply Hs, Hy|exact HjL].
    + subst es. rewrite <- app_assoc in *. cbn [app] in *. exists (j :: new).
      split; [reflexivity|]. split; [cbn; rewrite E2; reflexivity|]. repeat split; assumption.
Qed.
Arguments picks_spec {c L i es0 ds es ds'}.

(* the loop completes as soon as the ranks supplied select c distinct admissible nodes *)
Lemma picks_progress : forall c L i es ds vs,
  NoDup vs -> c <= length vs ->
  (forall v, In v vs -> admissible i es v /\ In v (map (draw_at L) ds)) ->
  exists es' ds', picks c L i es ds = Some (es', ds').
Proof.
  induction c as [|c IH]; intros L i es ds vs Hn Hc Hvs; cbn [picks]; [eauto|].
  destruct (pick_some L i es ds) as [j [ds1 E]].
  { destruct vs as [|v0 vs0]; [cbn in Hc; lia|]. exists v0. apply Hvs. left. reflexivity. }
  rewrite E.
  destruct (pick_adm L i es ds j ds1 E) as [[Hj1 Hj2] [_ Hrest]].
  apply (IH L i (es ++ [j]) ds1 (zdiscard j vs)).
  - apply zdiscard_NoDup, Hn.
  - assert (Hl : length vs <= length (j :: zdiscard j vs)); [|cbn in Hl; lia].
    apply NoDup_incl_length; [exact Hn|]. intros y Hy.
    destruct (Z.eq_dec j y) as [->|Hne]; [left; reflexivity | right; apply zdiscard_In; auto].
  - intros v Hv. apply zdiscard_In in Hv. destruct Hv as [Hv Hne]. destruct (Hvs v Hv) as [[A1 A2] B]. split.
    + split; [|exact A2]. rewrite in_app_iff. cbn. intros [H|[H|[]]]; [contradiction|congruence].
    + apply Hrest; [split; assumption | exact Hne | exact B].
Qed.
