(* C02: the jump chain.  One iteration of the stochastic loop from a state with total rate a > 0
   and no pending posted event, with the uniform variate r2 replaced by the lengths of the
   intervals of r2 that select each kind (C02_select_measure) and the rank
   draw replaced by the uniform distribution on the ranks of the chosen locus, is a finite
   distribution over (kind, element).  It equals the jump law of the continuous-time Markov chain
   of the table: each (kind j, element e of its locus) has probability p_j / a for a per-element
   event and p_j / (|locus| a) for a fixed-rate one.  [outcome_dist] and [ctmc_outcome] are the n-step
   laws of an observation of the absorbing chain under the one jump law and the other (equal by
   induction: C02_outcome_law in Properties/C02.v).  All over Q, no axioms. *)
From Coq Require Import List ZArith QArith Bool Arith Lia Lqa.
From EpyV Require Import Lib.Dist Model.Kernel Proofs.KernelMember Proofs.GillespieSelect Proofs.GillespieRates.
Import ListNotations.
Open Scope Q_scope.

Notation tr := (nat * nat * event)%type.
Definition dflt : tr := (0%nat, 0%nat, {| ev_elem := false; ev_locus := 0; ev_p := 0; ev_prog := 0 |}).

(* the set of r2 in [0,1) for which the scan returns entry j is [sel_lo j, sel_hi j) *)
Definition sel_lo {A} (f : A -> Q) (l : list A) (j : nat) : Q := prefix f l j / sumf f l.
Definition sel_hi {A} (f : A -> Q) (l : list A) (j : nat) : Q := prefix f l (S j) / sumf f l.
Definition kind_dist {A} (f : A -> Q) (l : list A) : dist nat :=
  map (fun j => (j, sel_hi f l j - sel_lo f l j)) (seq 0 (length l)).

Lemma sel_length : forall A (f : A -> Q) l j d, (j < length l)%nat -> ~ sumf f l == 0 ->
  sel_hi f l j - sel_lo f l j == f (nth j l d) / sumf f l.
Proof. intros A f l j d Hj Ha. unfold sel_hi, sel_lo. rewrite (prefix_S _ f l j d Hj). field. exact Ha. Qed.

(* the rank draw replaced by the uniform distribution on ranks (nothing is drawn from an empty locus) *)
Definition elem_dist (l : list elem) : dist (option elem) :=
  match l with
  | [] => ret None
  | _ => bind (uniform (length l)) (fun k => ret (Some (nth (k mod length l) l (EN 0))))
  end.

Definition outcome := (nat * option elem)%type.
Definition oelem_eqb (a b : option elem) : bool :=
  match a, b with None, None => true | Some x, Some y => elem_eqb x y | _, _ => false end.
Definition out_eqb (a b : outcome) : bool := Nat.eqb (fst a) (fst b) && oelem_eqb (snd a) (snd b).

Lemma out_eqb_eq : forall a b, out_eqb a b = true <-> a = b.
Proof.
  intros [j oe] [j' oe']. unfold out_eqb. cbn [fst snd]. rewrite andb_true_iff, Nat.eqb_eq. split.
  - intros [-> H]. f_equal. destruct oe, oe'; cbn [oelem_eqb] in H; try discriminate; [|reflexivity].
    apply elem_eqb_eq in H. subst. reflexivity.
  - intros E. inversion E; subst. split; [reflexivity|]. destruct oe'; cbn [oelem_eqb]; [apply elem_eqb_eq|]; reflexivity.
Qed.

Section Jump.
Variable W : Type.
Variable tb : table W.
Notation st := (st W).

Definition locus_of (s : st) (j : nat) : list elem := locus s (ev_locus (snd (nth j (transitions tb) dflt))).

(* the model's iteration as a distribution over (kind, element) *)
Definition jump_dist (s : st) : dist outcome :=
  bind (kind_dist (rate s) (transitions tb))
       (fun j => bind (elem_dist (locus_of s j)) (fun oe => ret (j, oe))).

(* the jump law of the CTMC of the table in state s: kind j acts on each element of its locus at
   rate p_j (per-element) or p_j / |locus| (fixed rate, uniformly spread; with an empty locus it
   is a jump that changes nothing); a jump has probability rate / a *)
Definition ctmc_entry (s : st) (a : Q) (j : nat) : dist outcome :=
  let ev := snd (nth j (transitions tb) dflt) in
  let l := locus_of s j in
  match l with
  | [] => [((j, None), (if ev_elem ev then 0 else ev_p ev) / a)]
  | _ => map (fun e => ((j, Some e), (if ev_elem ev then ev_p ev else ev_p ev / qlen l) / a)) l
  end.
Definition total_rate (s : st) : Q := sumf (rate s) (transitions tb).
Definition ctmc_jump (s : st) : dist outcome :=
  flat_map (ctmc_entry s (total_rate s)) (seq 0 (length (transitions tb))).

Lemma mass_kind_bind : forall (w : nat -> Q) (F : nat -> dist outcome) js y,
  mass out_eqb (bind (map (fun j => (j, w j)) js) F) y == sumf (fun j => w j * mass out_eqb (F j) y) js.
Proof.
  intros w F js y. rewrite mass_bind. unfold expect. rewrite sumf_map. reflexivity.
Qed.

Lemma qlen_neq0 : forall l : list elem, l <> [] -> ~ qlen l == 0.
Proof. intros l H E. assert (H0 := qlen_pos l H). rewrite E in H0. exact (Qlt_irrefl 0 H0). Qed.

Theorem jump_law : forall s : st, ~ total_rate s == 0 -> deq out_eqb (jump_dist s) (ctmc_jump s).
Proof.
  intros s Ha y. unfold jump_dist, ctmc_jump, kind_dist.
  rewrite mass_kind_bind, mass_flat_map. apply sumf_ext. intros j Hj. apply in_seq in Hj.
  assert (Hj' : (j < length (transitions tb))%nat) by lia.
  rewrite (sel_length _ (rate s) (transitions tb) j dflt Hj' Ha). fold (total_rate s).
  unfold ctmc_entry. set (x := nth j (transitions tb) dflt). set (a := total_rate s) in *.
  assert (Hl : locus_of s j = locus s (ev_locus (snd x))) by reflexivity.
  destruct (locus_of s j) as [|e0 l'] eqn:El.
  - (* empty locus: nothing is drawn *)
    cbn [elem_dist]. unfold bind, ret, scale. cbn [flat_map map app fst snd]. rewrite !mass_cons, !mass_nil.
    assert (Er : rate s x == (if ev_elem (snd x) then 0 else ev_p (snd x))).
    { destruct (ev_elem (snd x)) eqn:Ee.
      - apply rate_elem_empty; [exact Ee | symmetry; exact Hl].
      - rewrite (rate_fixed W s x Ee). reflexivity. }
    rewrite Er. field. exact Ha.
  - set (l := e0 :: l') in *. assert (Hne : l <> []) by discriminate.
    change (elem_dist l) with (bind (uniform (length l)) (fun k => ret (Some (nth (k mod length l) l (EN 0))))).
    rewrite mass_expect, !expect_bind. unfold uniform. unfold expect at 1. rewrite sumf_map. cbn [fst snd].
    rewrite (sumf_ext _ _ (fun k => (1 / inject_Z (Z.of_nat (length l))) * ind (out_eqb (j, Some (nth (k mod length l) l (EN 0))) y))).
    2:{ intros k _. rewrite !expect_ret. reflexivity. }
    rewrite sumf_scal.
    rewrite (sumf_ranks _ (fun e => ind (out_eqb (j, Some e) y)) l (EN 0)).
    unfold mass. rewrite sumf_map. cbn [fst snd].
    rewrite <- sumf_scal. rewrite <- sumf_scal. apply sumf_ext. intros e _.
    assert (Hq : ~ qlen l == 0) by (apply qlen_neq0; exact Hne).
    assert (Er : rate s x == (if ev_elem (snd x) then ev_p (snd x) * qlen l else ev_p (snd x))).
    { destruct (ev_elem (snd x)) eqn:Ee.
      - rewrite (rate_elem W s x Ee), <- Hl. reflexivity.
      - rewrite (rate_fixed W s x Ee). reflexivity. }
    rewrite Er. change (inject_Z (Z.of_nat (length l))) with (qlen l).
    destruct (ev_elem (snd x)); field; split; assumption.
Qed.

Section Chain.
Variable O : Type.
Variable observe : st -> O.

(* what the loop does once kind and element are known (C02_step, C02_step_single):
   the clock is set, and if an element was drawn the event function runs and is tapped *)
Definition next (s : st) (nt : Q) (je : outcome) : st :=
  match snd je with
  | None => set_clock nt s
  | Some e => fire_event tb (nth (fst je) (transitions tb) dflt) nt e (set_clock nt s)
  end.
(* the loop leaves the stochastic branch when the process' own equilibrium test holds or a = 0
   (no time limit here: the chain is followed until absorption) *)
Definition absorbed (s : st) : bool := t_equil tb (loci s) (world s) || Qeq_bool (sum_rates s (transitions tb)) 0.

(* law of the observation at absorption, within |nts| jumps taking place at the times nts
   (None: not absorbed yet) *)
Fixpoint outcome_dist (nts : list Q) (s : st) : dist (option O) :=
  if absorbed s then ret (Some (observe s))
  else match nts with
       | [] => ret None
       | nt :: nts' => bind (jump_dist s) (fun je => outcome_dist nts' (next s nt je))
       end.
Fixpoint ctmc_outcome (nts : list Q) (s : st) : dist (option O) :=
  if absorbed s then ret (Some (observe s))
  else match nts with
       | [] => ret None
       | nt :: nts' => bind (ctmc_jump s) (fun je => ctmc_outcome nts' (next s nt je))
       end.

End Chain.
End Jump.
