(* Proofs about Model/Generators.v (C15), part 2: core-periphery and modular assembly over the contracts of
   the networkx primitives. *)
From Coq Require Import List ZArith QArith Bool Arith Lia.
From EpyV Require Import Lib.Lists Model.Shuffle Model.Generators Proofs.Shuffle.
Import ListNotations.
Local Open Scope nat_scope.

Lemma zmem_In x l : zmem x l = true <-> In x l.
Proof. exact (memb_In Z.eqb Z.eqb_eq x l). Qed.

Lemma zseq_length a n : length (zseq a n) = n.
Proof. unfold zseq. rewrite map_length, seq_length. reflexivity. Qed.

Lemma zseq_In a n v : In v (zseq a n) <-> (a <= v < a + Z.of_nat n)%Z.
Proof.
  unfold zseq. rewrite in_map_iff. split.
  - intros [i [<- Hi]]. apply in_seq in Hi. lia.
  - intros H. exists (Z.to_nat (v - a)). split; [lia | apply in_seq; lia].
Qed.

Lemma zseq_nth a n i : i < n -> nth i (zseq a n) 0%Z = (a + Z.of_nat i)%Z.
Proof.
  intros H. unfold zseq. rewrite (nth_map_lt _ _ _ 0) by (rewrite seq_length; exact H).
  rewrite seq_nth by exact H. reflexivity.
Qed.

Lemma zseq_S a n : zseq a (S n) = a :: zseq (a + 1) n.
Proof.
  unfold zseq. cbn [seq map]. f_equal; [lia|]. rewrite <- seq_shift, map_map. apply map_ext. intros; lia.
Qed.

Lemma map_relabel_self l off : NoDup l -> map (relabel l off) l = zseq off (length l).
Proof.
  revert off. induction l as [|x l IH]; intros off Hn; [reflexivity|].
  inversion Hn as [|? ? Hx Hl]; subst. cbn [length]. rewrite zseq_S. cbn [map]. f_equal.
  - unfold relabel. cbn. rewrite Z.eqb_refl. lia.
  - rewrite <- (IH (off + 1)%Z Hl). apply map_ext_in. intros v Hv. unfold relabel. cbn.
    destruct (x =? v)%Z eqn:E; [apply Z.eqb_eq in E; subst; contradiction | lia].
Qed.

Lemma relabel_nth l off j : NoDup l -> j < length l -> relabel l off (nth j l 0%Z) = (off + Z.of_nat j)%Z.
Proof.
  intros Hn Hj. rewrite <- (zseq_nth off (length l) j Hj), <- (map_relabel_self l off Hn). symmetry. apply nth_map_lt, Hj.
Qed.

Lemma relabel_range l off v : In v l -> (off <= relabel l off v < off + Z.of_nat (length l))%Z.
Proof.
  intros H. unfold relabel. enough (index_of v l < length l) by lia.
  induction l as [|x l IH]; [destruct H|]. cbn. destruct (x =? v)%Z eqn:E; [lia|].
  apply Z.eqb_neq in E. destruct H as [H|H]; [congruence|]. specialize (IH H). lia.
Qed.

Lemma relabel_edges_range kept off es e : In e (relabel_edges kept off es) ->
  (off <= fst e < off + Z.of_nat (length kept))%Z /\ (off <= snd e < off + Z.of_nat (length kept))%Z.
Proof.
  unfold relabel_edges, induced. intros H. apply in_map_iff in H. destruct H as [[a b] [<- H]].
  apply filter_In in H. destruct H as [_ H]. apply andb_true_iff in H. rewrite !zmem_In in H.
  split; apply relabel_range; tauto.
Qed.

Inductive path (es : list edge) : Z -> Z -> Prop :=
| path_refl x : path es x x
| path_step x y z : has_edge es x y = true -> path es y z -> path es x z.

Definition conn (es : list edge) (ns : list Z) : Prop := forall x y, In x ns -> In y ns -> path es x y.

Definition emap (f : Z -> Z) (es : list edge) : list edge := map (fun e => (f (fst e), f (snd e))) es.

Lemma has_edge_emap f es x y : has_edge es x y = true -> has_edge (emap f es) (f x) (f y) = true.
Proof.
  rewrite !has_edge_In. intros [[a b] [Hi Hs]]. exists (f a, f b). split.
  - unfold emap. apply in_map_iff. exists (a, b). auto.
  - apply same_edge_iff in Hs. apply same_edge_iff. destruct Hs as [[-> ->]|[-> ->]]; auto.
Qed.

Lemma path_emap f {es x y} : path es x y -> path (emap f es) (f x) (f y).
Proof.
  induction 1 as [x|x y z H _ IH]; [constructor|].
  eapply path_step; [apply has_edge_emap; exact H | exact IH].
Qed.

Lemma path_mono es es' x y : (forall a b, has_edge es a b = true -> has_edge es' a b = true) -> path es x y -> path es' x y.
Proof. intros Hs. induction 1 as [x|x y z H _ IH]; [constructor | eapply path_step; [apply Hs; exact H | exact IH]]. Qed.

Lemma relabel_conn kept off es : conn (induced es kept) kept ->
  conn (relabel_edges kept off es) (map (relabel kept off) kept).
Proof.
  intros Hc x y Hx Hy. apply in_map_iff in Hx, Hy. destruct Hx as [x0 [<- Hx]]. destruct Hy as [y0 [<- Hy]].
  exact (path_emap (relabel kept off) (Hc x0 y0 Hx Hy)).
Qed.

(* the extractor functions return exactly the nodes carrying the mark *)
Lemma nodes_of_origin_spec g o l :
  In l (nodes_of_origin g o) <-> exists v, In v (g_nodes g) /\ v_label v = l /\ v_origin v = o.
Proof.
  unfold nodes_of_origin. rewrite in_map_iff. split.
  - intros [v [Hl Hv]]. apply filter_In in Hv. destruct Hv as [Hv Ho]. apply Z.eqb_eq in Ho. exists v. auto.
  - intros [v [Hv [Hl Ho]]]. exists v. split; [exact Hl|]. apply filter_In. split; [exact Hv | apply Z.eqb_eq; exact Ho].
Qed.

Definition in_centre (Nc : nat) (v : Z) : Prop := (0 <= v < Z.of_nat Nc)%Z.
Definition in_sat (Nc Ns k : nat) (v : Z) : Prop :=
  (sat_offset Nc Ns k <= v < sat_offset Nc Ns k + Z.of_nat Ns)%Z.

Lemma sat_offset_S Nc Ns k : sat_offset Nc Ns (S k) = (sat_offset Nc Ns k + Z.of_nat Ns)%Z.
Proof. unfold sat_offset. lia. Qed.

Lemma sat_offset_mono Nc Ns k k' : k <= k' -> (sat_offset Nc Ns k <= sat_offset Nc Ns k')%Z.
Proof.
  intros H. unfold sat_offset. apply Zplus_le_compat_l. apply Z.mul_le_mono_nonneg_r; lia.
Qed.

Lemma sat_offset_ge Nc Ns k : (Z.of_nat Nc <= sat_offset Nc Ns k)%Z.
Proof. unfold sat_offset. pose proof (Z.mul_nonneg_nonneg (Z.of_nat k) (Z.of_nat Ns)). lia. Qed.

Lemma sat_centre_disjoint {Nc Ns k v} : in_sat Nc Ns k v -> in_centre Nc v -> False.
Proof. unfold in_sat, in_centre. pose proof (sat_offset_ge Nc Ns k). lia. Qed.

Lemma sat_sat_disjoint {Nc Ns k k' v} : in_sat Nc Ns k v -> in_sat Nc Ns k' v -> k = k'.
Proof.
  unfold in_sat. intros H H'.
  destruct (Nat.lt_trichotomy k k') as [L|[E|L]]; [exfalso|exact E|exfalso].
  - pose proof (sat_offset_mono Nc Ns (S k) k' L). rewrite sat_offset_S in *. lia.
  - pose proof (sat_offset_mono Nc Ns (S k') k L). rewrite sat_offset_S in *. lia.
Qed.

(* side conditions: a component of a graph on N nodes has at most N nodes; rng.choice indexes its argument *)
Fixpoint choices_ok (kc : nat) (sats : list module_in) (choices : list (nat * nat)) : Prop :=
  match sats, choices with
  | [], [] => True
  | m :: r, (ci, si) :: cs => ci < kc /\ si < length (m_order m) /\ choices_ok kc r cs
  | _, _ => False
  end.

Record mod_wf (i : mod_input) : Prop := {
  wf_centre : length (m_order (md_centre i)) <= md_Nc i;
  wf_sats : Forall (fun m => length (m_order m) <= md_Ns i) (md_sats i);
  wf_choices : choices_ok (length (m_order (md_centre i))) (md_sats i) (md_choices i)
}.

Section Modular.
  Variables (Nc Ns : nat) (kc : nat).
  Hypothesis Hkc : kc <= Nc.
  Let ns_centre := zseq 0 kc.

  Lemma module_node_in_sat k m si : length (m_order m) <= Ns -> si < length (m_order m) ->
    in_sat Nc Ns k (nth si (module_nodes Ns m (sat_offset Nc Ns k)) 0%Z).
  Proof.
    intros Hl Hs. unfold module_nodes, module_kept. rewrite zseq_nth by exact Hs. unfold in_sat. lia.
  Qed.

  Lemma centre_node_in ci : ci < kc -> in_centre Nc (nth ci ns_centre 0%Z).
  Proof. intros H. unfold ns_centre. rewrite zseq_nth by exact H. unfold in_centre. lia. Qed.

  Lemma links_from_nth {k0 sats choices j l} :
    Forall (fun m => length (m_order m) <= Ns) sats -> choices_ok kc sats choices ->
    nth_error (links_from ns_centre Nc Ns k0 sats choices) j = Some l ->
    in_sat Nc Ns (k0 + j) (fst l) /\ in_centre Nc (snd l).
  Proof.
    revert k0 choices j. induction sats as [|s sats IH]; intros k0 [|[ci si] cs] j Hf Hc;
      cbn [links_from choices_ok] in *; try (destruct j; discriminate).
    destruct Hc as [Hci [Hsi Hc]]. inversion Hf as [|? ? Hs Hf']; subst. destruct j as [|j]; cbn [nth_error].
    - intros [= <-]. rewrite Nat.add_0_r. split; [apply module_node_in_sat | apply centre_node_in]; assumption.
    - rewrite <- Nat.add_succ_comm. apply IH; assumption.
  Qed.

  Lemma links_from_length {k0 sats choices} : choices_ok kc sats choices ->
    length (links_from ns_centre Nc Ns k0 sats choices) = length sats.
  Proof.
    revert k0 choices. induction sats as [|s sats IH]; intros k0 [|[ci si] cs] Hc; cbn in *; try tauto.
    f_equal. apply IH. tauto.
  Qed.

  Lemma links_from_shape k0 sats choices l :
    Forall (fun m => length (m_order m) <= Ns) sats -> choices_ok kc sats choices ->
    In l (links_from ns_centre Nc Ns k0 sats choices) -> exists k, in_sat Nc Ns k (fst l) /\ in_centre Nc (snd l).
  Proof.
    intros Hf Hc H. apply In_nth_error in H. destruct H as [j H]. exists (k0 + j). exact (links_from_nth Hf Hc H).
  Qed.

  (* among the links, satellite k owns exactly one *)
  Lemma links_from_one k0 sats choices :
    Forall (fun m => length (m_order m) <= Ns) sats -> choices_ok kc sats choices ->
    forall k, k0 <= k < k0 + length sats ->
    exists n m, in_sat Nc Ns k n /\ in_centre Nc m /\ In (n, m) (links_from ns_centre Nc Ns k0 sats choices) /\
      forall x y, existsb (same_edge (x, y)) (links_from ns_centre Nc Ns k0 sats choices) = true ->
                  in_sat Nc Ns k x -> in_centre Nc y -> x = n /\ y = m.
  Proof.
    intros Hf Hc k Hk. set (links := links_from ns_centre Nc Ns k0 sats choices).
    destruct (nth_error links (k - k0)) as [[n m]|] eqn:E.
    2:{ apply nth_error_None in E. unfold links in E. rewrite (links_from_length Hc) in E. lia. }
    destruct (links_from_nth Hf Hc E) as [Hn Hm]. cbn [fst snd] in Hn, Hm.
    replace (k0 + (k - k0)) with k in Hn by lia.
    exists n, m. split; [exact Hn|]. split; [exact Hm|]. split; [exact (nth_error_In _ _ E)|].
    intros x y He Hx Hy. apply existsb_exists in He. destruct He as [[n' m'] [Hi Hsame]].
    apply In_nth_error in Hi. destruct Hi as [j Ej].
    destruct (links_from_nth Hf Hc Ej) as [Hn' Hm']. cbn [fst snd] in Hn', Hm'.
    apply same_edge_iff in Hsame. destruct Hsame as [[-> ->]|[-> ->]].
    - (* the same satellite, so the same position in the list *)
      pose proof (sat_sat_disjoint Hx Hn') as Ek. replace j with (k - k0) in Ej by lia.
      rewrite E in Ej. injection Ej as <- <-. auto.
    - exfalso. exact (sat_centre_disjoint Hx Hm').
  Qed.

End Modular.
Arguments links_from_shape {Nc Ns kc} Hkc {k0 sats choices l}.
Arguments links_from_one {Nc Ns kc} Hkc k0 {sats choices}.

Lemma sat_edges_from_range {Nc Ns k0 sats e} :
  Forall (fun m => length (m_order m) <= Ns) sats -> In e (sat_edges_from Nc Ns k0 sats) ->
  exists k, in_sat Nc Ns k (fst e) /\ in_sat Nc Ns k (snd e).
Proof.
  revert k0. induction sats as [|s sats IH]; intros k0 Hf; [intros []|].
  inversion Hf as [|? ? Hs Hf']; subst. cbn [sat_edges_from]. intros H. apply in_app_or in H. destruct H as [H|H].
  - exists k0. unfold module_edges, module_kept in H. apply relabel_edges_range in H. unfold in_sat. lia.
  - exact (IH (S k0) Hf' H).
Qed.

Lemma sat_nodes_from_blocks {Nc Ns k0 sats v o} :
  Forall (fun m => length (m_order m) <= Ns) sats -> In (v, o) (sat_nodes_from Nc Ns k0 sats) ->
  exists k, k0 <= k < k0 + length sats /\ o = Z.of_nat (S k) /\ in_sat Nc Ns k v.
Proof.
  revert k0. induction sats as [|s sats IH]; intros k0 Hf; [intros []|].
  inversion Hf as [|? ? Hs Hf']; subst. cbn [sat_nodes_from length]. intros H. apply in_app_or in H. destruct H as [H|H].
  - apply in_map_iff in H. destruct H as [x [E Hx]]. inversion E; subst. exists k0. split; [lia|]. split; [reflexivity|].
    unfold module_nodes, module_kept in Hx. apply zseq_In in Hx. unfold in_sat. lia.
  - destruct (IH (S k0) Hf' H) as [k [Hk R]]. exists k. split; [lia | exact R].
Qed.

Lemma has_edge_fold_add links : forall base x y,
  has_edge (fold_left (fun g e => add_edge g (fst e) (snd e)) links base) x y
  = has_edge base x y || existsb (same_edge (x, y)) links.
Proof.
  induction links as [|l links IH]; intros base x y; cbn [fold_left existsb]; [rewrite orb_false_r; reflexivity|].
  rewrite IH, has_edge_add, <- surjective_pairing, (same_edge_sym l), orb_assoc. reflexivity.
Qed.

Lemma mod_edge_cases i x y : mod_wf i -> has_edge (g_edges (mod_generate i)) x y = true ->
  (in_centre (md_Nc i) x /\ in_centre (md_Nc i) y)
  \/ (exists k, in_sat (md_Nc i) (md_Ns i) k x /\ in_sat (md_Nc i) (md_Ns i) k y)
  \/ existsb (same_edge (x, y)) (mod_links i) = true.
Proof.
  intros [Hc Hs _]. unfold mod_generate. cbn [g_edges]. rewrite has_edge_fold_add. intros H.
  apply orb_true_iff in H. destruct H as [H|H]; [|tauto].
  apply has_edge_In in H. destruct H as [[a b] [Hi Hsame]]. apply same_edge_iff in Hsame.
  unfold mod_base_edges in Hi. apply in_app_or in Hi. destruct Hi as [Hi|Hi].
  - left. unfold module_edges, module_kept in Hi. apply relabel_edges_range in Hi. cbn [fst snd] in Hi.
    unfold in_centre. destruct Hsame as [[-> ->]|[-> ->]]; lia.
  - right; left. destruct (sat_edges_from_range Hs Hi) as [k [Ha Hb]]. exists k.
    destruct Hsame as [[-> ->]|[-> ->]]; auto.
Qed.

Lemma module_conn {N m off} : conn (induced (m_edges m) (m_order m)) (m_order m) -> NoDup (m_order m) ->
  conn (module_edges N m off) (module_nodes N m off).
Proof.
  intros Hc Hn. unfold module_edges, module_nodes, module_kept. rewrite <- (map_relabel_self (m_order m) off Hn).
  apply relabel_conn. exact Hc.
Qed.

Lemma mod_base_in_result i x y : has_edge (mod_base_edges i) x y = true -> has_edge (g_edges (mod_generate i)) x y = true.
Proof. intros H. unfold mod_generate. cbn [g_edges]. rewrite has_edge_fold_add, H. reflexivity. Qed.

Lemma sat_edges_from_nth {Nc Ns sats} : forall k0 k m {x y}, nth_error sats k = Some m ->
  has_edge (module_edges Ns m (sat_offset Nc Ns (k0 + k))) x y = true -> has_edge (sat_edges_from Nc Ns k0 sats) x y = true.
Proof.
  induction sats as [|s sats IH]; intros k0 k m x y Hn H; [destruct k; discriminate|].
  cbn [sat_edges_from]. rewrite has_edge_app. apply orb_true_iff. destruct k as [|k].
  - left. cbn in Hn. inversion Hn; subst. rewrite Nat.add_0_r in H. exact H.
  - right. cbn in Hn. apply (IH (S k0) k m); [exact Hn|]. rewrite Nat.add_succ_comm. exact H.
Qed.
