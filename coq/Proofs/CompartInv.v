(* C07, the key invariant of a run of a shipped compartmented model (Model/Compart.v run by
   Model/Kernel.v): at set-up, after every scheduler move and after every event function
     (a) the kernel's ordered loci are [map ksort] of the loci the handlers of Model/Loci.v keep;
     (b) those loci satisfy the C01 invariant for the model's table (weak form: exact up to the
         stored orientation of an edge that qualifies both ways round; it is the strong form
         [Inv] whenever the table is single_orientation);
     (c) the node and edge lists never change and every node has a compartment of the model.
   For every cmodel with a well-formed loci table, every network, initial assignment, oracle.
   The file starts with kernel facts for every world type and table: what a call does to loci,
   world and queue in terms of the program it runs (run_prog_lw, [entered], [ran], after_ev,
   after_post, after_lw), and what set-up preserves (setup_state_inv, setup_state_lw). *)
From Coq Require Import List ZArith QArith Bool Arith.
From EpyV Require Import Model.Kernel Model.Loci Model.Compart
  Proofs.KernelBase Proofs.LociBase Proofs.LociLocus Proofs.LociInv Proofs.CompartRun Proofs.CompartSort.
Import ListNotations.
Close Scope Q_scope.

Definition call_args (c : call) : nat * Q * Kernel.elem :=
  match c with
  | CEv x t e => (ev_prog (snd x), t, e)
  | CPost h => (e_prog h, e_time h, e_elem h)
  end.

Section KW.
Context {W : Type}.
Variable tb : table W.
Implicit Types s : st W.

Lemma run_prog_lw p k t e s :
  loci (run_prog tb p k t e s) = fold_left (act_loci e) (snd (prog_of tb k t e (loci s) (world s))) (loci s)
  /\ world (run_prog tb p k t e s) = fst (prog_of tb k t e (loci s) (world s)).
Proof.
  unfold run_prog. destruct (prog_of tb k t e (loci s) (world s)) as [w acts]. cbn [fst snd].
  exact (run_actions_lw p t e acts (set_world w s)).
Qed.

(* A call runs one event function.  [entered c s] is the state the function starts on: its
   handler record written and, for a posted one, the entry popped and the clock set; [ran c s]
   is the state it leaves.  A stochastic call then only writes its tap; a posted one writes its
   tap and, if its entry repeats, posts the next occurrence (same element, same program). *)
Definition entered (c : call) s : st W :=
  match c with
  | CEv x t e => emit (OHandler (ev_prog (snd x)) t (clock s) e (Some (mem e (locus s (ev_locus (snd x)))))) s
  | CPost h => emit (OHandler (e_prog h) (e_time h) (e_time h) (e_elem h) None)
                    (set_clock (e_time h) (set_queue (remove_id (e_id h) (queue s)) s))
  end.
Definition call_proc (c : call) : nat := match c with CEv x _ _ => fst (fst x) | CPost h => e_proc h end.
Definition ran (c : call) s : st W :=
  run_prog tb (call_proc c) (fst (fst (call_args c))) (snd (fst (call_args c))) (snd (call_args c)) (entered c s).

Lemma after_ev x t e s :
  after tb (CEv x t e) s = emit (OTap t (fst (fst x)) (NEv (fst (fst x)) (snd (fst x))) e) (ran (CEv x t e) s).
Proof. destruct x as [[pi j] ev]. reflexivity. Qed.

Lemma after_post h s : exists extra,
  queue (after tb (CPost h) s) = extra ++ queue (ran (CPost h) s)
  /\ loci (after tb (CPost h) s) = loci (ran (CPost h) s) /\ world (after tb (CPost h) s) = world (ran (CPost h) s)
  /\ (forall y, In y extra -> e_elem y = e_elem h /\ e_prog y = e_prog h /\ e_rep y <> None)
  /\ (e_rep h = None -> extra = []).
Proof.
  cbn [after]. unfold pend_step, fire. cbn [queue loci world emit]. change (run_prog tb _ _ _ _ _) with (ran (CPost h) s).
  assert (Same : forall s3 : st W, exists extra, queue s3 = extra ++ queue s3 /\ loci s3 = loci s3 /\ world s3 = world s3
            /\ (forall y, In y extra -> e_elem y = e_elem h /\ e_prog y = e_prog h /\ e_rep y <> None) /\ (e_rep h = None -> extra = [])).
  { intros s3. exists []. split; [reflexivity|]. split; [reflexivity|]. split; [reflexivity|]. split; [intros y [] | reflexivity]. }
  destruct (e_rep h) as [ddt|]; [|apply Same]. unfold post. destruct (Qltb _ _); cbn [queue loci world emit]; [apply Same|].
  eexists [_]. split; [reflexivity|]. split; [reflexivity|]. split; [reflexivity|]. split; [|discriminate].
  intros y [<-|[]]. cbn [e_elem e_prog e_rep]. split; [reflexivity|]. split; [reflexivity | discriminate].
Qed.

(* lw: loci and world.  The event function is applied to the loci and the world of s itself:
   entering the call ([entered]) changes neither *)
Lemma after_lw c s :
  let '(k, t, e) := call_args c in
  loci (after tb c s) = fold_left (act_loci e) (snd (prog_of tb k t e (loci s) (world s))) (loci s)
  /\ world (after tb c s) = fst (prog_of tb k t e (loci s) (world s)).
Proof.
  assert (R : loci (after tb c s) = loci (ran c s) /\ world (after tb c s) = world (ran c s)).
  { destruct c as [x t e|h]; [rewrite after_ev; split; reflexivity|]. destruct (after_post h s) as (extra & _ & A & B & _). split; assumption. }
  destruct R as [-> ->]. unfold ran. destruct c as [x t e|h]; cbn [call_args fst snd call_proc].
  - exact (run_prog_lw _ _ t e (entered (CEv x t e) s)).
  - exact (run_prog_lw _ _ _ _ (entered (CPost h) s)).
Qed.

Definition post_only (a : action) : Prop :=
  match a with APost _ _ | APostOn _ _ _ | APostRep _ _ _ => True | _ => False end.

Lemma post_only_loci e acts L : Forall post_only acts -> fold_left (act_loci e) acts L = L.
Proof.
  revert L. induction acts as [|a acts IH]; intros L H; cbn [fold_left]; [reflexivity|].
  inversion H as [|? ? Ha H']; subst. rewrite <- (IH L H') at 2. f_equal. destruct a; cbn in Ha; try contradiction; reflexivity.
Qed.

Lemma setup_state_inv (P : st W -> Prop) rs ls ds :
  (forall p k s, In p (t_procs tb) -> P s -> P (run_actions k 0%Q (EN 0) (p_setup p) s)) ->
  P {| clock := 0%Q; nextid := 0; queue := []; loci := init_loci tb; world := t_world tb; ids := []; out := [];
       rands := rs; lns := ls; draws := ds; stuck := false |} -> P (setup_state tb rs ls ds).
Proof.
  intros H. unfold setup_state.
  assert (G : forall ps, incl ps (t_procs tb) -> forall s k, P s ->
            P (fst (fold_left (fun (acc : st W * nat) p => (run_actions (snd acc) 0%Q (EN 0) (p_setup p) (fst acc), S (snd acc))) ps (s, k)))).
  { induction ps as [|p ps IH]; intros Hps s k H0; cbn [fold_left fst snd]; [exact H0|].
    apply IH; [intros q Hq; apply Hps; right; exact Hq|]. apply H; [apply Hps; left; reflexivity | exact H0]. }
  exact (G (t_procs tb) (incl_refl _) _ 0).
Qed.

Lemma setup_state_lw rs ls ds : (forall p, In p (t_procs tb) -> Forall post_only (p_setup p)) ->
  loci (setup_state tb rs ls ds) = init_loci tb /\ world (setup_state tb rs ls ds) = t_world tb.
Proof.
  intros H. apply (setup_state_inv (fun s => loci s = init_loci tb /\ world s = t_world tb)); [|split; reflexivity].
  intros p k s Hp [A B]. destruct (run_actions_lw k 0%Q (EN 0) (p_setup p) s) as [-> ->]. rewrite post_only_loci; [split; assumption | apply H, Hp].
Qed.
End KW.

Definition kind_target (h : hkind) : list Z :=
  match h with HNode c => [c] | HLeft c _ _ => [c] | _ => [] end.
Definition spec_comps (sp : spec) : list Z :=
  match sp with NodeLocus c => [c] | EdgeLocus l r => [l; r] | MultiEdgeLocus l rs => l :: rs end.
(* program k of the simulation is the event function with summary [nth k (cm_kinds cm)] *)
Definition cm_kinds (cm : cmodel) : list hkind := map ce_kind (cm_events cm) ++ cm_extra cm ++ [HObs].
(* the compartments a table mentions: those its loci track and those its event functions move nodes to *)
Definition cm_comps (cm : cmodel) : list Z :=
  znodup (flat_map spec_comps (cm_specs cm) ++ flat_map kind_target (cm_kinds cm)).

(* the call changeCompartment(n, c) an event function with summary h makes on element e, if any *)
Definition moved (h : hkind) (e : Kernel.elem) : option (Z * Z) :=
  match h, e with
  | HNode c, EN n => Some (n, c)
  | HLeft c _ _, EE n m => Some (n, c)
  | _, _ => None
  end.

Lemma moved_target h e n c : moved h e = Some (n, c) -> In c (kind_target h).
Proof. destruct h, e; cbn; intros E; inversion E; subst; left; reflexivity. Qed.

Lemma kind_comps cm h c : In h (cm_kinds cm) -> In c (kind_target h) -> In c (cm_comps cm).
Proof.
  intros Hh Hc. unfold cm_comps. apply znodup_In, in_app_iff. right. apply in_flat_map. exists h. split; assumption.
Qed.

Lemma cc_frame tbl s n c :
  st_nodes (fst (change_compartment tbl s n c)) = st_nodes s /\ st_edges (fst (change_compartment tbl s n c)) = st_edges s.
Proof. unfold change_compartment. destruct (getc_raises s n); [split; reflexivity|]. destruct (getc s n); split; reflexivity. Qed.

Lemma cc_getc tbl s n c v :
  getc (fst (change_compartment tbl s n c)) v =
  if getc_raises s n then getc s v else if Z.eqb v n then Some c else getc s v.
Proof.
  unfold change_compartment. destruct (getc_raises s n); [reflexivity|]. cbn [fst].
  unfold getc, call_enter, call_leave, Loci.call, with_loci, with_attr. cbn [st_attr].
  destruct (Z.eqb v n); [reflexivity|]. destruct (match st_attr s n with Some (Some c0) => Some c0 | _ => None end); reflexivity.
Qed.

Lemma getc_some_noraise s n c : In n (st_nodes s) -> getc s n = Some c -> getc_raises s n = false.
Proof.
  intros Hn Hc. unfold getc_raises. apply orb_false_iff. split; [apply negb_false_iff, has_node_In, Hn|].
  unfold getc in Hc. destruct (st_attr s n); [reflexivity | discriminate].
Qed.

Lemma handler_st tbl off h t e kl w :
  cw_st (fst (handler tbl off h t e kl w)) =
  match moved h e with Some (n, c) => fst (change_compartment tbl (cw_st w) n c) | None => cw_st w end.
Proof. destruct h as [c|c [|] post| |], e as [n|n m]; reflexivity. Qed.

Lemma handler_getc tbl off h t e kl w v :
  getc (cw_st (fst (handler tbl off h t e kl w))) v =
  match moved h e with
  | Some (n, c) => if getc_raises (cw_st w) n then getc (cw_st w) v else if Z.eqb v n then Some c else getc (cw_st w) v
  | None => getc (cw_st w) v
  end.
Proof. rewrite handler_st. destruct (moved h e) as [[n c]|]; [apply cc_getc | reflexivity]. Qed.

Lemma handler_loci tbl off h t e kl w :
  fold_left (act_loci e) (snd (handler tbl off h t e kl w)) kl =
  match moved h e with
  | Some (n, c) => fold_left (act_loci e) (sync_actions off kl (st_loci (fst (change_compartment tbl (cw_st w) n c)))) kl
  | None => kl
  end.
Proof.
  destruct h as [c|c mark post| |], e as [n|n m]; try reflexivity.
  cbn [handler moved snd]. rewrite fold_left_app. destruct post as [[T k]|]; reflexivity.
Qed.

Section CI.
Variable cm : cmodel.
Variables (nodes : list Z) (edges : list (Z * Z)) (init : list (Z * Z)) (maxtime : Q) (monitor : option Q).
Let tb := mk_table cm nodes edges init maxtime monitor.

(* (a), (b), (c) for a loci state and the kernel's copy *)
Definition SInv (s : Loci.state) (kl : list (list Kernel.elem)) : Prop :=
  kl = map ksort (st_loci s)
  /\ WInv (cm_specs cm) s
  /\ st_nodes s = nodes /\ st_edges s = edges
  /\ forall v, In v nodes -> exists c, getc s v = Some c /\ In c (cm_comps cm).

(* J: the run invariant, (a) - (c) on a state of the simulation *)
Definition J (s : st cworld) : Prop := SInv (cw_st (world s)) (loci s).

Lemma J_loci s : J s -> loci s = map ksort (st_loci (cw_st (world s))).
Proof. intros H. apply H. Qed.
Lemma J_winv s : J s -> WInv (cm_specs cm) (cw_st (world s)).
Proof. intros H. apply H. Qed.
Lemma J_nodes s : J s -> st_nodes (cw_st (world s)) = nodes.
Proof. intros H. apply H. Qed.
Lemma J_edges s : J s -> st_edges (cw_st (world s)) = edges.
Proof. intros H. apply H. Qed.
Lemma J_comp s v : J s -> In v nodes -> exists c, getc (cw_st (world s)) v = Some c /\ In c (cm_comps cm).
Proof. intros H. apply H. Qed.
Lemma J_edge_nodes s a b : J s -> In (a, b) edges -> In a nodes /\ In b nodes.
Proof. intros H. rewrite <- (J_edges s H), <- (J_nodes s H). apply (J_winv s H). Qed.
Lemma J_locus s li : J s -> li < length (cm_specs cm) ->
  winv1 (nth li (cm_specs cm) default_spec) (cw_st (world s)) (nth li (st_loci (cw_st (world s))) []).
Proof. intros H. apply (J_winv s H). Qed.

Lemma sinv_change s kl e n c : wf_loci (cm_specs cm) = true -> In c (cm_comps cm) -> SInv s kl ->
  SInv (fst (change_compartment (cm_specs cm) s n c))
       (fold_left (act_loci e) (sync_actions 0 kl (st_loci (fst (change_compartment (cm_specs cm) s n c)))) kl).
Proof.
  intros Hwf Hc (Hk & Hw & Hn & He & Hg).
  set (s' := fst (change_compartment (cm_specs cm) s n c)).
  assert (Hw' : WInv (cm_specs cm) s').
  { unfold s'. destruct (getc_raises s n) eqn:R; [unfold change_compartment; rewrite R; exact Hw|].
    apply change_compartment_winv; assumption. }
  destruct (cc_frame (cm_specs cm) s n c) as [F1 F2]. fold s' in F1, F2.
  split.
  - apply (sync_actions_spec e []).
    + rewrite Hk, map_length. destruct Hw as [_ [L _]]. destruct Hw' as [_ [L' _]]. congruence.
    + rewrite Hk. apply Forall_forall. intros l Hl. apply in_map_iff in Hl. destruct Hl as [l0 [<- _]]. apply ksort_ssorted.
  - split; [exact Hw'|]. split; [congruence|]. split; [congruence|].
    intros v Hv. unfold s'. rewrite cc_getc. destruct (getc_raises s n); [apply Hg, Hv|].
    destruct (Z.eqb v n); [exists c; split; [reflexivity | exact Hc] | apply Hg, Hv].
Qed.

Lemma sinv_handler h t e kl w : wf_loci (cm_specs cm) = true -> In h (cm_kinds cm) -> SInv (cw_st w) kl ->
  SInv (cw_st (fst (handler (cm_specs cm) 0 h t e kl w))) (fold_left (act_loci e) (snd (handler (cm_specs cm) 0 h t e kl w)) kl).
Proof.
  intros Hwf Hh H. rewrite handler_st, handler_loci. destruct (moved h e) as [[n c]|] eqn:M; [|exact H].
  apply sinv_change; [exact Hwf | | exact H]. eapply kind_comps; [exact Hh | eapply moved_target; exact M].
Qed.

Lemma nth_map_error {A B} (f : A -> B) l k d :
  nth k (map f l) d = match nth_error l k with Some x => f x | None => d end.
Proof. revert k. induction l as [|x l IH]; intros [|k]; cbn; try reflexivity. apply IH. Qed.

Lemma prog_of_kind k :
  prog_of tb k = match nth_error (cm_kinds cm) k with Some h => handler (cm_specs cm) 0 h | None => static [] end.
Proof.
  unfold prog_of, tb, mk_table. cbn [t_progs].
  replace (map (fun ev => handler (cm_specs cm) 0 (ce_kind ev)) (cm_events cm) ++
           map (handler (cm_specs cm) 0) (cm_extra cm) ++ [handler (cm_specs cm) 0 HObs])
    with (map (handler (cm_specs cm) 0) (cm_kinds cm)).
  - apply nth_map_error.
  - unfold cm_kinds. rewrite !map_app, map_map. reflexivity.
Qed.

Lemma prog_of_Forall (P : action -> Prop) k t e kl w :
  (forall h, nth_error (cm_kinds cm) k = Some h -> Forall P (snd (handler (cm_specs cm) 0 h t e kl w))) ->
  Forall P (snd (prog_of tb k t e kl w)).
Proof. intros H. rewrite prog_of_kind. destruct (nth_error (cm_kinds cm) k) as [h|]; [exact (H h eq_refl) | constructor]. Qed.

Lemma J_sched s s' : J s -> sched s s' -> J s'.
Proof. intros H Hs. unfold J. rewrite (sched_loci Hs), (sched_world Hs). exact H. Qed.

Lemma J_call s c : wf_loci (cm_specs cm) = true -> J s -> J (after tb c s).
Proof.
  intros Hwf H. pose proof (after_lw tb c s) as A. destruct (call_args c) as [[k t] e]. destruct A as [A1 A2].
  unfold J. rewrite A1, A2, prog_of_kind. destruct (nth_error (cm_kinds cm) k) as [h|] eqn:E; [|exact H].
  apply sinv_handler; [exact Hwf | eapply nth_error_In; exact E | exact H].
Qed.

(* the initial assignment names nodes of the network and compartments of the model, and covers every node *)
Definition init_ok : bool :=
  forallb (fun nc => zmem (fst nc) nodes && zmem (snd nc) (cm_comps cm)) init
  && forallb (fun v => zmem v (map fst init)) nodes.

Lemma setup_props tbl : forall ini s, (forall nc, In nc ini -> In (snd nc) (cm_comps cm)) ->
  let s' := fold_left (step tbl) (init_ops ini) s in
  st_nodes s' = st_nodes s /\ st_edges s' = st_edges s
  /\ (forall v c, getc s' v = Some c -> getc s v = Some c \/ In c (cm_comps cm))
  /\ (forall v, getc s v <> None \/ (In v (map fst ini) /\ getc_raises s v = false) -> getc s' v <> None).
Proof.
  induction ini as [|[n c] ini IH]; intros s Hc; cbn [init_ops map fold_left].
  - split; [reflexivity|]. split; [reflexivity|]. split; [intros v c H; left; exact H|].
    intros v [H|[[] _]]. exact H.
  - cbn [fst snd]. change (step tbl s (ChangeC n c)) with (fst (change_compartment tbl s n c)).
    set (s1 := fst (change_compartment tbl s n c)).
    destruct (IH s1 (fun nc H => Hc nc (or_intror H))) as (I1 & I2 & I3 & I4). fold (init_ops ini) in *.
    destruct (cc_frame tbl s n c) as [F1 F2]. fold s1 in F1, F2.
    assert (G : forall v, getc s1 v = if getc_raises s n then getc s v else if Z.eqb v n then Some c else getc s v)
      by (intro v; apply cc_getc).
    split; [congruence|]. split; [congruence|]. split.
    + intros v c' H. destruct (I3 v c' H) as [H1|H1]; [|right; exact H1]. rewrite G in H1.
      destruct (getc_raises s n); [left; exact H1|]. destruct (Z.eqb v n); [|left; exact H1].
      inversion H1; subst. right. apply (Hc (n, c')). left. reflexivity.
    + intros v H. apply I4. destruct H as [H|[[H|H] R]].
      * left. rewrite G. destruct (getc_raises s n); [exact H|]. destruct (Z.eqb v n); [discriminate | exact H].
      * cbn [fst] in H. subst v. left. rewrite G, R, Z.eqb_refl. discriminate.
      * right. split; [exact H|]. apply attr_present_step_change. exact R.
Qed.

(* the set-up actions of the model process (fixed recovery: the posted removal of every initially
   infected node); with the Monitor's repeating observation they are all there are (mk_table_setups) *)
Definition seed_actions : list action :=
  match cm_seed_post cm with
  | Some (c, T, k) => map (fun n => APostOn (EN n) T k) (nodes_in (Loci.setup (cm_specs cm) nodes edges init) c)
  | None => []
  end.

Lemma mk_table_setups (P : action -> Prop) : (forall delta k, P (APostRep 0%Q delta k)) -> (forall n T k, P (APostOn (EN n) T k)) ->
  forall p, In p (t_procs tb) -> Forall P (p_setup p).
Proof.
  intros Hm Hs. unfold tb, mk_table. cbn [t_procs].
  assert (M : Forall P seed_actions).
  { unfold seed_actions. destruct (cm_seed_post cm) as [[[c T] k]|]; [|constructor].
    apply Forall_forall. intros a Ha. apply in_map_iff in Ha. destruct Ha as [n [<- _]]. apply Hs. }
  destruct monitor as [delta|]; cbn [In]; intros p [<-|[<-|[]]] || intros p [<-|[]]; cbn [p_setup]; try exact M.
  constructor; [apply Hm | constructor].
Qed.

Lemma mk_table_post_only p : In p (t_procs tb) -> Forall post_only (p_setup p).
Proof. exact (mk_table_setups post_only (fun _ _ => I) (fun _ _ _ => I) p). Qed.

(* set-up runs no event function: the world is the table's initial one (nothing occupied, nothing hit) *)
Lemma setup_world rs ls ds : world (setup_state tb rs ls ds) = t_world tb.
Proof. exact (proj2 (setup_state_lw tb rs ls ds mk_table_post_only)). Qed.

Theorem J_setup rs ls ds : wf_loci (cm_specs cm) = true -> graph_okb nodes edges = true -> init_ok = true ->
  J (setup_state tb rs ls ds).
Proof.
  intros Hwf Hg Hi. unfold J.
  destruct (setup_state_lw tb rs ls ds mk_table_post_only) as [A B]. rewrite A, B.
  unfold init_ok in Hi. apply andb_true_iff in Hi. destruct Hi as [Hi1 Hi2]. rewrite forallb_forall in Hi1, Hi2.
  unfold tb, mk_table, init_loci. cbn [t_loci t_world cw_st].
  set (s0 := Loci.setup (cm_specs cm) nodes edges init).
  split.
  - (* inserting the members of a sorted list again yields it *)
    rewrite map_map. apply map_ext. intros l. cbn [snd].
    apply ssorted_ext; [apply fold_ins_ssorted; exact I | apply ksort_ssorted|]. intros x. rewrite fold_ins_In. cbn. tauto.
  - assert (V : forallb (fun nc => zmem (fst nc) nodes) init = true).
    { apply forallb_forall. intros nc H. specialize (Hi1 nc H). apply andb_true_iff in Hi1. exact (proj1 Hi1). }
    split.
    { apply (weak_history (cm_specs cm) nodes edges init [] Hwf Hg). rewrite app_nil_r. apply setup_valid. exact V. }
    destruct (setup_props (cm_specs cm) init (state0 (cm_specs cm) nodes edges)) as (P1 & P2 & P3 & P4).
    { intros nc H. specialize (Hi1 nc H). apply andb_true_iff in Hi1. apply zmem_In. exact (proj2 Hi1). }
    fold (Loci.setup (cm_specs cm) nodes edges init) in P1, P2, P3, P4. fold s0 in P1, P2, P3, P4.
    split; [exact P1|]. split; [exact P2|].
    intros v Hv.
    assert (N : getc s0 v <> None).
    { apply P4. right. split; [apply zmem_In, Hi2, Hv|].
      unfold getc_raises, has_node, state0. cbn [st_nodes st_attr]. rewrite (proj2 (zmem_In v nodes) Hv). reflexivity. }
    destruct (getc s0 v) as [c|] eqn:E; [|congruence]. exists c. split; [reflexivity|].
    destruct (P3 v c E) as [H|H]; [|exact H]. unfold getc, state0 in H. cbn [st_attr] in H. destruct (zmem v nodes); discriminate.
Qed.

Lemma J_at_call rs ls ds cs s s1 c : wf_loci (cm_specs cm) = true -> graph_okb nodes edges = true -> init_ok = true ->
  Steps tb (setup_state tb rs ls ds) cs s -> In (s1, c) cs -> J s1 /\ call_ok tb c s1.
Proof.
  intros Hwf Hg Hi. exact (Steps_inv_call tb J (fun s s' => @J_sched s s') (fun s c Hj _ => J_call s c Hwf Hj) _ cs s s1 c (J_setup rs ls ds Hwf Hg Hi)).
Qed.

End CI.

Arguments J_loci {cm nodes edges s}.
Arguments J_winv {cm nodes edges s}.
Arguments J_nodes {cm nodes edges s}.
Arguments J_edges {cm nodes edges s}.
Arguments J_comp {cm nodes edges s} v.
Arguments J_edge_nodes {cm nodes edges s a b}.
Arguments J_locus {cm nodes edges s li}.
Arguments setup_world {cm nodes edges init maxtime monitor}.
Arguments J_at_call {cm nodes edges init maxtime monitor}.
