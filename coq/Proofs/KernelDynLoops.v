(* The two loops of Model/KernelDyn.v.  Each is cut into the pieces the invariants are proved against:
   the tranche and its firing ([dfire_tranche_inv]), one Gillespie iteration as selection + firing
   ([dstoch_loop_S], [dstoch_fire_call]), and an induction principle per loop over an invariant of
   the loop head ([dstoch_loop_inv], [dsync_loop_inv]).  With them: which programs, on which
   elements, are ever queued, every run as a [DSteps] sequence, and the membership record of every
   event function entered from the scheduler ([member_rec]). *)
From Coq Require Import List ZArith QArith Qabs Bool Arith Lia.
From EpyV Require Import Lib.Dist Model.Kernel Model.KernelDyn Proofs.KernelBase Proofs.KernelLoops
  Proofs.GillespieSelect Proofs.KernelMember Proofs.KernelSync Proofs.CompartSort Proofs.KernelDyn.
Import ListNotations.
Open Scope Q_scope.

Section DL.
Context {W : Type}.
Variable D : dtable W.
Notation tb := (d_tb D).
Implicit Types s : st W.

Definition Xpos (x : trans W) : Prop := 0 < trans_p x.

(* what is known of a selected pair, relative to the loci lc and user state w the distribution was computed from *)
Definition dsel_ok (lc : list (list elem)) (w : W) (xe : trans W * elem) : Prop :=
  0 < trans_p (fst xe) /\
  match fst xe with
  | TStat y => In y (all_events tb) /\ In (snd xe) (nth (ev_locus (snd y)) lc [])
  | TDyn pi d => In d (d_dyn D pi lc w) /\ snd xe = de_value d
  end.


(* the part of the per-element half that deals with one entry of the distribution: a registered event
   as in the static tranche, an appended entry by one trial if its membership test holds now *)
Definition dtrial (x : trans W) s : list (trans W * elem) * st W :=
  match x with
  | TStat y => let '(sel, s1) := KernelRelabel.elem_trials y s in (map lift_sel sel, s1)
  | TDyn pi d =>
      if de_member d (loci s) (world s) && Qltb 0 (de_p d) then
        let '(r, s1) := next_rand s in (if Qle_bool r (de_p d) then [(x, de_value d)] else [], s1)
      else ([], s)
  end.

Lemma dtranche_elem_cons x evs s :
  dtranche_elem (x :: evs) s = let '(sel, s1) := dtrial x s in let '(sel', s2) := dtranche_elem evs s1 in (sel ++ sel', s2).
Proof.
  destruct x as [y|pi d]; [|reflexivity]. cbn [dtranche_elem dtrial]. unfold KernelRelabel.elem_trials.
  destruct (locus s _); [reflexivity|]. destruct (Qltb _ _); reflexivity.
Qed.

Lemma dtrial_spec x s :
  osame s (snd (dtrial x s)) /\
  forall xe, In xe (fst (dtrial x s)) -> fst xe = x /\ 0 < trans_p x /\
    match x with TStat y => In (snd xe) (locus s (ev_locus (snd y))) | TDyn _ d => snd xe = de_value d end.
Proof.
  destruct x as [y|pi d]; cbn [dtrial trans_p].
  - pose proof (elem_trials_osame y s) as Ho. rewrite elem_trials_block, trials_spec in *. cbn [fst snd] in *.
    split; [exact Ho|]. intros xe Hxe. apply in_map_iff in Hxe. destruct Hxe as [ye [<- Hye]].
    apply spec_trials_In in Hye. destruct Hye as [<- E2]. apply block_In in E2. destruct E2 as [A E2].
    apply active_true in A. split; [reflexivity|]. split; [exact (proj2 A) | exact E2].
  - destruct (de_member d (loci s) (world s) && Qltb 0 (de_p d)) eqn:Hp; [|split; [apply osame_refl | intros xe []]].
    apply andb_prop, proj2 in Hp. pose proof (next_rand_osame s) as Ho. destruct (next_rand s) as [r s1]. cbn [fst snd] in *.
    split; [exact Ho|]. intros xe Hxe. destruct (Qle_bool r (de_p d)); [|destruct Hxe].
    destruct Hxe as [<-|[]]. split; [reflexivity|]. split; [apply Qltb_true; exact Hp | reflexivity].
Qed.

Lemma dtranche_elem_spec : forall evs s,
  osame s (snd (dtranche_elem evs s)) /\
  forall xe, In xe (fst (dtranche_elem evs s)) ->
    In (fst xe) evs /\ 0 < trans_p (fst xe) /\
    match fst xe with
    | TStat y => In (snd xe) (locus s (ev_locus (snd y)))
    | TDyn _ d => snd xe = de_value d
    end.
Proof.
  induction evs as [|x evs IH]; intros s; [split; [apply osame_refl | intros xe []]|].
  rewrite dtranche_elem_cons. destruct (dtrial_spec x s) as [Ho Hsel]. destruct (dtrial x s) as [sel s1].
  destruct (IH s1) as [Ho' Hsel']. destruct (dtranche_elem evs s1) as [sel' s2]. cbn [fst snd] in *.
  split; [eapply osame_trans; eassumption|]. unfold locus in *. rewrite (osame_loci _ _ Ho) in Hsel'.
  intros xe Hxe. apply in_app_or in Hxe. destruct Hxe as [Hxe|Hxe].
  - destruct (Hsel xe Hxe) as (<- & PM). split; [left; reflexivity | exact PM].
  - destruct (Hsel' xe Hxe) as (E & PM). split; [right; exact E | exact PM].
Qed.

Lemma dtranche_spec s :
  osame s (snd (dtranche D s)) /\ Forall (dsel_ok (loci s) (world s)) (fst (dtranche D s)).
Proof.
  unfold dtranche.
  destruct (dtranche_elem_spec (dper_element D (loci s) (world s)) s) as [Ho Hsel].
  destruct (dtranche_elem (dper_element D (loci s) (world s)) s) as [a s1]. cbn [fst snd] in *.
  pose proof (tranche_fixed_osame (fixed_rate tb) s1) as Ho'. rewrite tranche_fixed_spec, (osame_loci _ _ Ho) in *. cbn [fst snd] in *.
  split; [eapply osame_trans; eassumption|].
  apply Forall_forall. intros xe Hxe. apply in_app_or in Hxe. destruct Hxe as [Hxe|Hxe].
  - destruct (Hsel xe Hxe) as (E & P & M). split; [exact P|].
    apply dper_element_In in E. destruct (fst xe) as [y|pi d].
    + split; [exact (proj1 E) | exact M].
    + split; [exact E | exact M].
  - apply in_map_iff in Hxe. destruct Hxe as [ye [<- Hye]].
    apply spec_fixed_In in Hye. destruct Hye as (G1 & G2 & G3). apply active_true in G2.
    unfold lift_sel, dsel_ok. cbn [fst snd trans_p]. split; [exact (proj2 G2)|].
    split; [apply fixed_rate_In; exact G1|]. exact G3.
Qed.

Definition sel_member (xe : trans W * elem) s : bool :=
  match fst xe with
  | TStat y => mem (snd xe) (locus s (ev_locus (snd y)))
  | TDyn _ d => de_member d (loci s) (world s)
  end.
Definition sel_call (t : Q) (xe : trans W * elem) : dcall :=
  match fst xe with TStat y => DEv y t (snd xe) | TDyn pi d => DDyn pi d t end.

(* the loop over the tranche re-checks membership when a pair's turn comes: a pair that fails is
   skipped (no call, no record, no count, state untouched), one that passes is called *)
Lemma dfire_tranche_cons t xe evs nev s :
  dfire_tranche D t (xe :: evs) nev s =
  if sel_member xe s then dfire_tranche D t evs (S nev) (dafter D (sel_call t xe) s) else dfire_tranche D t evs nev s.
Proof. destruct xe as [[y|pi d] e]; reflexivity. Qed.

Lemma sel_call_nonposted t xe h : sel_call t xe <> DPost h.
Proof. unfold sel_call. destruct (fst xe); discriminate. Qed.

Lemma sel_call_ok lc w t xe s : dsel_ok lc w xe -> sel_member xe s = true -> clock s = t ->
  dcall_ok D Xpos (sel_call t xe) s.
Proof.
  unfold dsel_ok, sel_member, sel_call, Xpos. intros [Hp Hx] Hm Hc. destruct (fst xe) as [y|pi d].
  - split; [exact (proj1 Hx)|]. split; [exact Hm|]. split; [exact Hc | exact Hp].
  - split; [exists lc, w; exact (proj1 Hx)|]. split; [exact Hm|]. split; [exact Hc | exact Hp].
Qed.

Lemma dfire_tranche_inv (J : nat -> st W -> Prop) t : forall evs,
  (forall xe nev s, In xe evs -> sel_member xe s = true -> clock s = t -> J nev s -> J (S nev) (dafter D (sel_call t xe) s)) ->
  forall nev s, clock s = t -> J nev s ->
  J (fst (dfire_tranche D t evs nev s)) (snd (dfire_tranche D t evs nev s)) /\ clock (snd (dfire_tranche D t evs nev s)) = t.
Proof.
  induction evs as [|xe evs IH]; intros Hstep nev s Hc Hj; [split; assumption|].
  rewrite dfire_tranche_cons. pose proof (fun x n s1 H => Hstep x n s1 (or_intror H)) as Hstep'.
  destruct (sel_member xe s) eqn:Em; [|exact (IH Hstep' nev s Hc Hj)].
  apply (IH Hstep'); [|exact (Hstep xe nev s (or_introl eq_refl) Em Hc Hj)].
  destruct (dafter_frame D (sel_call t xe) s (sel_call_nonposted t xe)) as [-> _]. exact Hc.
Qed.

(* records of the tranche of timestep t: every event function entered passed its membership test *)
Definition dtranche_rec (t : Q) (o : obs) : Prop :=
  match o with
  | OHandler _ targ clk _ m => m = Some true /\ targ = t /\ clk = t
  | OTap t1 _ n _ => t1 = t /\ exists pi j, n = NEv pi j
  | _ => True
  end.

Lemma act_dtranche t o : act_obs o -> dtranche_rec t o.
Proof. destruct o; cbn; tauto. Qed.

Definition dstoch_select (s : st W) : option (trans W * Q * st W) :=
  let trs := dtransitions D (loci s) (world s) in
  let a := dsum_rates s trs in
  let '(_, s1) := next_rand s in
  let '(ln, s2) := next_ln s1 in
  let dt := Qred ((1 / a) * ln) in
  match trs with
  | [] => None
  | x0 :: rest =>
      let '(x, s3) := match rest with
                      | [] => (x0, s2)
                      | _ => let '(r2, s3) := next_rand s2 in (select (drate s) (r2 * a) 0 x0 trs, s3)
                      end in
      Some (x, dt, s3)
  end.

(* firing, after the posted events ran and the clock was set: a registered event reads its live
   locus now (Model/Kernel.v); an appended entry is tested now (`len(l) > 0`): if its membership
   test holds it is called on its stored value (no rank consumed), otherwise nothing happens *)
Definition dstoch_fire (x : trans W) (nt : Q) (ev : nat) (s5 : st W) : nat * st W :=
  match x with
  | TStat y => stoch_fire tb y nt ev s5
  | TDyn pi d => if de_member d (loci s5) (world s5) then (S ev, fire_dyn D pi d nt s5) else (ev, s5)
  end.

Lemma dstoch_loop_S : forall pf f t events s,
  dstoch_loop D pf (S f) t events s =
  if at_equil tb t s then (t, events, s)
  else if Qeq_bool (dsum_rates s (dtransitions D (loci s) (world s))) 0 then
    match next_pending_time s with
    | (None, s') => (t, events, s')
    | (Some et, s') => let '(n, s'') := run_pending tb pf et 0 s' in dstoch_loop D pf f et (events + n) s''
    end
  else
    match dstoch_select s with
    | None => (t, events, set_stuck s)
    | Some (x, dt, s3) =>
        let nt := Qred (t + dt) in
        let '(n, s4) := run_pending tb pf nt 0 s3 in
        let '(ev', s6) := dstoch_fire x nt (events + n) (set_clock nt s4) in
        dstoch_loop D pf f nt ev' s6
    end.
Proof.
  intros pf f t events s. cbn [dstoch_loop]. unfold dstoch_select, dstoch_fire, stoch_fire, at_equil.
  destruct (Qle_bool (t_maxtime tb) t || t_equil tb (loci s) (world s)); [reflexivity|].
  destruct (Qeq_bool (dsum_rates s (dtransitions D (loci s) (world s))) 0); [reflexivity|].
  cbv zeta.
  destruct (next_rand s) as [r1 s1]. destruct (next_ln s1) as [ln s2].
  destruct (dtransitions D (loci s) (world s)) as [|x0 rest]; [reflexivity|].
  destruct (match rest with [] => _ | _ :: _ => _ end) as [x s3].
  destruct (run_pending tb pf _ 0 s3) as [n s4]. destruct x as [y|pi d]; [|destruct (de_member d _ _); reflexivity].
  destruct (locus (set_clock _ s4) _); [reflexivity|]. destruct (next_draw _) as [k s6]. reflexivity.
Qed.

Lemma dsum_rates_sumf s trs : dsum_rates s trs == sumf (drate s) trs.
Proof. unfold dsum_rates. rewrite fold_sumf, Qplus_0_l. reflexivity. Qed.

(* selection reads r1, ln(1/r1) and, with more than one entry, r2; nothing else moves *)
Lemma dstoch_select_eq s :
  dstoch_select s =
  let trs := dtransitions D (loci s) (world s) in
  let dt := Qred ((1 / dsum_rates s trs) * hd 0 (lns s)) in
  match trs with
  | [] => None
  | [x0] => Some (x0, dt, advance 1 1 0 s)
  | x0 :: _ => Some (select (drate s) (hd 0 (rands (advance 1 1 0 s)) * dsum_rates s trs) 0 x0 trs, dt, advance 2 1 0 s)
  end.
Proof.
  unfold dstoch_select. rewrite next_rand_adv, next_ln_adv, advance_advance. cbn [Nat.add]. cbv zeta.
  destruct (dtransitions D (loci s) (world s)) as [|x0 [|x1 rest]]; [reflexivity | reflexivity|].
  rewrite next_rand_adv, advance_advance. reflexivity.
Qed.

(* with no hypothesis at all: an entry of the distribution computed from the state at the start
   of the iteration is chosen, the holding time is ln(1/r1) / a, and only the oracle moves *)
Lemma dstoch_select_shape s x dt s3 : dstoch_select s = Some (x, dt, s3) ->
  In x (dtransitions D (loci s) (world s))
  /\ dt = Qred ((1 / dsum_rates s (dtransitions D (loci s) (world s))) * hd 0 (lns s))
  /\ exists nr, s3 = advance nr 1 0 s.
Proof.
  rewrite dstoch_select_eq. cbv zeta. destruct (dtransitions D (loci s) (world s)) as [|x0 [|x1 rest]]; [discriminate| |].
  - intros [= <- <- <-]. split; [left; reflexivity|]. split; [reflexivity | exists 1%nat; reflexivity].
  - set (sel := select _ _ _ _ _). assert (Hs : In sel (x0 :: x1 :: rest)) by (apply select_In'; left; reflexivity).
    clearbody sel. intros [= <- <- <-]. split; [exact Hs|]. split; [reflexivity | exists 2%nat; reflexivity].
Qed.

Definition dnonneg (lc : list (list elem)) (w : W) : Prop := forall x, In x (dtransitions D lc w) -> 0 <= trans_p x.

Lemma drate_nonneg s x : 0 <= trans_p x -> 0 <= drate s x.
Proof.
  destruct x as [y|pi d]; cbn [trans_p drate]; [apply rate_nonneg|].
  destruct (de_member d (loci s) (world s)); [tauto | intros _; apply Qle_refl].
Qed.

Lemma drate_pos s x : 0 < drate s x -> 0 < trans_p x.
Proof.
  destruct x as [y|pi d]; cbn [trans_p drate]; [apply rate_pos|].
  destruct (de_member d (loci s) (world s)); [tauto | intros H; exfalso; exact (Qlt_irrefl 0 H)].
Qed.

Lemma drate_pos_member s pi d : 0 < drate s (TDyn pi d) -> de_member d (loci s) (world s) = true.
Proof. cbn [drate]. destruct (de_member d (loci s) (world s)); [reflexivity | intros H; exfalso; exact (Qlt_irrefl 0 H)]. Qed.

Lemma dsum_rates_pos s : dnonneg (loci s) (world s) ->
  Qeq_bool (dsum_rates s (dtransitions D (loci s) (world s))) 0 = false -> 0 < dsum_rates s (dtransitions D (loci s) (world s)).
Proof.
  intros Hnn Ha. rewrite dsum_rates_sumf.
  destruct (proj1 (Qle_lteq _ _) (sumf_nonneg _ (drate s) _ (fun y Hy => drate_nonneg s y (Hnn y Hy)))) as [Hlt|Heq]; [exact Hlt|].
  exfalso. rewrite <- dsum_rates_sumf in Heq. symmetry in Heq. apply Qeq_bool_iff in Heq. congruence.
Qed.

(* the entry chosen has a positive rate, hence a positive probability: zero-probability entries are never selected *)
Lemma dstoch_select_pos s x dt s3 : dnonneg (loci s) (world s) -> Forall unit_rand (rands s) ->
  Qeq_bool (dsum_rates s (dtransitions D (loci s) (world s))) 0 = false ->
  dstoch_select s = Some (x, dt, s3) -> 0 < drate s x /\ 0 < trans_p x.
Proof.
  intros Hnn Hr Ha. pose proof (dsum_rates_pos s Hnn Ha) as Hapos. rewrite dstoch_select_eq. cbv zeta.
  assert (Hsum := dsum_rates_sumf s (dtransitions D (loci s) (world s))).
  destruct (dtransitions D (loci s) (world s)) as [|x0 [|x1 rest]]; [discriminate| |]; intros [= <- _ _].
  - assert (Hx : 0 < drate s x0) by (cbn [sumf] in Hsum; rewrite Qplus_0_r in Hsum; rewrite <- Hsum; exact Hapos).
    split; [exact Hx | exact (drate_pos s x0 Hx)].
  - set (a := dsum_rates s (x0 :: x1 :: rest)) in *.
    assert (Hr2 : unit_rand (hd 0 (rands (advance 1 1 0 s)))).
    { cbn [advance rands]. destruct (rands s) as [|r1 [|r2 rs]]; cbn [skipn hd].
      - split; [apply Qle_refl | reflexivity].
      - split; [apply Qle_refl | reflexivity].
      - inversion Hr as [|? ? _ Hr']; inversion Hr' as [|? ? Hr2 _]; exact Hr2. }
    destruct Hr2 as [Hlo Hhi]. set (r2 := hd 0 (rands (advance 1 1 0 s))) in *.
    destruct (select_pos _ (drate s) (r2 * a) (x0 :: x1 :: rest) x0) as [Hin Hp].
    + apply Qmult_le_0_compat; [exact Hlo | apply Qlt_le_weak; exact Hapos].
    + rewrite <- Hsum. fold a. setoid_replace a with (1 * a) at 2 by ring.
      apply Qmult_lt_compat_r; assumption.
    + split; [exact Hp | exact (drate_pos s _ Hp)].
Qed.

(* firing a selected entry x of a distribution: nothing happens (empty locus, stale entry), or - after
   a rank is read for a registered event - one call for time nt that passes its membership test at that instant *)
Lemma dstoch_fire_call (Xtr : trans W -> Prop) lc w x nt ev s5 : In x (dtransitions D lc w) -> Xtr x -> clock s5 = nt ->
  dstoch_fire x nt ev s5 = (ev, s5) \/
  exists k c, dcall_ok D Xtr c (advance 0 0 k s5) /\ (forall h, c <> DPost h) /\ snd (fst (dcall_args c)) = nt
    /\ dstoch_fire x nt ev s5 = (S ev, dafter D c (advance 0 0 k s5)).
Proof.
  intros Hx HX Hc. apply dtransitions_In in Hx. destruct x as [y|pi d]; cbn [dstoch_fire].
  - destruct (locus s5 (ev_locus (snd y))) as [|e0 l0] eqn:El; [left; exact (stoch_fire_empty tb y nt ev s5 El)|].
    destruct (stoch_fire_member tb y nt ev s5) as [e [He Ef]]; [rewrite El; discriminate|].
    right. exists 1%nat, (DEv y nt e). split; [|split; [intros h; discriminate | split; [reflexivity | exact Ef]]].
    split; [exact Hx|]. split; [apply mem_In; exact He|]. split; [exact Hc | exact HX].
  - destruct (de_member d (loci s5) (world s5)) eqn:Em; [right | left; reflexivity].
    exists 0%nat, (DDyn pi d nt). rewrite advance_0. split; [|split; [intros h; discriminate | split; reflexivity]].
    split; [exists lc, w; exact Hx|]. split; [exact Em|]. split; [exact Hc | exact HX].
Qed.

Definition dsync_step (pf : nat) (t : Q) (s : st W) : nat * st W :=
  let s0 := set_clock t s in
  let '(n, s1) := run_pending tb pf t 0 s0 in
  let s1' := set_clock t s1 in
  let '(evs, s2) := dtranche D s1' in
  dfire_tranche D t evs n s2.

Lemma dsync_loop_S : forall pf f t events steps s,
  dsync_loop D pf (S f) t events steps s =
  if at_equil tb t s then (t, events, steps, s)
  else let '(nev, s3) := dsync_step pf t s in
       dsync_loop D pf f (Qred (t + 1)) (events + nev) (if (0 <? nev)%nat then S steps else steps) s3.
Proof.
  intros pf f t events steps s. cbn [dsync_loop]. unfold at_equil, dsync_step.
  destruct (Qle_bool (t_maxtime tb) t || t_equil tb (loci s) (world s)); [reflexivity|].
  cbv zeta. destruct (run_pending tb pf t 0 (set_clock t s)) as [n s1].
  destruct (dtranche D (set_clock t s1)) as [evs s2].
  destruct (dfire_tranche D t evs n s2) as [nev s3]. reflexivity.
Qed.

(* Head: an invariant of the loop head (loop time, state) *)
Section LoopInv.
Variable pf : nat.
Variable Head : Q -> st W -> Prop.
Hypothesis Head_stuck : forall t s, Head t s -> Head t (set_stuck s).

Lemma dstoch_loop_inv :
  (forall t s, Head t s -> Qeq_bool (dsum_rates s (dtransitions D (loci s) (world s))) 0 = true ->
     match head (queue (discard s)) with
     | None => Head t (discard s)
     | Some h => Head (e_time h) (snd (run_pending tb pf (e_time h) 0 (discard s)))
     end) ->
  (forall t s x dt s3 ev, Head t s -> Qeq_bool (dsum_rates s (dtransitions D (loci s) (world s))) 0 = false ->
     dstoch_select s = Some (x, dt, s3) ->
     Head (Qred (t + dt)) (snd (dstoch_fire x (Qred (t + dt)) ev (set_clock (Qred (t + dt)) (snd (run_pending tb pf (Qred (t + dt)) 0 s3)))))) ->
  forall fuel t ev s t' ev' s', dstoch_loop D pf fuel t ev s = (t', ev', s') -> Head t s -> Head t' s'.
Proof.
  intros Hidle Hev. induction fuel as [|f IH]; intros t ev s t' ev' s' E Hi.
  - cbn [dstoch_loop] in E. inversion E; subst. apply Head_stuck, Hi.
  - rewrite dstoch_loop_S in E. destruct (at_equil tb t s); [inversion E; subst; exact Hi|].
    destruct (Qeq_bool (dsum_rates s (dtransitions D (loci s) (world s))) 0) eqn:Ha.
    + specialize (Hidle t s Hi Ha). unfold next_pending_time in E.
      destruct (head (queue (discard s))) as [h|]; cbn [option_map] in E; [|inversion E; subst; exact Hidle].
      destruct (run_pending tb pf (e_time h) 0 (discard s)) as [n s'']. exact (IH _ _ _ _ _ _ E Hidle).
    + destruct (dstoch_select s) as [[[x dt] s3]|] eqn:Es; [|inversion E; subst; apply Head_stuck, Hi].
      cbv zeta in E. destruct (run_pending tb pf (Qred (t + dt)) 0 s3) as [n s4] eqn:Ep.
      specialize (Hev t s x dt s3 (ev + n)%nat Hi Ha Es). rewrite Ep in Hev. cbn [snd] in Hev.
      destruct (dstoch_fire x (Qred (t + dt)) (ev + n) (set_clock (Qred (t + dt)) s4)) as [ev1 s6]. exact (IH _ _ _ _ _ _ E Hev).
Qed.

Lemma dsync_loop_inv :
  (forall t s, Head t s -> Head (Qred (t + 1)) (snd (dsync_step pf t s))) ->
  forall fuel t ev k s t' ev' k' s', dsync_loop D pf fuel t ev k s = (t', ev', k', s') -> Head t s -> Head t' s'.
Proof.
  intros Hstep. induction fuel as [|f IH]; intros t ev k s t' ev' k' s' E Hi.
  - cbn [dsync_loop] in E. inversion E; subst. apply Head_stuck, Hi.
  - rewrite dsync_loop_S in E. destruct (at_equil tb t s); [inversion E; subst; exact Hi|].
    specialize (Hstep t s Hi). destruct (dsync_step pf t s) as [nev s3]. exact (IH _ _ _ _ _ _ _ _ E Hstep).
Qed.

End LoopInv.

Section Queue.
Variable P : nat -> elem -> Prop.
Definition queued s : Prop := Forall (fun x => P (e_prog x) (e_elem x)) (queue s).

(* an action run by an event function entered on element e *)
Definition posts_okE (e : elem) (a : action) : Prop :=
  match a with
  | APost _ k | APostRep _ _ k => P k e
  | APostOn x _ k => P k x
  | _ => True
  end.

Lemma queued_incl s s' : incl (queue s') (queue s) -> queued s -> queued s'.
Proof. unfold queued. intros Hi H. rewrite Forall_forall in *. intros x Hx. apply H, Hi, Hx. Qed.

Lemma do_action_queued p t e a s : posts_okE e a -> queued s -> queued (do_action p t e a s).
Proof.
  unfold queued. intros Ha Hq. destruct a; cbn [do_action posts_okE] in *; unfold post.
  - destruct (Qltb _ _); cbn [queue emit push_id]; [exact Hq | constructor; [exact Ha | exact Hq]].
  - destruct (Qltb _ _); cbn [queue emit push_id]; [exact Hq | constructor; [exact Ha | exact Hq]].
  - destruct (Qltb _ _); cbn [queue emit push_id]; [exact Hq | constructor; [exact Ha | exact Hq]].
  - rewrite Qred_pred_lt. exact Hq.
  - destruct (ids s); [exact Hq|]. destruct (find_live _ _); cbn [queue emit set_queue]; [|exact Hq].
    unfold kill. apply Forall_map. eapply Forall_impl; [|exact Hq]. intros x Hx. destruct (e_id x =? _)%nat; exact Hx.
  - destruct (ids s); exact Hq.
  - exact Hq.
  - exact Hq.
  - exact Hq.
  - exact Hq.
  - exact Hq.
Qed.

Lemma run_actions_queued p t e acts s : Forall (posts_okE e) acts -> queued s -> queued (run_actions p t e acts s).
Proof.
  unfold run_actions. revert s. induction acts as [|a acts IH]; intros s Ha Hq; cbn [fold_left]; [exact Hq|].
  inversion Ha; subst. apply IH; [assumption|]. apply do_action_queued; assumption.
Qed.

Hypothesis Hprogs : forall k t e lc w, Forall (posts_okE e) (snd (prog_of tb k t e lc w)).

Lemma run_prog_queued p k t e s : queued s -> queued (run_prog tb p k t e s).
Proof.
  intros Hq. unfold run_prog. pose proof (Hprogs k t e (loci s) (world s)) as Hp.
  destruct (prog_of tb k t e (loci s) (world s)) as [w acts]. cbn [snd] in Hp.
  apply run_actions_queued; [exact Hp | exact Hq].
Qed.

Lemma dafter_queued Xtr c s : dcall_ok D Xtr c s -> queued s -> queued (dafter D c s).
Proof.
  intros Hok Hq. destruct c as [[[pi j] ev] t e|pi d t|h]; cbn [dafter].
  - unfold fire_event, queued. cbn [queue emit]. apply run_prog_queued. exact Hq.
  - unfold fire_dyn, queued. cbn [queue emit]. apply run_prog_queued. exact Hq.
  - destruct Hok as [Hh _]. apply head_in in Hh. unfold pend_step, fire, queued in *. cbn [queue emit].
    set (s1 := emit _ (set_clock _ (set_queue _ s))).
    assert (H2 : queued (run_prog tb (e_proc h) (e_prog h) (e_time h) (e_elem h) s1)).
    { apply run_prog_queued. apply (queued_incl s); [apply remove_id_incl | exact Hq]. }
    destruct (e_rep h) as [ddt|]; [|exact H2]. unfold post.
    destruct (Qltb _ _); cbn [queue emit]; [exact H2|]. constructor; [|exact H2].
    rewrite Forall_forall in Hq. exact (Hq h Hh).
Qed.

Hypothesis Hsetup : forall p, In p (t_procs tb) -> Forall (posts_okE (EN 0)) (p_setup p).

Lemma setup_queued rs ls ds : queued (setup_state tb rs ls ds).
Proof.
  unfold setup_state.
  set (s0 := {| clock := 0; nextid := 0; queue := []; loci := init_loci tb; world := t_world tb; ids := []; out := [];
                rands := rs; lns := ls; draws := ds; stuck := false |}).
  assert (H0 : queued s0) by constructor.
  generalize 0%nat. revert H0 Hsetup. generalize s0. clear s0.
  induction (t_procs tb) as [|p ps IH]; intros s0 H0 Hs n; cbn [fold_left fst snd]; [exact H0|].
  apply IH; [|intros q Hq; apply Hs; right; exact Hq].
  apply run_actions_queued; [apply Hs; left; reflexivity | exact H0].
Qed.

End Queue.

(* the case of a class of programs, whatever the element: [qinv] unfolds to [queued] and [posts_ok] to
   [posts_okE] at a predicate that ignores the element, so the lemmas above apply as they stand *)
Section QueueProg.
Variable Qp : nat -> Prop.

Definition posts_ok (a : action) : Prop :=
  match a with APost _ k | APostOn _ _ k | APostRep _ _ k => Qp k | _ => True end.

Definition qinv s : Prop := Forall (fun x => Qp (e_prog x)) (queue s).

Hypothesis Hprogs : forall k t e lc w, Forall posts_ok (snd (prog_of tb k t e lc w)).

Lemma dafter_qinv Xtr c s : dcall_ok D Xtr c s -> qinv s -> qinv (dafter D c s).
Proof. exact (dafter_queued (fun k _ => Qp k) Hprogs Xtr c s). Qed.

Lemma setup_qinv : (forall p, In p (t_procs tb) -> Forall posts_ok (p_setup p)) -> forall rs ls ds, qinv (setup_state tb rs ls ds).
Proof. exact (setup_queued (fun k _ => Qp k)). Qed.

(* posted programs of the class change neither the loci nor the user state *)
Hypothesis Hinert : forall k, Qp k -> forall t e lc w,
  fst (prog_of tb k t e lc w) = w /\ fold_left (act_loci e) (snd (prog_of tb k t e lc w)) lc = lc.

Lemma run_pending_inert : forall fuel t n s, qinv s ->
  let s' := snd (run_pending tb fuel t n s) in
  qinv s' /\ loci s' = loci s /\ world s' = world s.
Proof using Hprogs Hinert.
  intros fuel t n s Hq. cbv zeta.
  apply (drun_pending_inv D (fun _ => True) (fun s' => qinv s' /\ loci s' = loci s /\ world s' = world s)).
  - intros s1 s2 (Q1 & L1 & W1) Hs. split; [exact (queued_incl (fun k _ => Qp k) s1 s2 (dsched_queue Hs) Q1)|].
    rewrite (dsched_loci Hs), (dsched_world Hs). split; assumption.
  - intros s1 h (Q1 & L1 & W1) Hok. split; [exact (dafter_qinv _ _ s1 Hok Q1)|].
    assert (Hp : Qp (e_prog h)) by (unfold qinv in Q1; rewrite Forall_forall in Q1; exact (Q1 h (dcall_ok_queued Hok))).
    pose proof (dafter_lw D (DPost h) s1) as A. cbn [dcall_args] in A. destruct A as [A1 A2].
    destruct (Hinert _ Hp (e_time h) (e_elem h) (loci s1) (world s1)) as [I1 I2].
    rewrite A1, A2, I1, I2. split; assumption.
  - split; [exact Hq | split; reflexivity].
Qed.

End QueueProg.

Lemma run_pending_reach Xtr s0 fuel t n s :
  (exists cs, DSteps D Xtr s0 cs s) -> exists cs, DSteps D Xtr s0 cs (snd (run_pending tb fuel t n s)).
Proof. exact (drun_pending_inv D Xtr _ (dreach_sched D Xtr s0) (fun s1 h => dreach_call D Xtr s0 s1 (DPost h)) fuel t n s). Qed.

Section StochGen.
(* IR: an invariant of the stream of uniform variates; Xtr: the fact established at each selection *)
Variable IR : list Q -> Prop.
Variable Xtr : trans W -> Prop.
Hypothesis IR_skipn : forall n l, IR l -> IR (skipn n l).
Hypothesis Hsel : forall s x dt s3, IR (rands s) ->
  Qeq_bool (dsum_rates s (dtransitions D (loci s) (world s))) 0 = false ->
  dstoch_select s = Some (x, dt, s3) -> Xtr x.

Lemma dstoch_loop_dsteps pf fuel t ev s t' ev' s' s0 : dstoch_loop D pf fuel t ev s = (t', ev', s') ->
  (IR (rands s) /\ exists cs, DSteps D Xtr s0 cs s) -> IR (rands s') /\ exists cs, DSteps D Xtr s0 cs s'.
Proof.
  apply (dstoch_loop_inv pf (fun _ s1 => IR (rands s1) /\ exists cs, DSteps D Xtr s0 cs s1)).
  - intros _ s1 [Hr H]. split; [exact Hr | exact (dreach_sched D Xtr s0 _ _ H (dsched_set_stuck s1))].
  - intros _ s1 [Hr H] _. pose proof (dreach_sched D Xtr s0 _ _ H (dsched_discard s1)) as Hd.
    destruct (head (queue (discard s1))) as [h|]; [|split; assumption].
    destruct (run_pending_spec tb pf (e_time h) 0%nat (discard s1)) as [[O1 _] _].
    split; [rewrite O1; exact Hr | apply run_pending_reach; exact Hd].
  - intros t1 s1 x dt s3 ev1 [Hr H] Ha Es. pose proof (Hsel s1 x dt s3 Hr Ha Es) as HX.
    destruct (dstoch_select_shape s1 x dt s3 Es) as (Hx & _ & nr & ->).
    set (nt := Qred (t1 + dt)).
    destruct (run_pending_spec tb pf nt 0%nat (advance nr 1 0 s1)) as [[O1 _] _].
    set (s5 := set_clock nt (snd (run_pending tb pf nt 0 (advance nr 1 0 s1)))).
    assert (Hr5 : IR (rands s5)) by (change (rands s5) with (rands (snd (run_pending tb pf nt 0 (advance nr 1 0 s1)))); rewrite O1; apply IR_skipn, Hr).
    assert (H5 : exists cs, DSteps D Xtr s0 cs s5).
    { apply (dreach_sched D Xtr s0 _ _ (run_pending_reach Xtr s0 pf nt 0 _ (dreach_sched D Xtr s0 _ _ H (dsched_advance nr 1 0 s1)))).
      apply dsched_set_clock. }
    destruct (dstoch_fire_call Xtr _ _ x nt ev1 s5 Hx HX eq_refl) as [->|(k & c & Hok & Hnp & _ & ->)]; [split; assumption|].
    cbn [snd]. split.
    + destruct (dafter_frame D c (advance 0 0 k s5) Hnp) as (_ & -> & _). exact Hr5.
    + exact (dreach_call D Xtr s0 _ c (dreach_sched D Xtr s0 _ _ H5 (dsched_advance 0 0 k s5)) Hok).
Qed.

Theorem dstoch_run_dsteps pf fuel rs ls ds : IR rs ->
  exists cs, DSteps D Xtr (setup_state tb rs ls ds) cs (r_final (dstoch_run D pf fuel rs ls ds)).
Proof.
  intros Hr. unfold dstoch_run.
  destruct (dstoch_loop D pf fuel 0 0 (setup_state tb rs ls ds)) as [[t ev] s] eqn:E. cbn [r_final].
  refine (proj2 (dstoch_loop_dsteps _ _ _ _ _ _ _ _ _ E (conj _ (ex_intro _ [] (dst_refl D Xtr _))))).
  rewrite (proj2 (setup_state_out tb rs ls ds)). exact Hr.
Qed.

End StochGen.

(* when nothing is asked of the transitions selected, nothing is asked of the oracle *)
Corollary dstoch_run_reach pf fuel rs ls ds :
  exists cs, DSteps D (fun _ => True) (setup_state tb rs ls ds) cs (r_final (dstoch_run D pf fuel rs ls ds)).
Proof. exact (dstoch_run_dsteps (fun _ => True) (fun _ => True) (fun _ _ _ => I) (fun _ _ _ _ _ _ _ => I) pf fuel rs ls ds I). Qed.

Lemma dsync_loop_dsteps pf fuel t ev k s t' ev' k' s' s0 : dsync_loop D pf fuel t ev k s = (t', ev', k', s') ->
  (exists cs, DSteps D Xpos s0 cs s) -> exists cs, DSteps D Xpos s0 cs s'.
Proof.
  apply (dsync_loop_inv pf (fun _ s1 => exists cs, DSteps D Xpos s0 cs s1)).
  - intros _ s1 H. exact (dreach_sched D Xpos s0 _ _ H (dsched_set_stuck s1)).
  - intros t1 s1 H. unfold dsync_step.
    pose proof (run_pending_reach Xpos s0 pf t1 0 _ (dreach_sched D Xpos s0 _ _ H (dsched_set_clock t1 s1))) as H1.
    destruct (run_pending tb pf t1 0 (set_clock t1 s1)) as [n s2]. cbn [snd] in H1.
    destruct (dtranche_spec (set_clock t1 s2)) as [Ho Hsel].
    destruct (dtranche D (set_clock t1 s2)) as [evs s3]. cbn [fst snd] in Ho, Hsel.
    rewrite Forall_forall in Hsel.
    apply (dfire_tranche_inv (fun _ s4 => exists cs, DSteps D Xpos s0 cs s4) t1 evs).
    + intros xe _ s4 Hxe Em Hc H4. exact (dreach_call D Xpos s0 _ _ H4 (sel_call_ok _ _ t1 xe s4 (Hsel xe Hxe) Em Hc)).
    + exact (osame_clock _ _ Ho).
    + exact (dreach_sched D Xpos s0 _ _ (dreach_sched D Xpos s0 _ _ H1 (dsched_set_clock t1 s2)) (dsched_osame _ _ Ho)).
Qed.

Theorem dsync_run_dsteps pf fuel rs ds :
  exists cs, DSteps D Xpos (setup_state tb rs [] ds) cs (r_final (dsync_run D pf fuel rs ds)).
Proof.
  unfold dsync_run.
  destruct (dsync_loop D pf fuel 1 0 0 (setup_state tb rs [] ds)) as [[[t ev] k] s] eqn:E. cbn [r_final].
  exact (dsync_loop_dsteps _ _ _ _ _ _ _ _ _ _ _ E (ex_intro _ [] (dst_refl D Xpos _))).
Qed.

(* every event function entered from the scheduler passed its membership test *)
Definition member_rec (o : obs) : Prop :=
  match o with OHandler _ _ _ _ m => m = None \/ m = Some true | _ => True end.

Lemma act_member o : act_obs o -> member_rec o.
Proof. destruct o; cbn; tauto. Qed.

(* the handler record of a call that is [dcall_ok] carries a passed membership test, or none *)
Lemma dcall_ok_member Xtr c s : dcall_ok D Xtr c s -> member_rec (drec c s).
Proof. destruct c as [x t e|pi d t|h]; cbn [dcall_ok drec]; [intros (_ & -> & _); right | intros (_ & -> & _); right | left]; reflexivity. Qed.

Lemma DSteps_member Xtr s0 cs s : DSteps D Xtr s0 cs s -> Forall member_rec (out s0) -> Forall member_rec (out s).
Proof.
  intros H H0.
  refine (proj1 (DSteps_inv D Xtr (fun s => Forall member_rec (out s)) _ _ s0 cs s H0 H)).
  - intros s1 s2 Hj Hs. rewrite (dsched_out Hs). exact Hj.
  - intros s1 c Hj Hok. destruct (dafter_out D c s1) as [l [A ->]].
    constructor; [destruct c; exact I|]. apply Forall_app. split; [exact (Forall_impl _ act_member A)|].
    constructor; [exact (dcall_ok_member Xtr c s1 Hok) | exact Hj].
Qed.

Lemma setup_member rs ls ds : Forall member_rec (out (setup_state tb rs ls ds)).
Proof. exact (Forall_impl _ act_member (proj1 (setup_state_out tb rs ls ds))). Qed.

End DL.
