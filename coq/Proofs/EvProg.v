(* Soundness of the summaries of Model/EvProg.v: a program whose summary is h IS the event
   function `handler h` of Model/Compart.v, on every time, element, kernel state and world
   (summarise_sound); summarise_comp_sound is the same for the part of a summary that C07 uses. *)
From Coq Require Import List ZArith QArith Bool Arith.
From EpyV Require Import Lib.Prelude Model.Kernel Model.Loci Model.Compart Model.EvProg.
Import ListNotations.
Open Scope Q_scope.

Definition lact_action (n : Z) (x : bool * nat) : action :=
  if fst x then ALAdd (snd x) (EN n) else ALDiscard (snd x) (EN n).

(* the interpreter state an abstract summary stands for: every effect it records applied, once, to the
   world w0 the event function started in; n is the node the program binds (or is given) *)
Definition conc (tbl : list Loci.spec) (t : Q) (ed : option (Z * Z)) (n : Z) (w0 : cworld) (a : asum) : ist :=
  {| i_w := {| cw_st := match a_chg a with Some c => fst (change_compartment tbl (cw_st w0) n c) | None => cw_st w0 end;
               cw_occ := match a_occ a, ed with
                         | Some fo, Some e => (if fo then mark_occupied else mark_occupied_over) e t (cw_occ w0)
                         | _, _ => cw_occ w0
                         end;
               cw_hit := match a_hit a with
                         | Some fo => (if fo then mark_hit else mark_hit_over) n t (cw_hit w0)
                         | None => cw_hit w0
                         end |};
     i_n := if a_bound a then Some n else None;
     i_posts := match a_post a with Some (T, k) => [APostOn (EN n) T k] | None => [] end
                ++ map (lact_action n) (a_lacts a) |}.

Definition ed_left (ed : option (Z * Z)) (n : Z) : Prop := match ed with Some (x, _) => x = n | None => True end.
Definition is_edge (ed : option (Z * Z)) : bool := match ed with Some _ => true | None => false end.

Definition is_some {A} (o : option A) : bool := match o with Some _ => true | None => false end.
Definition is_change (s : stmt) : bool := match s with SChange _ => true | _ => false end.

Lemma aexec_conc : forall tbl t ed n w0, ed_left ed n -> forall s a a', aexec (is_edge ed) s a = Some a' ->
  exec tbl t ed s (conc tbl t ed n w0 a) = conc tbl t ed n w0 a'
  /\ is_some (a_chg a') = is_change s || is_some (a_chg a).
Proof.
  intros tbl t ed n w0 Hl s [b chg occ hit post lacts] a' H.
  destruct s as [| c | fo | fo | | T k | i | i]; cbn [aexec a_bound a_chg a_occ a_hit a_post a_lacts] in H.
  - destruct ed as [[x y]|]; [|discriminate]. injection H as <-. cbn in Hl. subst x. split; reflexivity.
  - destruct b; [|discriminate]. destruct chg; [discriminate|]. injection H as <-. split; reflexivity.
  - destruct ed; [|discriminate]. destruct occ; [discriminate|]. injection H as <-. split; reflexivity.
  - destruct b; [|discriminate]. destruct hit; [discriminate|]. injection H as <-. split; reflexivity.
  - injection H as <-. split; reflexivity.
  - destruct b; [|discriminate]. destruct post; [discriminate|]. destruct lacts; [|discriminate]. injection H as <-. split; reflexivity.
  - destruct b; [|discriminate]. injection H as <-. split; [|reflexivity].
    unfold conc, exec. cbn. rewrite map_app, app_assoc. reflexivity.
  - destruct b; [|discriminate]. injection H as <-. split; [|reflexivity].
    unfold conc, exec. cbn. rewrite map_app, app_assoc. reflexivity.
Qed.

Lemma arun_conc : forall tbl t ed n w0, ed_left ed n -> forall body a a', arun (is_edge ed) body a = Some a' ->
  run_body tbl t ed body (conc tbl t ed n w0 a) = conc tbl t ed n w0 a'
  /\ is_some (a_chg a') = changes body || is_some (a_chg a).
Proof.
  intros tbl t ed n w0 Hl. induction body as [|s body IH]; intros a a' H; cbn [arun] in H.
  - injection H as <-. split; reflexivity.
  - destruct (aexec _ s a) as [a1|] eqn:E; [|discriminate].
    destruct (aexec_conc tbl t ed n w0 Hl _ _ _ E) as [E1 C1]. destruct (IH _ _ H) as [E2 C2]. split.
    + unfold run_body. cbn [fold_left]. rewrite E1. exact E2.
    + rewrite C2, C1. unfold changes. cbn [existsb]. fold (is_change s). rewrite orb_assoc, (orb_comm (existsb _ body)). reflexivity.
Qed.

Lemma arun_app : forall [edge x y a a1 a2],
  arun edge x a = Some a1 -> arun edge y a1 = Some a2 -> arun edge (x ++ y) a = Some a2.
Proof.
  intros edge x y. induction x as [|s x IH]; intros a a1 a2 H1 H2; cbn [app arun] in *.
  - injection H1 as <-. exact H2.
  - destruct (aexec edge s a); [exact (IH _ _ _ H1 H2) | discriminate].
Qed.

Lemma conc_a0 : forall tbl t ed n w b,
  conc tbl t ed n w (a0 b) = {| i_w := w; i_n := if b then Some n else None; i_posts := [] |}.
Proof. intros. destruct w. reflexivity. Qed.

(* what [finish] returns on the concretisation of the abstract run's result *)
Definition fin (off : nat) (kloci : list (list Kernel.elem)) (a : asum) (x : ist) : cworld * list action :=
  (i_w x, (if is_some (a_chg a) then sync_actions off kloci (st_loci (cw_st (i_w x))) else []) ++ i_posts x).

Lemma finish_conc : forall tbl t ed n w b body a off kloci, ed_left ed n -> arun (is_edge ed) body (a0 b) = Some a ->
  finish off kloci body (run_body tbl t ed body {| i_w := w; i_n := if b then Some n else None; i_posts := [] |})
  = fin off kloci a (conc tbl t ed n w a).
Proof.
  intros tbl t ed n w b body a off kloci Hl E. destruct (arun_conc tbl t ed n w Hl _ _ _ E) as [R C].
  rewrite <- (conc_a0 tbl t ed n w b), R. unfold finish, fin. rewrite C, orb_false_r. reflexivity.
Qed.

Lemma interp_node : forall [body a], arun false body (a0 true) = Some a -> forall tbl off t n kloci w,
  interp tbl off (PNode body) t (EN n) kloci w = fin off kloci a (conc tbl t None n w a).
Proof. intros body a E tbl off t n kloci w. exact (finish_conc tbl t None n w true body a off kloci I E). Qed.

Lemma interp_edge : forall [body a], arun true body (a0 false) = Some a -> forall tbl off t n m kloci w,
  interp tbl off (PEdge body) t (EE n m) kloci w = fin off kloci a (conc tbl t (Some (n, m)) n w a).
Proof. intros body a E tbl off t n m kloci w. exact (finish_conc tbl t (Some (n, m)) n w false body a off kloci eq_refl E). Qed.

Theorem summarise_sound : forall p h, summarise p = Some h ->
  forall tbl off t e kloci w, interp tbl off p t e kloci w = handler tbl off h t e kloci w.
Proof.
  intros p h H tbl off t e kloci w. destruct p as [body|body]; cbn [summarise] in H.
  - destruct (arun false body (a0 true)) as [a|] eqn:E; [|discriminate].
    destruct a as [b [c|] [o|] [hh|] [pp|] [|la lacts]]; try discriminate; injection H as <-;
      (destruct e as [n|n m]; [rewrite (interp_node E) | reflexivity]).
    + unfold fin. cbn. rewrite app_nil_r. reflexivity.
    + destruct w. reflexivity.
  - destruct (arun true body (a0 false)) as [a|] eqn:E; [|discriminate].
    destruct a as [b [c|] [[|]|] [[|]|] pp [|la lacts]]; try discriminate; injection H as <-;
      (destruct e as [n|n m]; [reflexivity | rewrite (interp_edge E)]);
      destruct pp as [[T k]|]; reflexivity.
Qed.

(* compartments, loci and posted events alone (marks left open) *)
Theorem summarise_comp_sound : forall p cs, summarise_comp p = Some cs ->
  forall h, comp_part h = cs -> h <> HObs ->
  forall tbl off t e kloci w,
    cw_st (fst (interp tbl off p t e kloci w)) = cw_st (fst (handler tbl off h t e kloci w)) /\
    snd (interp tbl off p t e kloci w) = snd (handler tbl off h t e kloci w).
Proof.
  intros p cs H h Hh Hobs tbl off t e kloci w. destruct p as [body|body]; cbn [summarise_comp] in H.
  - destruct (arun false body (a0 true)) as [a|] eqn:E; [|discriminate].
    destruct a as [b [c|] [o|] hh [pp|] [|la lacts]]; try discriminate; injection H as <-.
    + destruct h; try discriminate Hh. injection Hh as <-.
      destruct e as [n|n m]; [rewrite (interp_node E) | split; reflexivity].
      unfold fin. cbn. rewrite app_nil_r. split; reflexivity.
    + destruct h; try discriminate Hh; [|destruct (Hobs eq_refl)].
      destruct e as [n|n m]; [rewrite (interp_node E)|]; split; reflexivity.
  - destruct (arun true body (a0 false)) as [a|] eqn:E; [|discriminate].
    destruct a as [b [c|] o hh pp [|la lacts]]; try discriminate; injection H as <-.
    destruct h as [|c' mk post| |]; try discriminate. cbn [comp_part] in Hh. injection Hh as -> ->.
    destruct e as [n|n m]; [split; reflexivity | rewrite (interp_edge E)].
    destruct mk, pp as [[T k]|]; split; reflexivity.
Qed.
