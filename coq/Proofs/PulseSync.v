(* Synchrony is absorbing on a complete network (C20, last clause), as a statement about pending
   firing times under explicit hypotheses on the numeric update; and its consequences for the
   number of distinct pending times and the size of every synchronised group. *)
From Coq Require Import List Arith Lia.
Import ListNotations.

Section Batch.
Variables node time : Type.
Variable t : time.            (* the time at which the batch of firings happens *)
Variable nxt : time.          (* where a node that fires at t is rescheduled (one period later) *)
Variable upd : time -> time.  (* where a cascade at t moves a node whose firing is pending at a given time:
                                 HYPOTHESIS: a function of that pending time alone *)
Hypothesis nxt_ne : nxt <> t.
(* a node due now is left alone (phase 1 -> state 1) or joins the firing node (synchronised) *)
Hypothesis upd_due : upd t = t \/ upd t = nxt.
(* a node that has just fired is left alone (phase 0 -> state 0 is passed over) *)
Hypothesis upd_fired : upd nxt = nxt.

Definition pend : Type := node -> time.

(* one firing on a complete network: n is due and fires, every other node is cascaded *)
Definition step (n : node) (p p' : pend) : Prop :=
  p n = t /\ p' n = nxt /\ forall m, m <> n -> p' m = upd (p m).

Inductive batch : pend -> pend -> Prop :=
| b_nil p : batch p p
| b_cons n p p' p'' : step n p p' -> batch p' p'' -> batch p p''.

Hypothesis node_dec : forall a b : node, {a = b} + {a <> b}.

(* during the batch the pending times of two synchronised nodes are either still equal, or one node has fired
   and the other is due *)
Definition near (x y : time) : Prop := x = y \/ (x = nxt /\ y = t) \/ (x = t /\ y = nxt).

Lemma near_sym x y : near x y -> near y x.
Proof. unfold near. intros [->|[[-> ->]|[-> ->]]]; auto. Qed.

(* both nodes are cascaded *)
Lemma near_upd x y : near x y -> near (upd x) (upd y).
Proof.
  intros [->|[[-> ->]|[-> ->]]]; [left; reflexivity| |apply near_sym];
    rewrite upd_fired; unfold near; destruct upd_due as [->| ->]; auto.
Qed.

(* one node fires (it was due), the other is cascaded *)
Lemma near_fire y : near t y -> near nxt (upd y).
Proof.
  intros [<-|[[E _]|[_ ->]]].
  - unfold near. destruct upd_due as [->| ->]; auto.
  - destruct (nxt_ne (eq_sym E)).
  - rewrite upd_fired. left. reflexivity.
Qed.

Lemma step_near n p p' a b : step n p p' -> near (p a) (p b) -> near (p' a) (p' b).
Proof.
  intros [Hd [Hn Ho]] R. destruct (node_dec a n) as [->|Ea], (node_dec b n) as [->|Eb].
  - left. reflexivity.
  - rewrite Hn, (Ho b Eb). apply near_fire. rewrite <- Hd. exact R.
  - rewrite Hn, (Ho a Ea). apply near_sym, near_fire, near_sym. rewrite <- Hd. exact R.
  - rewrite (Ho a Ea), (Ho b Eb). apply near_upd, R.
Qed.

Lemma batch_near p p' a b : batch p p' -> near (p a) (p b) -> near (p' a) (p' b).
Proof. induction 1 as [p|n p p1 p2 Hs Hb IH]; intros R; [exact R|]. apply IH. eapply step_near; eassumption. Qed.

(* after the whole batch (no node is due at t any more) synchronised nodes are still synchronised *)
Theorem batch_sync_absorbing p p' a b :
  batch p p' -> (forall m, p' m <> t) -> p a = p b -> p' a = p' b.
Proof.
  intros Hb Hend E. destruct (batch_near p p' a b Hb (or_introl E)) as [R|[[_ R]|[R _]]]; [exact R| |];
    exfalso; eapply Hend; exact R.
Qed.
End Batch.

Section Counts.
Variables node time : Type.
Variable time_dec : forall a b : time, {a = b} + {a <> b}.
Variable nodes : list node.
Variables p p' : node -> time.
Hypothesis absorbing : forall a b, In a nodes -> In b nodes -> p a = p b -> p' a = p' b.

Definition ndistinct (q : node -> time) : nat := length (nodup time_dec (map q nodes)).
Definition group (q : node -> time) (a : node) : nat :=
  length (filter (fun b => if time_dec (q b) (q a) then true else false) nodes).

(* where the old pending time v is sent: well defined on the times that occur *)
Definition image (v : time) : time :=
  match find (fun a => if time_dec (p a) v then true else false) nodes with Some a => p' a | None => v end.

Lemma image_spec a : In a nodes -> image (p a) = p' a.
Proof.
  intros Ha. unfold image.
  destruct (find (fun a0 => if time_dec (p a0) (p a) then true else false) nodes) as [c|] eqn:E.
  - apply find_some in E. destruct E as [Hc E]. destruct (time_dec (p c) (p a)) as [Ec|]; [|discriminate].
    apply absorbing; assumption.
  - pose proof (find_none _ _ E a Ha) as H. cbn in H. destruct (time_dec (p a) (p a)); [discriminate|contradiction].
Qed.

Lemma map_image : map p' nodes = map image (map p nodes).
Proof.
  rewrite map_map. apply map_ext_in. intros a Ha. symmetry. apply image_spec, Ha.
Qed.

Theorem distinct_not_increasing : ndistinct p' <= ndistinct p.
Proof.
  unfold ndistinct. rewrite map_image.
  set (l := map p nodes).
  rewrite <- (map_length image (nodup time_dec l)).
  apply NoDup_incl_length; [apply NoDup_nodup|].
  intros v Hv. apply nodup_In in Hv. apply in_map_iff in Hv. destruct Hv as [u [<- Hu]].
  apply in_map. apply nodup_In. exact Hu.
Qed.

Theorem group_not_shrinking a : In a nodes -> group p a <= group p' a.
Proof.
  intros Ha. unfold group.
  assert (G : forall l, incl l nodes ->
    length (filter (fun b => if time_dec (p b) (p a) then true else false) l)
    <= length (filter (fun b => if time_dec (p' b) (p' a) then true else false) l)).
  { induction l as [|b l IH]; intros Hi; cbn [filter]; [lia|].
    assert (Hb : In b nodes) by (apply Hi; left; reflexivity).
    assert (Hl : incl l nodes) by (intros x Hx; apply Hi; right; exact Hx).
    specialize (IH Hl).
    destruct (time_dec (p b) (p a)) as [E|E].
    - rewrite (absorbing b a Hb Ha E). destruct (time_dec (p' a) (p' a)); [cbn; lia|contradiction].
    - destruct (time_dec (p' b) (p' a)); cbn; lia. }
  apply G, incl_refl.
Qed.
End Counts.
