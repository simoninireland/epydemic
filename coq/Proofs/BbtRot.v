(* C09: one rotation of the balanced tree, with its nested repairs, restores the shape invariant. *)
From Coq Require Import ZArith List Bool Arith Lia.
From EpyV Require Import Model.Bbt.
Import ListNotations. Close Scope Z_scope. Open Scope nat_scope.

Fixpoint ht (t : tree) : nat := match t with Leaf => 0 | Node l _ _ _ _ r => S (Nat.max (ht l) (ht r)) end.
Fixpoint size (t : tree) : nat := match t with Leaf => 0 | Node l _ _ _ _ r => size l + 1 + size r end.
Fixpoint Ok (t : tree) : Prop :=
  match t with Leaf => True | Node l _ h ls rs r => Ok l /\ Ok r /\ h = Nat.max (ht l) (ht r) /\ ls = size l /\ rs = size r end.
Fixpoint Bal (t : tree) : Prop :=
  match t with Leaf => True | Node l _ _ _ _ r => Bal l /\ Bal r /\ ht l <= S (ht r) /\ ht r <= S (ht l) end.

Lemma ok_sh t : Ok t -> sh t = ht t.
Proof. destruct t; simpl; [reflexivity|]. intros (_ & _ & -> & _). reflexivity. Qed.
Lemma ok_slen t : Ok t -> slen t = size t.
Proof. destruct t; simpl; [reflexivity|]. intros (_ & _ & _ & -> & ->). reflexivity. Qed.
Lemma mk_ok l d r : Ok l -> Ok r -> Ok (mk l d r).
Proof. intros Hl Hr. unfold mk. simpl. rewrite !ok_sh, !ok_slen by assumption. auto. Qed.
Lemma ht_mk l d r : ht (mk l d r) = S (Nat.max (ht l) (ht r)).
Proof. reflexivity. Qed.
Lemma inorder_mk l d r : inorder (mk l d r) = inorder l ++ d :: inorder r.
Proof. reflexivity. Qed.
Lemma size_mk l d r : size (mk l d r) = size l + 1 + size r.
Proof. reflexivity. Qed.
Lemma bal_mk l d r : Bal l -> Bal r -> ht l <= S (ht r) -> ht r <= S (ht l) -> Bal (mk l d r).
Proof. simpl; auto. Qed.
(* the one re-association that in-order lists need *)
Lemma app_mid {A} (l : list A) x m n : (l ++ x :: m) ++ n = l ++ x :: m ++ n.
Proof. rewrite <- app_assoc. reflexivity. Qed.
Lemma size_inorder t : size t = length (inorder t).
Proof. induction t as [|l IHl d h ls rs r IHr]; cbn [size inorder]; [reflexivity|]. rewrite app_length. cbn [length]. lia. Qed.
Lemma unbal_mk l d r : Ok l -> Ok r -> reflect (S (ht r) < ht l \/ S (ht l) < ht r) (unbal (mk l d r)).
Proof.
  intros Hl Hr. unfold mk, unbal. rewrite !ok_sh by assumption.
  apply iff_reflect. rewrite Nat.ltb_lt. lia.
Qed.
Lemma taller_left_mk l d r : Ok l -> Ok r -> taller_left (mk l d r) = (ht r <? ht l).
Proof. intros Hl Hr. unfold mk, taller_left. rewrite !ok_sh by assumption. reflexivity. Qed.

(* stored fields are right and the tree is height-balanced: the part of [Good] (BbtSet.v) that does not
   mention the order of the entries *)
Definition Inv t := Ok t /\ Bal t.
Definition level (t : tree) : Prop := match t with Leaf => True | Node l _ _ _ _ r => ht l = ht r end.

Lemma inv_leaf : Inv Leaf. Proof. split; exact I. Qed.
Lemma inv_mk l d r : Inv l -> Inv r -> ht l <= S (ht r) -> ht r <= S (ht l) -> Inv (mk l d r).
Proof. intros [? ?] [? ?] ? ?. split; [apply mk_ok|apply bal_mk]; assumption. Qed.
Lemma inv_node {l d h ls rs r} : Inv (Node l d h ls rs r) ->
  Inv l /\ Inv r /\ Node l d h ls rs r = mk l d r /\ ht l <= S (ht r) /\ ht r <= S (ht l).
Proof.
  intros [(Hol & Hor & -> & -> & ->) (Hbl & Hbr & H1 & H2)].
  repeat split; try assumption. unfold mk. rewrite !ok_sh, !ok_slen by assumption. reflexivity.
Qed.

Definition RotSpec (f : tree -> tree) (bound : nat) : Prop :=
  forall l d r, Inv l -> Inv r -> ht (mk l d r) <= bound ->
  (ht l = S (S (ht r)) \/ ht r = S (S (ht l))) ->
  let t := f (mk l d r) in
  Inv t /\ inorder t = inorder (mk l d r) /\ size t = size (mk l d r) /\
  (ht t = ht (mk l d r) \/ S (ht t) = ht (mk l d r)) /\
  (* the height drops whenever the taller child is not level (always so after an insertion) *)
  ((ht l = S (S (ht r)) -> ~ level l -> S (ht t) = ht (mk l d r)) /\
   (ht r = S (S (ht l)) -> ~ level r -> S (ht t) = ht (mk l d r))).

(* [t] can stand for [mk l d r], whose children may differ in height by two: same entries in the
   same order, fields and balance right, and one lower only if a rotation was needed *)
Definition Repair (l : tree) (d : Z) (r t : tree) : Prop :=
  Inv t /\ inorder t = inorder l ++ d :: inorder r /\
  (ht t = S (Nat.max (ht l) (ht r)) \/
   S (ht t) = S (Nat.max (ht l) (ht r)) /\ (ht l = S (S (ht r)) \/ ht r = S (S (ht l)))).

Lemma repair_mk l d r : Inv l -> Inv r -> ht l <= S (ht r) -> ht r <= S (ht l) -> Repair l d r (mk l d r).
Proof. intros Hl Hr H1 H2. split; [apply inv_mk; assumption|]. split; [reflexivity|]. left. reflexivity. Qed.

Lemma fixr_repair f n : RotSpec f n -> forall l d r, Inv l -> Inv r -> ht (mk l d r) <= n ->
  ht l <= S (S (ht r)) -> ht r <= S (S (ht l)) -> Repair l d r (fixr f (mk l d r)).
Proof.
  intros Hf l d r Hl Hr Hn H1 H2. unfold fixr.
  destruct (unbal_mk l d r (proj1 Hl) (proj1 Hr)) as [Hu|Hb]; [|apply repair_mk; (assumption || lia)].
  assert (Hd : ht l = S (S (ht r)) \/ ht r = S (S (ht l))) by lia.
  destruct (Hf l d r Hl Hr Hn Hd) as (Hi & Hin & _ & Hh & _).
  rewrite ht_mk in Hh. split; [exact Hi|]. split; [exact Hin|].
  destruct Hh as [Hh|Hh]; [left; exact Hh|right; split; assumption].
Qed.
Lemma fixr_bal f l d r : Ok l -> Ok r -> ht l <= S (ht r) -> ht r <= S (ht l) ->
  fixr f (mk l d r) = mk l d r.
Proof. intros Hl Hr H1 H2. unfold fixr. destruct (unbal_mk l d r Hl Hr); [lia|reflexivity]. Qed.

(* RotSpec from its three independent parts; the size follows from the entries *)
Lemma rot_spec_intro f n :
  (forall l d r, Inv l -> Inv r -> ht (mk l d r) <= n -> ht l = S (S (ht r)) \/ ht r = S (S (ht l)) ->
   let t := f (mk l d r) in
   Inv t /\ inorder t = inorder l ++ d :: inorder r /\
   (ht t = Nat.max (ht l) (ht r) \/
    ht t = S (Nat.max (ht l) (ht r)) /\ (ht l = S (S (ht r)) -> level l) /\ (ht r = S (S (ht l)) -> level r))) ->
  RotSpec f n.
Proof.
  intros H l d r Hl Hr Hn Hd. destruct (H l d r Hl Hr Hn Hd) as (Hi & Hin & Hh). cbv zeta.
  rewrite ht_mk. split; [exact Hi|]. split; [exact Hin|].
  split; [rewrite !size_inorder, Hin; reflexivity|].
  destruct Hh as [->|(-> & L1 & L2)]; [auto|].
  split; [left; reflexivity|]. split; intros E Hn'; [destruct (Hn' (L1 E))|destruct (Hn' (L2 E))].
Qed.

(* The shapes of _rotate (bbt.py:157-265); [a], [b], [c], [e] are the sub-trees from left to right. *)
Section Shapes.
  Variables (f : tree -> tree) (n : nat).
  Hypothesis IH : RotSpec f n.

  (* c-b-a: single rotation to the right; the left child is left-heavy *)
  Lemma rot_ll a x b d c : Inv a -> Inv b -> Inv c -> ht a = S (ht c) -> ht b = ht c ->
    let t := mk a x (fixr f (mk b d c)) in
    Inv t /\ inorder t = inorder a ++ x :: inorder b ++ d :: inorder c /\ ht t = S (S (ht c)).
  Proof.
    intros Ha Hb Hc Ea Eb. rewrite fixr_bal by (apply Hb || apply Hc || lia).
    split; [|split; [reflexivity|rewrite !ht_mk; lia]].
    apply inv_mk; [exact Ha|apply inv_mk; (assumption || lia)| |]; rewrite ht_mk; lia.
  Qed.

  (* a-b-c: single rotation to the left; the right child is level or right-heavy *)
  Lemma rot_rr a d b y c : Inv a -> Inv b -> Inv c -> ht a <= ht b <= S (ht a) -> ht c = S (ht a) ->
    let t := mk (fixr f (mk a d b)) y c in
    Inv t /\ inorder t = inorder a ++ d :: inorder b ++ y :: inorder c /\ ht t = S (S (ht b)).
  Proof.
    intros Ha Hb Hc Eb Ec. rewrite fixr_bal by (apply Ha || apply Hb || lia).
    split; [|split; [rewrite !inorder_mk; apply app_mid|rewrite !ht_mk; lia]].
    apply inv_mk; [apply inv_mk; (assumption || lia)|exact Hc| |]; rewrite ht_mk; lia.
  Qed.

  (* c-a-b and a-c-b: double rotation; the inner grandchild [mk b y c] comes to the top.  In a-c-b
     [a] is the lower child itself.  In c-a-b, [a] may be as high as its sibling was (a tie, after a
     deletion); if then [b] is the lower of the two, the new left sub-tree is out of balance by two:
     this is the one place where the nested repair runs *)
  Lemma rot_double a x b y c d e : Inv a -> Inv b -> Inv c -> Inv e -> S (S (ht e)) <= n ->
    ht e <= ht a <= S (ht e) -> ht b <= S (ht c) -> ht c <= S (ht b) -> Nat.max (ht b) (ht c) = ht e ->
    let t := mk (fixr f (mk a x b)) y (fixr f (mk c d e)) in
    Inv t /\ inorder t = inorder a ++ x :: inorder b ++ y :: inorder c ++ d :: inorder e /\
    (ht t = S (S (ht e)) \/ ht t = S (S (S (ht e))) /\ ht a = S (ht e)).
  Proof.
    intros Ha Hb Hc He Hn Ea B1 B2 Ebc.
    rewrite (fixr_bal f c d e) by (apply Hc || apply He || lia).
    destruct (fixr_repair f n IH a x b Ha Hb) as (Hi & Hin & Hh); [rewrite ht_mk; lia|lia|lia|].
    split; [|split].
    - apply inv_mk; [exact Hi|apply inv_mk; (assumption || lia)| |]; rewrite ht_mk; lia.
    - rewrite inorder_mk, Hin, inorder_mk. apply app_mid.
    - rewrite !ht_mk. lia.
  Qed.

  Lemma rot_body_spec : RotSpec (rot_body (fixr f)) (S n).
  Proof.
    apply rot_spec_intro. intros l d r Hl Hr Hn Hd. rewrite ht_mk in Hn.
    change (rot_body (fixr f) (mk l d r)) with (rot_node (fixr f) (mk l d r) l d r).
    unfold rot_node. rewrite (ok_sh l), (ok_sh r) by (apply Hl || apply Hr).
    destruct Hd as [Hd|Hd].
    - destruct (Nat.ltb_spec (ht r) (ht l)) as [_|]; [|lia].
      destruct l as [|a x ? ? ? b]; [discriminate Hd|].
      destruct Hl as [(Oa & Ob & _) (Ba & Bb & B1 & B2)]. rewrite (ok_sh a), (ok_sh b) by assumption.
      cbn [ht inorder level] in *.
      destruct (Nat.ltb_spec (ht b) (ht a)) as [Hab|Hab].
      + destruct (rot_ll a x b d r (conj Oa Ba) (conj Ob Bb) Hr) as (Hi & Hin & Hh); [lia..|].
        split; [exact Hi|]. split; [rewrite Hin, app_mid; reflexivity|]. rewrite Hh. lia.
      + destruct b as [|b y ? ? ? c]; [cbn [ht] in Hd, Hab; lia|].
        destruct Ob as (Ob & Oc & _). destruct Bb as (Bb & Bc & B3 & B4). cbn [ht inorder] in *.
        destruct (rot_double a x b y c d r (conj Oa Ba) (conj Ob Bb) (conj Oc Bc) Hr) as (Hi & Hin & Hh); [lia..|].
        split; [exact Hi|]. split; [rewrite Hin, !app_mid; reflexivity|]. lia.
    - destruct (Nat.ltb_spec (ht r) (ht l)) as [|_]; [lia|].
      destruct r as [|b y ? ? ? c]; [discriminate Hd|].
      destruct Hr as [(Ob & Oc & _) (Bb & Bc & B1 & B2)]. rewrite (ok_sh b), (ok_sh c) by assumption.
      cbn [ht inorder level] in *.
      destruct (Nat.ltb_spec (ht c) (ht b)) as [Hbc|Hbc].
      + destruct b as [|a' x ? ? ? b]; [cbn [ht] in Hd, Hbc; lia|].
        destruct Ob as (Oa & Ob & _). destruct Bb as (Ba & Bb & B3 & B4). cbn [ht inorder] in *.
        destruct (rot_double l d a' x b y c Hl (conj Oa Ba) (conj Ob Bb) (conj Oc Bc)) as (Hi & Hin & Hh); [lia..|].
        split; [exact Hi|]. split; [rewrite Hin, !app_mid; reflexivity|]. lia.
      + destruct (rot_rr l d b y c Hl (conj Ob Bb) (conj Oc Bc)) as (Hi & Hin & Hh); [lia..|].
        split; [exact Hi|]. split; [exact Hin|]. rewrite Hh. lia.
  Qed.
End Shapes.

Theorem rot_spec : forall fuel, RotSpec (rot fuel) fuel.
Proof.
  induction fuel as [|fuel IH].
  - intros l d r _ _ Hf _. rewrite ht_mk in Hf. lia.
  - cbn [rot]. apply rot_body_spec. exact IH.
Qed.
Print Assumptions rot_spec.

(* add and rebal give the rotation the stored height of the node, plus one, as fuel: always enough *)
Lemma rot_sh_spec n : RotSpec (fun t => rot (S (sh t)) t) n.
Proof.
  intros l d r Hl Hr _ Hd. rewrite (ok_sh (mk l d r)) by (apply mk_ok; [apply Hl|apply Hr]).
  apply (rot_spec (S (ht (mk l d r))) l d r Hl Hr); [apply Nat.le_succ_diag_r|exact Hd].
Qed.

(* the rotation as add calls it: the height drops when the child that is too high is not level *)
Lemma rot_drop l d r : Inv l -> Inv r -> ht l = S (S (ht r)) \/ ht r = S (S (ht l)) ->
  let t := rot (S (sh (mk l d r))) (mk l d r) in
  Inv t /\ inorder t = inorder l ++ d :: inorder r /\
  (ht l = S (S (ht r)) -> ~ level l -> ht t = ht l) /\ (ht r = S (S (ht l)) -> ~ level r -> ht t = ht r).
Proof.
  intros Hl Hr Hd. destruct (rot_sh_spec _ l d r Hl Hr (le_n _) Hd) as (Hi & Hin & _ & _ & D1 & D2).
  rewrite ht_mk in D1, D2. split; [exact Hi|]. split; [exact Hin|].
  split; intros E Lv; [specialize (D1 E Lv)|specialize (D2 E Lv)]; lia.
Qed.

Lemma rebal_repair l d r : Inv l -> Inv r -> ht l <= S (S (ht r)) -> ht r <= S (S (ht l)) ->
  Repair l d r (rebal (mk l d r)).
Proof. intros Hl Hr. exact (fixr_repair _ _ (rot_sh_spec _) l d r Hl Hr (le_n _)). Qed.
