(* C12, Monitor clause.  A Monitor is a process whose set-up posts the repeating program
   [AObserve] from time 0 with period delta.  Proved for tables with arbitrary other processes:
   the observation records are made inside the handler bracket of their time with one size per
   locus; the monitor's entry is never un-posted (its id is never handed to user code) and
   fires at 0, delta, 2 delta, ...; times around an observation (from C03 monotonicity).
   Each of the three invariants (JK, PM, QC) is shown to be kept by one action, lifted over user
   code (user_prog, user_setup of KernelMember.v) and over the kernel's own steps (Section Lift) to
   the final state of a run; the statements about r_out are read off it in Properties/C12.v. *)
From Coq Require Import List ZArith QArith Qabs Bool Arith Lia Lqa Sorted.
From EpyV Require Import Model.Kernel Proofs.KernelMember Proofs.KernelBase Proofs.KernelLoops Proofs.KernelQueue
  Proofs.KernelFire Proofs.KernelTime Proofs.KernelResults.
Import ListNotations.
Open Scope Q_scope.

(* The invariants of this file read five fields of the state; one that every step of the kernel
   keeps holds of the final state of a run (KernelLoops, Section Lift). *)
Section Lift.
Context {W : Type}.
Implicit Types s : st W.
Variable tb : table W.

Definition face s := (nextid s, queue s, loci s, ids s, out s).

Lemma face_eq s s' : face s' = face s ->
  nextid s' = nextid s /\ queue s' = queue s /\ loci s' = loci s /\ ids s' = ids s /\ out s' = out s.
Proof. intros [= A B C D E]. auto. Qed.

Lemma osame_face s s' : osame s s' -> face s' = face s.
Proof.
  intros [Hc [[Hl [Hi _]] _]]. injection Hc as _ En Eq Eo. unfold face. rewrite En, Eq, Eo, Hl, Hi. reflexivity.
Qed.

(* a predicate on the state and the entries fired so far that every step of the kernel keeps *)
Record kinv (P : st W -> list entry -> Prop) : Prop := {
  k_face : forall s s' lg, face s' = face s -> P s lg -> P s' lg;
  k_discard : forall s lg, P s lg -> P (discard s) lg;
  k_pend : forall h s0 lg, head (queue s0) = Some h -> e_live h = true -> P s0 lg ->
           P (pend_step tb h s0) (lg ++ [h]);
  k_event : forall x t e s lg, P s lg -> P (fire_event tb x t e s) lg }.

Variable P : st W -> list entry -> Prop.
Hypothesis K : kinv P.

Lemma kinv_stuck s lg : P s lg -> P (set_stuck s) lg.
Proof. apply (k_face P K). reflexivity. Qed.
Lemma kinv_clock c s lg : P s lg -> P (set_clock c s) lg.
Proof. apply (k_face P K). reflexivity. Qed.
Lemma kinv_osame s s' lg : osame s s' -> P s lg -> P s' lg.
Proof. intros H. apply (k_face P K), osame_face, H. Qed.

Lemma lift_stoch_run pf fuel rs ls ds : P (setup_state tb rs ls ds) [] ->
  P (r_final (stoch_run tb pf fuel rs ls ds)) (stoch_fired tb pf fuel rs ls ds).
Proof.
  intros H0. exact (lift_stoch_loopL tb P kinv_stuck kinv_osame (k_discard P K) kinv_clock (k_pend P K)
                      (fun x t e s lg _ => k_event P K x t e s lg) H0 (stoch_run_loopL tb pf fuel rs ls ds)).
Qed.

Lemma lift_sync_run pf fuel rs ds : P (setup_state tb rs [] ds) [] ->
  P (r_final (sync_run tb pf fuel rs ds)) (sync_fired tb pf fuel rs ds).
Proof.
  intros H0. exact (lift_sync_loopL tb P kinv_stuck kinv_osame (k_discard P K) kinv_clock (k_pend P K)
                      (fun x t e s lg _ => k_event P K x t e s lg) H0 (sync_run_loopL tb pf fuel rs ds)).
Qed.

End Lift.

(* the only way user code learns an id is APost / APostOn; they must not post the observe program *)
Definition nopush (kobs : nat) (a : action) : Prop :=
  match a with APost _ k | APostOn _ _ k => k <> kobs | _ => True end.

(* ... and when nobody else posts the observe program at all *)
Definition noposts (kobs : nat) (a : action) : Prop :=
  match a with APost _ k | APostOn _ _ k | APostRep _ _ k => k <> kobs | _ => True end.

Lemma noposts_nopush k a : noposts k a -> nopush k a.
Proof. destruct a; cbn; auto. Qed.

(* nothing, or an entry whose id user code holds is killed, or a live entry is queued under the
   next id, which is kept from user code (APostRep) or handed to it (APost, APostOn) *)
Lemma do_action_queue {W} (R : list entry -> list nat -> nat -> Prop) p t e a (s : st W) :
  R (queue s) (ids s) (nextid s) ->
  (forall i, In i (ids s) -> R (kill i (queue s)) (ids s) (nextid s)) ->
  (forall y, e_id y = nextid s -> e_live y = true -> (forall k, noposts k a -> e_prog y <> k) ->
     R (y :: queue s) (ids s) (S (nextid s))) ->
  (forall y, e_id y = nextid s -> e_live y = true -> (forall k, nopush k a -> e_prog y <> k) ->
     R (y :: queue s) (ids s ++ [nextid s]) (S (nextid s))) ->
  R (queue (do_action p t e a s)) (ids (do_action p t e a s)) (nextid (do_action p t e a s)).
Proof.
  intros H0 Hk Hr Hp. destruct a; cbn [do_action]; try exact H0.
  - unfold post. destruct (Qltb _ _); [exact H0|].
    exact (Hp (mk_entry (Qred (t + dt)) (nextid s) p e prog None) eq_refl eq_refl (fun k Hk => Hk)).
  - unfold post. destruct (Qltb _ _); [exact H0|].
    exact (Hp (mk_entry (Qred (t + dt)) (nextid s) p x prog None) eq_refl eq_refl (fun k Hk => Hk)).
  - unfold post. destruct (Qltb _ _); [exact H0|].
    exact (Hr (mk_entry (Qred (t + dt0)) (nextid s) p e prog (Some ddt)) eq_refl eq_refl (fun k Hk => Hk)).
  - unfold post. rewrite Qred_pred_lt. exact H0.
  - destruct (ids s) as [|i0 l0] eqn:Ei; [rewrite Ei; exact H0|].
    destruct (find_live _ (queue s)); cbn [queue ids nextid emit set_queue]; rewrite Ei; [|exact H0].
    apply Hk, nth_In, Nat.mod_upper_bound. discriminate.
  - destruct (ids s) eqn:Ei; cbn [queue ids nextid emit]; rewrite Ei; exact H0.
Qed.

(* lht, last handler time.  Newest first: the time of the most recent handler call, 0 before any
   (set-up code runs at 0) *)
Fixpoint lht (o : list obs) : Q :=
  match o with
  | [] => 0
  | OHandler _ t _ _ _ :: _ => t
  | _ :: o' => lht o'
  end.

Lemma lht_skip x o : is_handler x = false -> lht (x :: o) = lht o.
Proof. destruct x; [discriminate|reflexivity..]. Qed.

(* every observation carries the time of the handler call it was made in and one size per locus *)
Fixpoint obs_ok (n : nat) (o : list obs) : Prop :=
  match o with
  | [] => True
  | x :: o' => obs_ok n o' /\ match x with OObserve t sz => t = lht o' /\ length sz = n | _ => True end
  end.

(* neither a handler record nor an observation *)
Definition not_ho (x : obs) : Prop :=
  match x with OHandler _ _ _ _ _ | OObserve _ _ => False | _ => True end.

Lemma note_not_ho x : note x -> not_ho x.
Proof. destruct x; cbn; auto. Qed.

Lemma obs_ok_other n x o : not_ho x -> obs_ok n o -> obs_ok n (x :: o) /\ lht (x :: o) = lht o.
Proof. destruct x; cbn; intros H Ho; try contradiction; auto. Qed.

Section Bracket.
Context {W : Type}.
Implicit Types s : st W.
Variable n : nat.

(* JK, the bracket invariant as the kernel sees it between handler calls *)
Definition JK s : Prop := obs_ok n (out s) /\ length (loci s) = n.
(* J t, the same inside a handler called with time t *)
Definition J (t : Q) s : Prop := lht (out s) = t /\ JK s.

Lemma J_do_action p t e a s : J t s -> J t (do_action p t e a s).
Proof.
  intros [A [B C]]. apply (do_action_notes (fun o lc => lht o = t /\ obs_ok n o /\ length lc = n)).
  - auto.
  - intros x Hx. destruct (obs_ok_other n x (out s) (note_not_ho x Hx) B) as [D E]. rewrite E. auto.
  - cbn. rewrite map_length. auto.
  - intros k f. rewrite upd_nth_length. auto.
Qed.

Lemma JK_called tb p k t c e m s : JK s -> JK (run_prog tb p k t e (emit (OHandler k t c e m) s)).
Proof.
  intros H. apply (user_prog_any tb J J_do_action (fun t0 w s0 H0 => H0)).
  split; [reflexivity|]. split; [split; [apply H|exact I]|apply H].
Qed.

Lemma JK_emit s x : not_ho x -> JK s -> JK (emit x s).
Proof. intros Hx [A B]. split; [apply (obs_ok_other n x (out s) Hx A)|exact B]. Qed.

Lemma JK_kinv tb : kinv tb (fun s _ => JK s).
Proof.
  split.
  - (* same face *) intros s s' _ E. destruct (face_eq _ _ E) as (_ & _ & El & _ & Eo). unfold JK. rewrite El, Eo. auto.
  - (* discard *) intros s _ H. exact H.
  - (* the live head fires *) intros h s0 _ _ _ H. unfold pend_step. apply JK_emit; [exact I|]. apply fire_inv.
    + apply JK_called, H.
    + intros ddt s2 _ H2. unfold post. destruct (Qltb _ _); exact H2.
    + intros s2. apply JK_emit. exact I.
  - (* a stochastic event fires *) intros x t e s _ H. destruct x as [[pi j] ev]. unfold fire_event.
    apply JK_emit; [exact I|]. apply JK_called, H.
Qed.

End Bracket.

Lemma JK_setup {W} (tb : table W) rs ls ds : JK (length (t_loci tb)) (setup_state tb rs ls ds).
Proof.
  refine (proj2 (user_setup_any tb (J (length (t_loci tb))) (J_do_action _) rs ls ds _)).
  split; [reflexivity|split; [exact I|apply map_length]].
Qed.

Lemma JK_stoch_run {W} (tb : table W) pf fuel rs ls ds : JK (length (t_loci tb)) (r_final (stoch_run tb pf fuel rs ls ds)).
Proof. exact (lift_stoch_run tb _ (JK_kinv _ tb) pf fuel rs ls ds (JK_setup tb rs ls ds)). Qed.

Lemma JK_sync_run {W} (tb : table W) pf fuel rs ds : JK (length (t_loci tb)) (r_final (sync_run tb pf fuel rs ds)).
Proof. exact (lift_sync_run tb _ (JK_kinv _ tb) pf fuel rs ds (JK_setup tb rs [] ds)). Qed.

Lemma obs_ok_split n a t sz b : obs_ok n (a ++ OObserve t sz :: b) -> t = lht b /\ length sz = n.
Proof. induction a as [|x a IH]; cbn; [intros [_ H]; exact H|intros [H _]; auto]. Qed.

Lemma obs_record {W} n (s : st W) pre t sz suf : JK n s -> rev (out s) = pre ++ OObserve t sz :: suf ->
  t = lht (rev pre) /\ length sz = n.
Proof.
  intros [H _] E. apply (f_equal (@rev obs)) in E. rewrite rev_involutive, rev_app_distr in E. cbn in E.
  rewrite <- app_assoc in E. cbn in E. rewrite E in H. exact (obs_ok_split n _ t sz _ H).
Qed.

Section Mon.
Context {W : Type}.
Implicit Types s : st W.
Variable tb : table W.
Variable delta : Q.
Variable kobs : nat.

(* a table with a monitor: some process' set-up is exactly [postRepeatingEvent(0, delta, observe)],
   program kobs observes, and no program or set-up posts kobs through postEvent *)
Record monitor_tb : Prop := {
  mt_delta : 0 < delta;
  mt_procs : exists pre mp post, t_procs tb = pre ++ mp :: post /\ p_setup mp = [APostRep 0 delta kobs] /\
             Forall (fun p => Forall (nopush kobs) (p_setup p)) (pre ++ post);
  mt_obs : forall t e l w, snd (prog_of tb kobs t e l w) = [AObserve];
  mt_progs : forall k t e l w, Forall (nopush kobs) (snd (prog_of tb k t e l w)) }.

(* MI, the monitor's entries are intact: ids handed out are allocated; entries running the observe
   program are live and unknown to user code *)
Definition MI s : Prop :=
  wf s /\ (forall i, In i (ids s) -> (i < nextid s)%nat) /\
  (forall x, In x (queue s) -> e_prog x = kobs -> e_live x = true /\ ~ In (e_id x) (ids s)).

Lemma MI_same s s' : queue s' = queue s -> nextid s' = nextid s -> ids s' = ids s -> MI s -> MI s'.
Proof. unfold MI, wf. intros -> -> ->. auto. Qed.

Lemma MI_post t p e prog rep s : MI s -> MI (snd (post t p e prog rep s)).
Proof.
  intros [Hw [Hi Hk]]. unfold post. destruct (Qltb t (clock s)); cbn [snd]; [split; [exact Hw|split; assumption]|].
  split; [|split]; cbn.
  - apply (wfk_post _ _ t p e prog rep Hw).
  - intros i H. specialize (Hi i H). lia.
  - intros x [<-|Hx] Hp; [|auto]. cbn. split; [reflexivity|]. intros H. specialize (Hi _ H). lia.
Qed.

Lemma MI_do_action p t e a s : nopush kobs a -> MI s -> MI (do_action p t e a s).
Proof.
  intros Ha HM. split; [exact (do_action_wf p t e a s (proj1 HM))|].
  destruct HM as [[_ Hlt] [Hi Hk]]. rewrite Forall_forall in Hlt.
  assert (Hnew : forall y, e_id y = nextid s -> e_live y = true ->
            (forall i, In i (ids s) -> (i < S (nextid s))%nat) /\
            forall x, In x (y :: queue s) -> e_prog x = kobs -> e_live x = true /\ ~ In (e_id x) (ids s)).
  { intros y Ey Ly. split; [intros i H; specialize (Hi i H); lia|].
    intros x [<-|Hx] Hp; [|auto]. split; [exact Ly|]. rewrite Ey. intros H. specialize (Hi _ H). lia. }
  apply (do_action_queue (fun q i n => (forall j, In j i -> (j < n)%nat) /\
           forall x, In x q -> e_prog x = kobs -> e_live x = true /\ ~ In (e_id x) i)).
  - split; assumption.
  - intros i Hin. split; [exact Hi|]. intros y Hy Hp. apply kill_in in Hy.
    destruct Hy as [[Hy _]|[z [Hz [Hzi ->]]]]; [auto|].
    exfalso. apply (proj2 (Hk z Hz Hp)). rewrite Hzi. exact Hin.
  - intros y Ey Ly _. exact (Hnew y Ey Ly).
  - (* the id handed out is that of the new entry, which does not run the observe program *)
    intros y Ey Ly Hne. destruct (Hnew y Ey Ly) as [A B]. split.
    + intros i H. apply in_app_or in H. destruct H as [H|[<-|[]]]; [apply A, H|lia].
    + intros x Hx Hp. destruct (B x Hx Hp) as [C D]. split; [exact C|].
      intros H. apply in_app_or in H. destruct H as [H|[H|[]]]; [auto|].
      destruct Hx as [<-|Hx]; [exact (Hne kobs Ha Hp)|]. specialize (Hlt x Hx). lia.
Qed.

(* the entries running the observe program that are queued in q are still queued in s *)
Definition keeps (q : list entry) s : Prop := forall y, e_prog y = kobs -> In y q -> In y (queue s).

Lemma keep_do_action p t e a s : MI s -> keeps (queue s) (do_action p t e a s).
Proof.
  intros [_ [_ Hk]] y Hp Hy.
  apply (do_action_queue (fun q _ _ => In y q)); [exact Hy| |right; exact Hy..].
  intros i Hin. apply kill_keeps; [exact Hy|]. intros E. apply (proj2 (Hk y Hy Hp)). rewrite E. exact Hin.
Qed.

(* MK q: MI, and user code keeps the observe entries of q queued *)
Definition MK (q : list entry) s : Prop := MI s /\ keeps q s.

Lemma MK_same q s s' : queue s' = queue s -> nextid s' = nextid s -> ids s' = ids s -> MK q s -> MK q s'.
Proof. intros Eq En Ei [A B]. split; [eapply MI_same; eassumption|]. unfold keeps. rewrite Eq. exact B. Qed.

Lemma MK_action q p t e a s : nopush kobs a -> MK q s -> MK q (do_action p t e a s).
Proof.
  intros Ha [A B]. split; [apply MI_do_action; assumption|].
  intros y Hp Hy. apply keep_do_action; auto.
Qed.

Lemma MK_setup ps : Forall (fun p => Forall (nopush kobs) (p_setup p)) ps -> forall acc : st W * nat, MI (fst acc) ->
  MK (queue (fst acc)) (fst (fold_left setup_step ps acc)).
Proof.
  intros Hf acc H. apply (user_setup (fun _ => MK (queue (fst acc))) (nopush kobs)); [|exact Hf|].
  - intros p t e a s. apply MK_action.
  - split; [exact H|intros y _ Hy; exact Hy].
Qed.

Hypothesis Hmt : monitor_tb.

Lemma MK_run_prog p k t e s : MI s -> MK (queue s) (run_prog tb p k t e s).
Proof.
  intros H. apply (user_prog tb (fun _ => MK (queue s)) (nopush kobs)).
  - intros p0 t0 e0 a s0. apply MK_action.
  - intros _ w s0. apply MK_same; reflexivity.
  - apply (mt_progs Hmt).
  - split; [exact H|intros y _ Hy; exact Hy].
Qed.

Lemma MK_fire x s : MI s -> MK (queue s) (fire tb x s).
Proof.
  intros H. apply fire_inv.
  - apply (MK_run_prog _ _ _ _ (emit _ s)). exact H.
  - intros ddt s2 _ [A B]. split; [apply MI_post, A|].
    intros y Hp Hy. unfold post. destruct (Qltb _ _); cbn; auto.
  - intros s2. apply MK_same; reflexivity.
Qed.

Lemma MK_fire_event x t e s : MI s -> MK (queue s) (fire_event tb x t e s).
Proof.
  intros H. destruct x as [[pi j] ev]. unfold fire_event.
  exact (MK_same _ _ _ eq_refl eq_refl eq_refl (MK_run_prog pi (ev_prog ev) t e (emit _ s) H)).
Qed.

Lemma MI_discard s : MI s -> MI (discard s).
Proof.
  intros [Hw [Hi Hk]]. split; [apply (wfk_discard _ _ _ Hw)|split; [exact Hi|]].
  intros x Hx. apply Hk. exact (discard_dead_incl _ _ _ Hx).
Qed.

Lemma MI_pend_step h s0 : In h (queue s0) -> MI s0 ->
  MI (pend_step tb h s0) /\
  (forall y, e_prog y = kobs -> In y (queue s0) -> y = h \/ In y (queue (pend_step tb h s0))).
Proof.
  intros Hh [Hw [Hi Hk]]. unfold pend_step.
  set (s1 := set_clock (e_time h) (set_queue (remove_id (e_id h) (queue s0)) s0)).
  assert (HM1 : MI s1).
  { split; [apply (wfk_remove _ _ _ Hw)|split; [exact Hi|]]. intros x Hx. apply Hk. eapply remove_id_incl; exact Hx. }
  destruct (MK_fire h s1 HM1) as [A B]. split; [exact A|].
  intros y Hp Hy. destruct (Nat.eq_dec (e_id y) (e_id h)) as [E|E].
  - left. eapply NoDup_id_inj; [apply Hw|eassumption..].
  - right. apply B; [exact Hp|]. apply remove_id_keeps; assumption.
Qed.

(* PM, the progress of the monitor along its chain of entries: each is queued or has fired; a
   fired one has left its records and its successor *)
Definition kept (y : entry) s (lg : list entry) : Prop := In y (queue s) \/ In y lg.

Record PM s (lg : list entry) : Prop := {
  pm_mi : MI s;
  pm_first : exists m0, e_time m0 = 0 /\ e_prog m0 = kobs /\ e_rep m0 = Some delta /\ kept m0 s lg;
  pm_succ : forall x, In x lg -> e_prog x = kobs -> e_rep x = Some delta ->
            exists y, succ_of x delta y /\ kept y s lg;
  pm_rec : forall y, In y lg -> e_prog y = kobs -> e_rep y = Some delta ->
           exists sz a b, out s = a ++ trec y :: OObserve (e_time y) sz :: hrec y :: b }.

(* a step that keeps MI, loses no observe entry and only adds records keeps PM, provided the
   entries l it fires have left their records and queued their successors *)
Lemma PM_step s lg s' l : MI s' ->
  (forall y, e_prog y = kobs -> In y (queue s) -> In y (queue s') \/ In y l) ->
  (exists d, out s' = d ++ out s) ->
  (forall x, In x l -> e_prog x = kobs -> e_rep x = Some delta ->
     (exists y, succ_of x delta y /\ In y (queue s')) /\
     exists sz b, out s' = trec x :: OObserve (e_time x) sz :: hrec x :: b) ->
  PM s lg -> PM s' (lg ++ l).
Proof.
  intros A' K [d Ed] Hl [A B C D].
  assert (K' : forall y, e_prog y = kobs -> kept y s lg -> kept y s' (lg ++ l)).
  { intros y Hp [H|H]; [destruct (K y Hp H); [left|right; apply in_or_app; right]; assumption|].
    right. apply in_or_app. left. exact H. }
  split; [exact A'| | |].
  - destruct B as [m0 [B1 [B2 [B3 B4]]]]. exists m0. auto.
  - intros x Hx Hp Hr. apply in_app_or in Hx. destruct Hx as [Hx|Hx].
    + destruct (C x Hx Hp Hr) as [y [C1 C2]]. exists y. split; [exact C1|].
      apply K'; [|exact C2]. rewrite (proj1 (proj2 (succ_fields _ _ _ C1))). exact Hp.
    + destruct (proj1 (Hl x Hx Hp Hr)) as [y [S1 S2]]. exists y. split; [exact S1|left; exact S2].
  - intros y Hy Hp Hr. apply in_app_or in Hy. destruct Hy as [Hy|Hy].
    + destruct (D y Hy Hp Hr) as [sz [a [b E]]]. exists sz, (d ++ a), b. rewrite Ed, E, app_assoc. reflexivity.
    + destruct (proj2 (Hl y Hy Hp Hr)) as [sz [b E]]. exists sz, [], b. exact E.
Qed.

Lemma out_pend_step_obs h s0 : e_prog h = kobs -> e_rep h = Some delta ->
  out (pend_step tb h s0) = trec h :: OObserve (e_time h) (map (@length elem) (loci s0)) :: hrec h :: out s0.
Proof.
  intros Hp Hr. unfold pend_step, fire. rewrite Hr. unfold run_prog. rewrite Hp.
  cbn [loci world emit set_clock set_queue].
  pose proof (mt_obs Hmt (e_time h) (e_elem h) (loci s0) (world s0)) as Ho.
  destruct (prog_of tb kobs (e_time h) (e_elem h) (loci s0) (world s0)) as [w acts]. cbn [snd] in Ho. subst acts.
  unfold run_actions. cbn [fold_left do_action]. unfold post.
  cbn [clock emit set_world set_clock set_queue loci].
  assert (E : Qltb (Qred (e_time h + delta)) (e_time h) = false).
  { apply Qltb_false. rewrite Qred_correct. pose proof (mt_delta Hmt). lra. }
  rewrite E. cbn. unfold hrec, trec. rewrite Hp. reflexivity.
Qed.

Lemma PM_face s s' lg : face s' = face s -> PM s lg -> PM s' lg.
Proof.
  intros E H. destruct (face_eq _ _ E) as (En & Eq & _ & Ei & Eo). rewrite <- (app_nil_r lg).
  apply (PM_step s); [|rewrite Eq; auto|exists []; exact Eo|intros ? []|exact H].
  exact (MI_same s s' Eq En Ei (pm_mi _ _ H)).
Qed.

Lemma PM_discard s lg : PM s lg -> PM (discard s) lg.
Proof.
  intros H. rewrite <- (app_nil_r lg). pose proof (pm_mi _ _ H) as [Hw [_ Hk]].
  apply (PM_step s); [apply MI_discard, (pm_mi _ _ H)| |exists []; reflexivity|intros ? []|exact H].
  (* the observe entries are live, and discarding only drops dead ones *)
  intros y Hp Hy. left. apply discard_dead_keeps_live; [apply Hw|exact Hy|apply (Hk y Hy Hp)].
Qed.

Lemma PM_pend h s0 lg : head (queue s0) = Some h -> e_live h = true -> PM s0 lg -> PM (pend_step tb h s0) (lg ++ [h]).
Proof.
  intros Hh Hl H. destruct (MI_pend_step h s0 (head_in _ _ Hh) (pm_mi _ _ H)) as [A K].
  apply (PM_step s0); [exact A| | | |exact H].
  - intros y Hp Hy. destruct (K y Hp Hy) as [->|Hq]; [right; left; reflexivity|left; exact Hq].
  - destruct (fire_shape tb h (set_clock (e_time h) (set_queue (remove_id (e_id h) (queue s0)) s0))) as [l [_ E]].
    exists (trec h :: l ++ [OHandler (e_prog h) (e_time h) (e_time h) (e_elem h) None]).
    unfold pend_step. cbn [out emit app]. rewrite E, <- app_assoc. reflexivity.
  - (* when h is an entry of the monitor, its successor is queued and its records are the newest *)
    intros x [<-|[]] Hp Hr. split.
    + unfold pend_step. cbn [queue emit]. apply fire_succ; [exact Hr|apply Qlt_le_weak, (mt_delta Hmt)|cbn; lra].
    + rewrite (out_pend_step_obs h s0 Hp Hr). eauto.
Qed.

Lemma PM_event x t e s lg : PM s lg -> PM (fire_event tb x t e s) lg.
Proof.
  intros H. rewrite <- (app_nil_r lg). destruct (MK_fire_event x t e s (pm_mi _ _ H)) as [A K].
  apply (PM_step s); [exact A|intros y Hp Hy; left; exact (K y Hp Hy)| |intros ? []|exact H].
  destruct x as [[pi j] ev]. destruct (fire_event_spec tb pi j ev t e s) as [_ [l [_ E]]].
  eexists (_ :: l ++ [_]). cbn [app]. rewrite E, <- app_assoc. reflexivity.
Qed.

Definition PM_kinv : kinv tb PM :=
  {| k_face := PM_face; k_discard := PM_discard; k_pend := PM_pend; k_event := PM_event |}.

Lemma PM_setup rs ls ds : PM (setup_state tb rs ls ds) [].
Proof.
  destruct (mt_procs Hmt) as [pre [mp [pst [Ep [Es Hf]]]]].
  apply Forall_app in Hf. destruct Hf as [Hpre Hpst].
  rewrite setup_state_fold, Ep, fold_left_app. cbn [fold_left].
  destruct (MK_setup pre Hpre (init_state tb rs ls ds, 0%nat)) as [A _].
  { split; [split; constructor|split; intros ? []]. }
  set (a1 := fold_left setup_step pre (init_state tb rs ls ds, 0%nat)) in *.
  assert (Ec : clock (fst a1) = 0)
    by exact (core_clock (proj1 (setup_fold_umoves pre 0 (init_state tb rs ls ds)))).
  assert (A2 : MI (fst (setup_step a1 mp))).
  { unfold setup_step. cbn [fst]. rewrite Es. apply MI_do_action; [exact I|exact A]. }
  destruct (MK_setup pst Hpst (setup_step a1 mp) A2) as [B K].
  split; [exact B| |intros ? []|intros ? []].
  exists (mk_entry 0 (nextid (fst a1)) (snd a1) (EN 0) kobs (Some delta)).
  split; [reflexivity|split; [reflexivity|split; [reflexivity|]]]. left. apply K; [reflexivity|].
  unfold setup_step. cbn [fst]. rewrite Es. unfold run_actions. cbn [fold_left do_action]. unfold post.
  rewrite Ec. cbn. left. reflexivity.
Qed.

Lemma PM_stoch_run pf fuel rs ls ds : PM (r_final (stoch_run tb pf fuel rs ls ds)) (stoch_fired tb pf fuel rs ls ds).
Proof. exact (lift_stoch_run tb _ PM_kinv pf fuel rs ls ds (PM_setup rs ls ds)). Qed.

Lemma PM_sync_run pf fuel rs ds : PM (r_final (sync_run tb pf fuel rs ds)) (sync_fired tb pf fuel rs ds).
Proof. exact (lift_sync_run tb _ PM_kinv pf fuel rs ds (PM_setup rs [] ds)). Qed.

(* the chain 0, delta, 2 delta, ...: whatever is due strictly before a bound that no live entry
   precedes has fired *)
Lemma PM_chain s lg B : PM s lg ->
  (forall x, In x (queue s) -> e_live x = true -> B <= e_time x) ->
  forall k : nat, inject_Z (Z.of_nat k) * delta < B ->
  exists y, In y lg /\ e_time y == inject_Z (Z.of_nat k) * delta /\ e_prog y = kobs /\ e_rep y = Some delta.
Proof.
  intros [A [m0 [M1 [M2 [M3 M4]]]] C D] HB. destruct A as [_ [_ Hk]].
  induction k as [|k IH]; intros Hlt.
  - exists m0. rewrite inj_nat_0 in *. split; [|split; [rewrite M1; lra|auto]].
    destruct M4 as [H|H]; [|exact H]. exfalso.
    pose proof (HB m0 H (proj1 (Hk m0 H M2))) as Hle. rewrite M1 in Hle. lra.
  - rewrite inj_nat_S in Hlt. pose proof (mt_delta Hmt) as Hd.
    destruct IH as [y [Hy [Ty [Py Ry]]]]; [lra|].
    destruct (C y Hy Py Ry) as [z [Sz Kz]]. destruct (succ_fields _ _ _ Sz) as [F1 [F2 [F3 [F4 [F5 F6]]]]].
    assert (Tz : e_time z == inject_Z (Z.of_nat (S k)) * delta) by (rewrite F1, Qred_correct, Ty, inj_nat_S; ring).
    exists z. split; [|split; [exact Tz|split; congruence]].
    destruct Kz as [H|H]; [|exact H]. exfalso.
    pose proof (HB z H F6) as Hle. rewrite Tz, inj_nat_S in Hle. lra.
Qed.

(* ... and has left, consecutively in the order of r_out, its handler record, one observation with
   one size per locus, and its tap *)
Lemma chain_observed n s lg B : JK n s -> PM s lg ->
  (forall x, In x (queue s) -> e_live x = true -> B <= e_time x) ->
  forall k : nat, inject_Z (Z.of_nat k) * delta < B ->
  exists y sz pre suf, In y lg /\ e_time y == inject_Z (Z.of_nat k) * delta /\ e_prog y = kobs /\
    rev (out s) = pre ++ hrec y :: OObserve (e_time y) sz :: trec y :: suf /\ length sz = n.
Proof.
  intros HJ P HB k Hk. destruct (PM_chain s lg B P HB k Hk) as [y [Hy [Ty [Py Ry]]]].
  destruct (pm_rec _ _ P y Hy Py Ry) as [sz [a [b E]]].
  assert (E' : rev (out s) = (rev b ++ [hrec y]) ++ OObserve (e_time y) sz :: trec y :: rev a).
  { rewrite E, rev_app_distr. cbn. rewrite <- !app_assoc. reflexivity. }
  exists y, sz, (rev b), (rev a). split; [exact Hy|split; [exact Ty|split; [exact Py|split]]].
  - rewrite E', <- app_assoc. reflexivity.
  - exact (proj2 (obs_record n s _ _ sz _ HJ E')).
Qed.

End Mon.

Lemma lht_last pre : filter is_handler pre <> [] ->
  lht (rev pre) = last (map time_of (filter is_handler pre)) 0.
Proof.
  induction pre as [|x pre IH] using rev_ind; [intros H; contradiction H; reflexivity|].
  intros Hne. rewrite rev_app_distr. cbn [rev app]. rewrite filter_app in *. cbn [filter] in *.
  destruct (is_handler x) eqn:Hx.
  - rewrite map_app. cbn [map]. rewrite last_last. destruct x; try discriminate Hx. reflexivity.
  - rewrite app_nil_r in *. rewrite (lht_skip x _ Hx). exact (IH Hne).
Qed.

Lemma sorted_app_last l1 l2 : StronglySorted Qle (l1 ++ l2) -> l1 <> [] ->
  (forall a, In a l1 -> a <= last l1 0) /\ (forall b, In b l2 -> last l1 0 <= b).
Proof.
  intros Hs Hne. destruct (exists_last Hne) as [l1' [m ->]]. rewrite last_last. rewrite <- app_assoc in Hs. cbn in Hs. clear Hne. split.
  - intros a Ha. apply in_app_or in Ha. destruct Ha as [Ha|[<-|[]]]; [|apply Qle_refl].
    induction l1' as [|x l IH]; [destruct Ha|]. cbn in Hs. inversion Hs as [|? ? Hs' Hf]; subst.
    destruct Ha as [<-|Ha]; [|apply IH; assumption]. rewrite Forall_forall in Hf. apply Hf. apply in_or_app. right. left. reflexivity.
  - intros b Hb. induction l1' as [|x l IH]; cbn in Hs; inversion Hs as [|? ? Hs' Hf]; subst; [|apply IH; assumption].
    rewrite Forall_forall in Hf. apply Hf, Hb.
Qed.

(* an observation made from a handler sits after every handler call with an earlier time and
   before every one with a later time *)
Lemma obs_value {W} n L (s : st W) pre tau sz suf : JK n s -> tinv_st L s ->
  rev (out s) = pre ++ OObserve tau sz :: suf -> filter is_handler pre <> [] ->
  (forall k t c e m, In (OHandler k t c e m) pre -> t <= tau) /\
  (forall k t c e m, In (OHandler k t c e m) suf -> tau <= t).
Proof.
  intros HJ T E Hne.
  assert (Hs : StronglySorted Qle (map time_of (filter is_handler (rev (out s))))).
  { apply handler_times_sorted. rewrite obs_times_rev. exact (proj1 (desc_rev _ _ (t_desc T))). }
  rewrite E, filter_app, map_app in Hs. cbn [filter is_handler] in Hs.
  pose proof (proj1 (obs_record n s pre tau sz suf HJ E)) as Ht. rewrite (lht_last pre Hne) in Ht.
  assert (Hne' : map time_of (filter is_handler pre) <> []) by (destruct (filter is_handler pre); [contradiction Hne; reflexivity|discriminate]).
  destruct (sorted_app_last _ _ Hs Hne') as [A B]. rewrite <- Ht in A, B. split.
  - intros k t c e m Hi. apply A. apply (in_map time_of _ (OHandler k t c e m)). apply filter_In. auto.
  - intros k t c e m Hi. apply B. apply (in_map time_of _ (OHandler k t c e m)). apply filter_In. auto.
Qed.

(* lhr, last handler record (newest first) *)
Fixpoint lhr (o : list obs) : option obs :=
  match o with
  | [] => None
  | OHandler k t c e m :: _ => Some (OHandler k t c e m)
  | _ :: o' => lhr o'
  end.

Lemma lhr_skip x o : is_handler x = false -> lhr (x :: o) = lhr o.
Proof. destruct x; [discriminate|reflexivity..]. Qed.

Lemma lhr_lht o k t c e m : lhr o = Some (OHandler k t c e m) -> lht o = t /\ In (OHandler k t c e m) o.
Proof.
  induction o as [|x o IH]; [discriminate|]. destruct (is_handler x) eqn:Hx.
  - destruct x; try discriminate Hx. cbn. intros [= -> -> -> -> ->]. split; [reflexivity|left; reflexivity].
  - rewrite (lht_skip x o Hx), (lhr_skip x o Hx). intros H. destruct (IH H) as [A B]. split; [exact A|right; exact B].
Qed.

Section Only.
Context {W : Type}.
Implicit Types s : st W.
Variable tb : table W.
Variable delta : Q.
Variable kobs : nat.

Definition chain (t : Q) : Prop := exists k : nat, t == inject_Z (Z.of_nat k) * delta.

Record monitor_only : Prop := {
  mo_delta : 0 < delta;
  mo_procs : exists pre mp pst, t_procs tb = pre ++ mp :: pst /\ p_setup mp = [APostRep 0 delta kobs] /\
             Forall (fun p => Forall (noposts kobs) (p_setup p)) (pre ++ pst);
  mo_progs : forall k t e l w, Forall (noposts kobs) (snd (prog_of tb k t e l w)) }.

Lemma monitor_only_tb : monitor_only -> (forall t e l w, snd (prog_of tb kobs t e l w) = [AObserve]) ->
  monitor_tb tb delta kobs.
Proof.
  intros [Hd (pre & mp & pst & Ep & Es & Hf) Hp] Ho. split; [exact Hd| |exact Ho|].
  - exists pre, mp, pst. split; [exact Ep|split; [exact Es|]].
    eapply Forall_impl; [|exact Hf]. intros p. apply Forall_impl, noposts_nopush.
  - intros k t e l w. eapply Forall_impl; [apply noposts_nopush|apply Hp].
Qed.

(* QC, queue and calls at chain times: every entry running the observe program repeats with period
   delta from a time k * delta, and every posted call of it was at such a time *)
Definition QC s : Prop :=
  (forall x, In x (queue s) -> e_prog x = kobs -> e_rep x = Some delta /\ chain (e_time x)) /\
  (forall t c e, In (OHandler kobs t c e None) (out s) -> chain t).

Lemma QC_same s s' : queue s' = queue s -> out s' = out s -> QC s -> QC s'.
Proof. unfold QC. intros -> ->. auto. Qed.

Lemma QC_emit x s : (forall t c e, x <> OHandler kobs t c e None) -> QC s -> QC (emit x s).
Proof.
  intros Hx [A B]. split; [exact A|]. cbn. intros t c e [E|H]; [exfalso; eapply Hx; exact E|eauto].
Qed.

Lemma QC_post t p e prog rep s : (prog = kobs -> rep = Some delta /\ chain t) -> QC s ->
  QC (snd (post t p e prog rep s)).
Proof.
  intros Hn [A B]. unfold post. destruct (Qltb t (clock s)); cbn [snd]; [split; assumption|].
  split; [|exact B]. cbn. intros x [<-|Hx] Hp; [cbn in *; auto|auto].
Qed.

Lemma QC_do_action p t e a s : noposts kobs a -> QC s -> QC (do_action p t e a s).
Proof.
  intros Ha [A B]. split.
  - apply (do_action_queue (fun q _ _ => forall x, In x q -> e_prog x = kobs -> e_rep x = Some delta /\ chain (e_time x))).
    + exact A.
    + intros i _ y Hy Hp. apply kill_in in Hy. destruct Hy as [[Hy _]|[z [Hz [_ ->]]]]; [auto|exact (A z Hz Hp)].
    + intros y _ _ Hy x [<-|Hx] Hp; [destruct (Hy kobs Ha Hp)|auto].
    + intros y _ _ Hy x [<-|Hx] Hp; [destruct (Hy kobs (noposts_nopush _ _ Ha) Hp)|auto].
  - apply (do_action_notes (fun o _ => forall t0 c e0, In (OHandler kobs t0 c e0 None) o -> chain t0)); [exact B|..|auto].
    + intros x Hx t0 c e0 [E|H]; [subst x; destruct Hx|eauto].
    + intros t0 c e0 [E|H]; [discriminate|eauto].
Qed.

Hypothesis Hmo : monitor_only.

Lemma QC_run_prog p k t e s : QC s -> QC (run_prog tb p k t e s).
Proof.
  apply (user_prog tb (fun _ => QC) (noposts kobs)); [intros p0 t0 e0 a s0; apply QC_do_action| |apply (mo_progs Hmo)].
  intros _ w s0. apply QC_same; reflexivity.
Qed.

Lemma chain_succ t : chain t -> chain (Qred (t + delta)).
Proof. intros [k Hk]. exists (S k). rewrite Qred_correct, Hk, inj_nat_S. ring. Qed.

Lemma QC_kinv : kinv tb (fun s _ => QC s).
Proof.
  split.
  - (* same face *) intros s s' _ E. destruct (face_eq _ _ E) as (_ & Eq & _ & _ & Eo). apply QC_same; assumption.
  - (* discard *) intros s _ [A B]. split; [|exact B]. intros x Hx. apply A. exact (discard_dead_incl _ _ _ Hx).
  - (* the live head fires: its handler record is at a chain time when it runs the observe program,
       and so is its successor *)
    intros h s0 _ Hh _ [A B]. unfold pend_step, trec. apply QC_emit; [intros; discriminate|].
    pose proof (fun Hp => A h (head_in _ _ Hh) Hp) as Hc. apply fire_inv.
    + apply QC_run_prog. split.
      * intros x Hx. apply A. exact (remove_id_incl _ _ _ Hx).
      * cbn. intros t c e [E|H]; [|eauto]. injection E as E1 E2 _ _. subst t. apply Hc, E1.
    + intros ddt s2 Hr. apply QC_post. intros Hp. destruct (Hc Hp) as [R C].
      rewrite Hr in R. injection R as ->. split; [reflexivity|apply chain_succ, C].
    + intros s2. apply QC_emit. intros; discriminate.
  - (* a stochastic event fires *)
    intros x t e s _ HQ. destruct x as [[pi j] ev]. unfold fire_event. apply QC_emit; [intros; discriminate|].
    apply QC_run_prog. apply QC_emit; [intros; discriminate|exact HQ].
Qed.

Lemma QC_setup rs ls ds : QC (setup_state tb rs ls ds).
Proof.
  destruct (mo_procs Hmo) as [pre [mp [pst [Ep [Es Hf]]]]].
  apply Forall_app in Hf. destruct Hf as [Hpre Hpst].
  pose proof (user_setup (fun _ => QC) (noposts kobs) (fun p t e a s => QC_do_action p t e a s)) as Hs.
  rewrite setup_state_fold, Ep, fold_left_app. cbn [fold_left]. apply (Hs pst Hpst).
  unfold setup_step at 1. cbn [fst]. rewrite Es. unfold run_actions. cbn [fold_left do_action].
  assert (A : QC (snd (post (Qred (0 + 0)) (snd (fold_left setup_step pre (init_state tb rs ls ds, 0%nat))) (EN 0) kobs (Some delta)
                        (fst (fold_left setup_step pre (init_state tb rs ls ds, 0%nat)))))).
  { apply QC_post; [intros _; split; [reflexivity|exists 0%nat; reflexivity]|].
    apply (Hs pre Hpre). split; [intros ? []|intros ? ? ? []]. }
  destruct (post _ _ _ _ _ _) as [[i|] s']; apply QC_emit; try (intros; discriminate); exact A.
Qed.

Lemma QC_stoch_run pf fuel rs ls ds : QC (r_final (stoch_run tb pf fuel rs ls ds)).
Proof. exact (lift_stoch_run tb _ QC_kinv pf fuel rs ls ds (QC_setup rs ls ds)). Qed.

Lemma QC_sync_run pf fuel rs ds : QC (r_final (sync_run tb pf fuel rs ds)).
Proof. exact (lift_sync_run tb _ QC_kinv pf fuel rs ds (QC_setup rs [] ds)). Qed.

(* an observation made inside a posted call of the observe program is at a chain time *)
Lemma obs_chain n s pre t sz suf t' c e : JK n s -> QC s ->
  rev (out s) = pre ++ OObserve t sz :: suf ->
  lhr (rev pre) = Some (OHandler kobs t' c e None) -> chain t.
Proof.
  intros HJ HQ E Hl. destruct (lhr_lht _ _ _ _ _ _ Hl) as [A B].
  rewrite (proj1 (obs_record n s pre t sz suf HJ E)), A.
  apply (proj2 HQ t' c e). apply in_rev. rewrite E. apply in_or_app. left. apply in_rev. exact B.
Qed.

End Only.
