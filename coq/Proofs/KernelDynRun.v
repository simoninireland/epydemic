(* Whole runs of the dynamic kernel, read off the output stream: the membership flag of every
   event function entered from the scheduler, and the correspondence between the event taps of a
   run and its calls (so that "this entry fired" has a meaning in terms of what user code
   observes).  For every user state W, dynamic table D, oracle and fuel. *)
From Coq Require Import List ZArith QArith Qabs Bool Arith Lia.
From EpyV Require Import Model.Kernel Model.KernelDyn Proofs.KernelBase Proofs.KernelLoops Proofs.KernelMember
  Proofs.KernelSync Proofs.CompartSort Proofs.CompartRun Proofs.CompartInv Proofs.KernelDyn Proofs.KernelDynLoops.
Import ListNotations.
Open Scope Q_scope.

Section DR.
Context {W : Type}.
Variable D : dtable W.
Notation tb := (d_tb D).
Implicit Types s : st W.

Lemma dsync_run_out pf fuel rs ds : r_out (dsync_run D pf fuel rs ds) = rev (out (r_final (dsync_run D pf fuel rs ds))).
Proof. unfold dsync_run. destruct (dsync_loop D pf fuel 1 0 0 _) as [[[t ev] k] s]. reflexivity. Qed.

Lemma dstoch_run_out pf fuel rs ls ds : r_out (dstoch_run D pf fuel rs ls ds) = rev (out (r_final (dstoch_run D pf fuel rs ls ds))).
Proof. unfold dstoch_run. destruct (dstoch_loop D pf fuel 0 0 _) as [[t ev] s]. reflexivity. Qed.

Lemma DSteps_member_true Xtr rs ls ds cs s k t c e m : DSteps D Xtr (setup_state tb rs ls ds) cs s ->
  In (OHandler k t c e (Some m)) (out s) -> m = true.
Proof.
  intros Hs H. pose proof (DSteps_member D _ _ _ _ Hs (setup_member D rs ls ds)) as F.
  rewrite Forall_forall in F. destruct (F _ H) as [E|E]; [discriminate | inversion E; reflexivity].
Qed.

(* synchronous dynamics: the loop over the tranche re-checks *)
Theorem dsync_run_member pf fuel rs ds k t c e m :
  In (OHandler k t c e (Some m)) (r_out (dsync_run D pf fuel rs ds)) -> m = true.
Proof.
  intros H. rewrite dsync_run_out in H. apply in_rev in H.
  destruct (dsync_run_dsteps D pf fuel rs ds) as [cs Hs]. exact (DSteps_member_true _ _ _ _ _ _ _ _ _ _ _ Hs H).
Qed.

(* stochastic dynamics, since repair F15: the Gillespie loop tests `len(l) > 0` after the posted events
   of the interval ran; for an appended entry that is its membership test on the current state *)
Theorem dstoch_run_member pf fuel rs ls ds k t c e m :
  In (OHandler k t c e (Some m)) (r_out (dstoch_run D pf fuel rs ls ds)) -> m = true.
Proof.
  intros H. rewrite dstoch_run_out in H. apply in_rev in H.
  destruct (dstoch_run_reach D pf fuel rs ls ds) as [cs Hs].
  exact (DSteps_member_true _ _ _ _ _ _ _ _ _ _ _ Hs H).
Qed.

(* the taps of stochastic / per-element events, newest first: time, process, event index, element *)
Definition ev_taps (o : list obs) : list (Q * nat * nat * elem) :=
  flat_map (fun x => match x with OTap t pi (NEv _ j) e => [(t, pi, j, e)] | _ => [] end) o.

Definition call_tap (c : @dcall W) : list (Q * nat * nat * elem) :=
  match c with
  | DEv x t e => [(t, fst (fst x), snd (fst x), e)]
  | DDyn pi d t => [(t, pi, de_name d, de_value d)]
  | DPost _ => []
  end.

Lemma ev_taps_app a b : ev_taps (a ++ b) = ev_taps a ++ ev_taps b.
Proof. unfold ev_taps. apply flat_map_app. Qed.

Lemma ev_taps_act l : Forall act_obs l -> ev_taps l = [].
Proof.
  induction l as [|x l IH]; intros H; [reflexivity|]. inversion H as [|? ? Hx H']; subst.
  cbn [ev_taps flat_map]. fold (ev_taps l). rewrite (IH H'). destruct x; cbn in Hx; try contradiction; reflexivity.
Qed.

Lemma dafter_ev_taps c s : ev_taps (out (dafter D c s)) = call_tap c ++ ev_taps (out s).
Proof.
  destruct (dafter_out D c s) as [l [A ->]].
  change (dtap c :: l ++ drec c s :: out s) with ([dtap c] ++ l ++ [drec c s] ++ out s).
  rewrite !ev_taps_app, (ev_taps_act l A). destruct c; reflexivity.
Qed.

Lemma DSteps_ev_taps Xtr s0 cs s : DSteps D Xtr s0 cs s ->
  ev_taps (out s) = rev (flat_map (fun sc => call_tap (snd sc)) cs) ++ ev_taps (out s0).
Proof.
  intros H. induction H as [|cs s s' H IH Hs|cs s c H IH Hok]; [reflexivity| |].
  - rewrite (dsched_out Hs). exact IH.
  - rewrite dafter_ev_taps, IH, flat_map_app, rev_app_distr. cbn [flat_map]. rewrite app_nil_r.
    destruct c; cbn [call_tap snd rev app]; reflexivity.
Qed.

(* what is known of a fired event named (pi, j) on element e: it is a registered event of positive
   probability, or an appended entry of positive probability that some state generated, called on its own value *)
Definition fired_dyn_ok (pi j : nat) (e : elem) : Prop :=
  (exists ev, In (pi, j, ev) (all_events tb) /\ 0 < ev_p ev) \/
  (exists d, dyn_range D pi d /\ de_name d = j /\ de_value d = e /\ 0 < de_p d).

(* in a run whose calls were all selected with positive probability, a tapped stochastic / per-element
   event is the tap of one of its calls *)
Lemma DSteps_fired rs ls ds cs s t pi j e : DSteps D Xpos (setup_state tb rs ls ds) cs s ->
  In (OTap t pi (NEv pi j) e) (out s) -> fired_dyn_ok pi j e.
Proof.
  intros H Hin.
  assert (Ht : In (t, pi, j, e) (ev_taps (out s))).
  { unfold ev_taps. apply in_flat_map. exists (OTap t pi (NEv pi j) e). split; [exact Hin | left; reflexivity]. }
  rewrite (DSteps_ev_taps Xpos _ cs s H), (ev_taps_act _ (proj1 (setup_state_out tb rs ls ds))), app_nil_r in Ht.
  apply in_rev, in_flat_map in Ht. destruct Ht as [[s1 c] [Hsc Hc]].
  pose proof (DSteps_calls D Xpos _ cs s H) as F. rewrite Forall_forall in F. pose proof (F _ Hsc) as Hok.
  destruct c as [[[pi' j'] ev] t' e'|pi' d t'|h]; cbn [call_tap fst snd] in Hc, Hok; [| |destruct Hc].
  - destruct Hc as [Hc|[]]. inversion Hc; subst. destruct Hok as (Hx & _ & _ & Hp). left. exists ev. split; [exact Hx | exact Hp].
  - destruct Hc as [Hc|[]]. inversion Hc; subst. destruct Hok as (Hr & _ & _ & Hp). right. exists d. repeat split; assumption.
Qed.

(* with probabilities >= 0 in every distribution and uniform variates in [0,1): a run in which every
   call was selected with positive probability *)
Theorem dstoch_run_dsteps_pos pf fuel rs ls ds :
  (forall lc w, dnonneg D lc w) -> Forall unit_rand rs ->
  exists cs, DSteps D (Xpos) (setup_state tb rs ls ds) cs (r_final (dstoch_run D pf fuel rs ls ds)).
Proof.
  intros Hnn Hr.
  apply (dstoch_run_dsteps D (Forall unit_rand) Xpos); [| |exact Hr].
  - intros n l. apply Forall_skipn.
  - intros s x dt s3 Hrs Ha E. exact (proj2 (dstoch_select_pos D s x dt s3 (Hnn _ _) Hrs Ha E)).
Qed.

End DR.
