(* SIR_VariableInfection: the example table and runs that the statements of Properties/C07.v and C08.v about
   whole runs of the dynamic kernel are shown on.  Those run-level statements (the contact forest [VForest]
   along every run of [mk_vitable vm ...] under both dynamics, quiescence of the Gillespie loop, the counts of
   the final state, the posted-removal subclass) stand in Properties/C07.v and Properties/C08.v. *)
From Coq Require Import List ZArith QArith Bool.
From EpyV Require Import Model.Kernel Model.KernelDyn Model.Loci Model.Compart Model.CompartVI Proofs.CompartInv
  Proofs.CompartDiagram Proofs.ContactInv Proofs.ContactVI Proofs.CompartVIQuiet.
Import ListNotations.
Open Scope Q_scope.

(* path 0 - 1 - 2, node 0 infected; infectivities 1/2 on (0,1), 1/4 on (1,2); pRemove = 1/4 *)
Definition ex8 (mon : option Q) : dtable viworld :=
  mk_vitable (sir_vi (1#4)) [0; 1; 2]%Z [(0, 1); (1, 2)]%Z [(0, 1); (1, 3); (2, 3)]%Z
             (initial_infectivities [(0, 1); (1, 2)]%Z [1#2; 1#4]) 5 mon.

Example CVI8_example_hyps :
  wf_model (vi_fcm (sir_vi (1#4))) = true /\ once_model (vi_fcm (sir_vi (1#4))) = true
  /\ graph_okb [0; 1; 2]%Z [(0, 1); (1, 2)]%Z = true /\ init_ok (vi_fcm (sir_vi (1#4))) [0; 1; 2]%Z [(0, 1); (1, 3); (2, 3)]%Z = true.
Proof. repeat split. Qed.
Print Assumptions CVI8_example_hyps.

(* Gillespie: 0 infects 1 at 1/2, 0 is removed at 3/2, 1 infects 2 at 7/2 *)
Example CVI8_example_stoch :
  let r := dstoch_run (ex8 None) 50 50 [1#2; 1#2; 1#2; 1#2; 1#2; 1#2; 1#2; 1#2] [3#8; 3#4; 1; 3] [0%nat; 0%nat] in
  let w := vi_base (world (r_final r)) in
  r_stuck r = false /\ cw_occ w = [((1, 0)%Z, 1 # 2); ((2, 1)%Z, 7 # 2)] /\ cw_hit w = [(1%Z, 1 # 2); (2%Z, 7 # 2)]
  /\ skeleton w = ([0; 1; 2], [(0, 1); (1, 2)])%Z /\ Forall (Qlt 0) [3#8; 3#4; 1; 3].
Proof. cbv zeta. repeat split; try (vm_compute; reflexivity). repeat constructor. Qed.
Print Assumptions CVI8_example_stoch.

(* synchronous: 0 infects 1 in step 1, 1 infects 2 in step 2 *)
Example CVI8_example_sync :
  let r := dsync_run (ex8 None) 50 50 [1#2; 1#4; 1#2; 1#2; 1#8; 1#2; 1#2; 1#2; 1#2; 1#2; 1#2; 1#2; 1#2] [] in
  let w := vi_base (world (r_final r)) in
  r_stuck r = false /\ cw_occ w = [((1, 0)%Z, 1); ((2, 1)%Z, 2)] /\ cw_hit w = [(1%Z, 1); (2%Z, 2)]
  /\ skeleton w = ([0; 1; 2], [(0, 1); (1, 2)])%Z.
Proof. cbv zeta. repeat split; vm_compute; reflexivity. Qed.
Print Assumptions CVI8_example_sync.

(* quiescence: path 0 - 1, node 0 infected, infectivity 0 on the edge, pRemove = 1: the only possible event is the
   removal of 0 (at time 1); then the total rate is 0 with nothing pending and the loop exits at 1 < maximumTime,
   with no infected node and no S-I edge *)
Example CVI7_example_quiescent :
  let D := mk_vitable (sir_vi 1) [0; 1]%Z [(0, 1)]%Z [(0, 1); (1, 3)]%Z (initial_infectivities [(0, 1)]%Z [0]) 3 None in
  let r := dstoch_run D 50 50 [1#2; 1#2; 1#2] [1; 1] [0%nat] in
  r_stuck r = false /\ r_time r = 1 /\ r_events r = 1%nat
  /\ loci (r_final r) = [[]; []]
  /\ map (getc (cw_st (vi_base (world (r_final r))))) [0; 1]%Z = [Some 2; Some 3]%Z
  /\ Qeq_bool (dsum_rates (r_final r) (dtransitions D (loci (r_final r)) (world (r_final r)))) 0 = true
  /\ vi_nonneg (sir_vi 1) (world (r_final r)).
Proof.
  cbv zeta. repeat split; try (vm_compute; reflexivity).
  - intros ev [<-|[]]. vm_compute. discriminate.
  - intros x Hx. vm_compute in Hx. destruct Hx as [<-|[]]. vm_compute. discriminate.
Qed.
Print Assumptions CVI7_example_quiescent.
