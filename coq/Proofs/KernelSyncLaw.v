(* The one-step law of the synchronous model: the variates consumed by a timestep are replaced
   by every pattern of trial outcomes, weighted as independent Bernoulli trials
   (Proofs/Binomial.v), and pushed through tranche / fire_tranche of Model/Kernel.v; the laws
   select_dist and step_dist script the per-element trials only, and select_dist_single is for a
   table with one per-element event and no fixed-rate event (Proofs/KernelSyncLawAll.v has every table).
   A success is scripted as the variate 0 (0 <= p), a failure as 2 (not 2 <= p for p < 2).
   The file also holds what the Examples of Properties/C06.v are stated with: product laws (indep,
   two), the comparison of two laws on a finite universe (assignments, same_law) and the shipped SIR
   table with the law of its first timestep (sir, sir_table, comps_of, sir_step). *)
From Coq Require Import List ZArith QArith Bool Arith Lia.
From EpyV Require Model.Loci.
From EpyV Require Import Lib.Prelude Model.Kernel Model.Compart Proofs.KernelMember Proofs.KernelSync Proofs.Binomial.
Import ListNotations.
Open Scope Q_scope.

(* independent trials with probabilities ps *)
Fixpoint patterns (ps : list Q) : dist (list bool) :=
  match ps with
  | [] => ret []
  | p :: ps' => bind (trial p) (fun b => bind (patterns ps') (fun m => ret (b :: m)))
  end.

Definition rands_of (m : list bool) : list Q := map (fun b : bool => if b then 0 else 2) m.

(* independent components: the product law *)
Fixpoint indep {A} (ds : list (dist A)) : dist (list A) :=
  match ds with
  | [] => ret []
  | d :: ds' => bind d (fun c => bind (indep ds') (fun l => ret (c :: l)))
  end.

Fixpoint assignments {A} (cs : list A) (n : nat) : list (list A) :=
  match n with
  | O => [[]]
  | S n' => flat_map (fun c => map (cons c) (assignments cs n')) cs
  end.

(* two laws over lists of integers agree on every point of univ, and d1 has no mass elsewhere *)
Definition same_law (univ : list (list Z)) (d1 d2 : dist (list Z)) : bool :=
  forallb (fun x => Qeq_bool (prob (list_eqb Z.eqb x) d1) (prob (list_eqb Z.eqb x) d2)) univ
  && Qeq_bool (prob (fun y => existsb (list_eqb Z.eqb y) univ) d1) 1
  && Qeq_bool (mass d1) 1 && Qeq_bool (mass d2) 1.

Lemma patterns_repeat : forall n p, patterns (repeat p n) = masks n p.
Proof. induction n as [|n IH]; intros p; [reflexivity|]. cbn [repeat patterns masks]. rewrite IH. reflexivity. Qed.

Lemma scripted : forall p (b : bool), 0 <= p -> p < 2 -> Qle_bool (if b then 0 else 2) p = b.
Proof.
  intros p [|] H0 H2; [apply Qle_bool_iff; exact H0|].
  destruct (Qle_bool 2 p) eqn:E; [|reflexivity]. apply Qle_bool_iff in E. exfalso. exact (Qlt_not_le _ _ H2 E).
Qed.

Lemma outcomes_rands_of : forall p m, 0 <= p -> p < 2 -> outcomes p (length m) (rands_of m) = m.
Proof.
  intros p m H0 H2. induction m as [|b m IH]; [reflexivity|].
  cbn [length rands_of map outcomes hd tl]. fold (rands_of m). rewrite IH, (scripted p b H0 H2). reflexivity.
Qed.

Section Law.
Context {W : Type}.
Notation st := (st W).
Variable tb : table W.

(* the probability of each trial of a timestep, in the order the variates are consumed *)
Definition trial_probs (lc : list (list elem)) : list Q :=
  flat_map (fun x => repeat (ev_p (snd x)) (length (block lc x))) (per_element tb).

Definition with_rands (rs : list Q) (s : st) : st := set_oracle rs (lns s) (draws s) s.

(* the part of a timestep after the posted events: draw the tranche, fire it *)
Definition tranche_step (t : Q) (n : nat) (s : st) : nat * st :=
  let '(evs, s2) := tranche tb s in fire_tranche tb t evs n s2.

Lemma sync_step_tranche_step : forall pf t s,
  sync_step tb pf t s =
  tranche_step t (fst (run_pending tb pf t 0 (set_clock t s))) (set_clock t (snd (run_pending tb pf t 0 (set_clock t s)))).
Proof.
  intros pf t s. unfold sync_step, tranche_step. destruct (run_pending tb pf t 0 (set_clock t s)) as [n s1].
  reflexivity.
Qed.

(* the law of what is selected, and of (a view of) the state after the step *)
Definition select_dist (s : st) : dist (list (xev * elem)) :=
  bind (patterns (trial_probs (loci s))) (fun m => ret (fst (tranche tb (with_rands (rands_of m) s)))).

Definition step_dist {A} (t : Q) (s : st) (view : st -> A) : dist A :=
  bind (patterns (trial_probs (loci s))) (fun m => ret (view (snd (tranche_step t 0 (with_rands (rands_of m) s))))).

Lemma trials_length : forall lc (evs : list xev),
  length (flat_map (fun x => repeat (ev_p (snd x)) (length (block lc x))) evs) = count_elem lc evs.
Proof.
  intros lc. induction evs as [|x evs IH]; [reflexivity|].
  cbn [flat_map count_elem]. rewrite app_length, repeat_length, IH. reflexivity.
Qed.

Lemma count_elem_trial_probs : forall lc, length (trial_probs lc) = count_elem lc (per_element tb).
Proof. intros lc. apply trials_length. Qed.

(* without fixed-rate events every variate a timestep consumes is one of these trials *)
Lemma trial_probs_all : forall lc, fixed_rate tb = [] -> length (trial_probs lc) = tranche_rands tb lc.
Proof.
  intros lc H. unfold tranche_rands, count_fixed. rewrite H, count_elem_trial_probs. cbn [filter length]. lia.
Qed.

(* One per-element event and nothing else: the selected list is the image of |locus| independent
   Bernoulli(p) trials, each element kept iff its trial succeeds (selected_dist of Binomial.v). *)
Theorem select_dist_single : forall (s : st) x, per_element tb = [x] -> fixed_rate tb = [] ->
  active (loci s) x = true -> 0 <= ev_p (snd x) -> ev_p (snd x) < 2 ->
  forall P, prob P (select_dist s) == prob P (selected_dist x (ev_p (snd x)) (lookup (loci s) x)).
Proof.
  intros s x Hpe Hfr Ha H0 H2 P. unfold select_dist, selected_dist, trial_probs.
  rewrite Hpe. cbn [flat_map]. rewrite app_nil_r. unfold block. rewrite Ha, patterns_repeat, !prob_bind_ret.
  apply prob_ext_In. intros m q Hin. f_equal.
  rewrite tranche_spec. cbn [fst]. unfold spec_tranche. rewrite Hpe, Hfr.
  cbn [spec_elem spec_fixed with_rands set_oracle loci rands]. rewrite !app_nil_r.
  unfold block. rewrite Ha, spec_trials_pick.
  rewrite <- (supp_in (masks_length _ _) Hin), (outcomes_rands_of _ m H0 H2). reflexivity.
Qed.

Corollary select_count_binomial : forall (s : st) x, per_element tb = [x] -> fixed_rate tb = [] ->
  active (loci s) x = true -> 0 <= ev_p (snd x) -> ev_p (snd x) < 2 ->
  forall k, prob (fun sel => Nat.eqb k (length sel)) (select_dist s) ==
            binomial_pmf (length (lookup (loci s) x)) (ev_p (snd x)) k.
Proof.
  intros s x Hpe Hfr Ha H0 H2 k. rewrite (select_dist_single s x Hpe Hfr Ha H0 H2).
  apply selected_binomial.
Qed.

End Law.

(* the table harness/compart_coq.py renders for epydemic.SIR: compartments I = 1, R = 2, S = 3;
   locus 0 = SI edges with the infection event, locus 1 = I nodes with the removal event *)
Definition sir (pInfect pRemove : Q) : cmodel :=
  {| cm_specs := [Loci.EdgeLocus 3 1; Loci.NodeLocus 1];
     cm_events := [ {| ce_elem := true; ce_locus := 0; ce_p := pInfect; ce_kind := HLeft 1 true None |};
                    {| ce_elem := true; ce_locus := 1; ce_p := pRemove; ce_kind := HNode 2 |} ];
     cm_extra := []; cm_seed_post := None; cm_equil := [] |}.

Definition comps_of (nodes : list Z) (s : st cworld) : list Z :=
  map (fun v => match Loci.getc (cw_st (world s)) v with Some c => c | None => 0%Z end) nodes.

Definition sir_table (nodes : list Z) (edges : list (Z * Z)) (init : list (Z * Z)) (pi pr : Q) : table cworld :=
  mk_table (sir pi pr) nodes edges init 2 None.

(* the law of the compartments after the first timestep *)
Definition sir_step (nodes : list Z) (edges : list (Z * Z)) (init : list (Z * Z)) (pi pr : Q) : dist (list Z) :=
  let tb := sir_table nodes edges init pi pr in
  step_dist tb 1 (set_clock 1 (setup_state tb [] [] [])) (comps_of nodes).

(* a node moves to c with probability q, else stays in c' *)
Definition two (c : Z) (q : Q) (c' : Z) : dist Z := [(c, q); (c', 1 - q)].
