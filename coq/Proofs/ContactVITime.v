(* C08 for SIR_VariableInfection, times: the hitting time of an infector is STRICTLY earlier than
   that of the node it infects - for every synchronous run whatsoever, and for every Gillespie run
   that did not exhaust its fuel or oracle when probabilities and infectivities are >= 0 and every
   ln(1/r) served is > 0.
   Synchronous dynamics: the argument of Proofs/ContactSync.v over the loop of Model/KernelDyn.v (its
   induction principles are in Proofs/KernelDynLoops.v); what a single call records is obtained from
   the static development through the simulation of Proofs/ContactVI.v.
   Gillespie dynamics: the stochastic calls of such a run come at strictly increasing times
   (Proofs/KernelDynTime.v, for every dynamic table); the marking calls are among them, at their call
   times; and whatever orders these orders the hitting times along the tree (C08_vi_times_increase). *)
From Coq Require Import List ZArith QArith Bool Arith Lia Lqa Sorted.
From EpyV Require Import Model.Kernel Model.KernelDyn Model.Loci Model.Compart Model.CompartVI Proofs.KernelLoops
  Proofs.KernelMember Proofs.CompartInv Proofs.CompartDiagram Proofs.ContactBase Proofs.ContactInv Proofs.ContactSync
  Proofs.ContactTime Proofs.KernelDyn Proofs.KernelDynLoops Proofs.KernelDynTime Proofs.CompartVI
  Proofs.CompartVIQuiet Proofs.ContactVI.
Import ListNotations.
Close Scope Q_scope.

Section VT.
Variable vm : vimodel.
Variables (nodes : list Z) (edges : list (Z * Z)) (init : list (Z * Z)) (inf : list (Z * Z * Q)) (maxtime : Q) (monitor : option Q).
Let D := mk_vitable vm nodes edges init inf maxtime monitor.
Let fcm := vi_fcm vm.
Hypothesis Hwf : wf_model fcm = true.
Hypothesis Hon : once_model fcm = true.
Implicit Types s : st viworld.
Notation occ s := (cw_occ (vi_base (world s))).
Notation hit s := (cw_hit (vi_base (world s))).

Let KK := KV vm nodes edges init.

Lemma KK_dsched s s' : KK s -> dsched s s' -> KK s'.
Proof. exact (KV_dsched vm nodes edges init s s'). Qed.

Lemma KK_dafter Xtr s c : KK s -> dcall_ok D Xtr c s -> KK (dafter D c s).
Proof. exact (KV_dafter Xtr s c Hwf Hon). Qed.

Lemma vcall_records Xtr s c : KK s -> dcall_ok D Xtr c s ->
  (occ (dafter D c s) = occ s /\ hit (dafter D c s) = hit s)
  \/ (exists h n m, dcall_kind vm c = Some h /\ marks h (snd (dcall_args c)) = Some (n, m)
        /\ occ (dafter D c s) = occ s ++ [(n, m, clock s)] /\ hit (dafter D c s) = hit s ++ [(n, clock s)]).
Proof.
  intros Hk Hok.
  pose proof (call_records fcm nodes edges init maxtime monitor Hwf Hon (proj s) (sim vm c)
                (KV_proj Hk) (sim_ok Hok)) as R.
  unfold fcm in R. rewrite (sim_world Hok) in R.
  rewrite (sim_kind Hok), (sim_args Hok) in R.
  exact R.
Qed.

Lemma vsus_back_call Xtr s c v c0 : dcall_ok D Xtr c s ->
  getc (cw_st (vi_base (world (dafter D c s)))) v = Some c0 -> In c0 (sus fcm) -> getc (cw_st (vi_base (world s))) v = Some c0.
Proof.
  intros Hok. pose proof (sus_back_call fcm nodes edges init maxtime monitor Hon (proj s) (sim vm c) v c0
                            (sim_ok Hok)) as R.
  unfold fcm in R. rewrite (sim_world Hok) in R. exact R.
Qed.

Lemma vrun_pending_K fuel t n s : KK s ->
  let s' := snd (run_pending (d_tb D) fuel t n s) in KK s' /\ occ s' = occ s /\ hit s' = hit s.
Proof.
  intros Hk. apply (drun_pending_inv D (fun _ => True) (fun s1 => KK s1 /\ occ s1 = occ s /\ hit s1 = hit s)).
  - intros s1 s2 (K1 & O1 & H1) Hs. split; [exact (KK_dsched s1 s2 K1 Hs)|]. rewrite (dsched_world Hs). split; assumption.
  - intros s1 h (K1 & O1 & H1) Hok. split; [exact (KK_dafter _ s1 _ K1 Hok)|].
    destruct (vcall_records _ s1 (DPost h) K1 Hok) as [[R1 R2]|(k & a & b & Ek & Em & _)]; [split; congruence|].
    exfalso. destruct (vmarking_call Hwf Hon K1 Hok Ek Em) as (Hnp & _).
    exact (Hnp h eq_refl).
  - split; [exact Hk | split; reflexivity].
Qed.

(* strictness after one call: it is enough that, if the call marks (n, m), every hitting time of the
   infector m recorded so far is strictly before the clock *)
Lemma vstrict_after_call Xtr s c : KK s -> dcall_ok D Xtr c s -> strictT (vi_base (world s)) ->
  (forall h n m t', dcall_kind vm c = Some h -> marks h (snd (dcall_args c)) = Some (n, m) -> In (m, t') (hit s) -> (t' < clock s)%Q) ->
  strictT (vi_base (world (dafter D c s))).
Proof.
  intros Hk Hok Hst Hlt.
  destruct (vcall_records Xtr s c Hk Hok) as [[R1 R2]|(h & n & m & Ek & Emk & R1 & R2)].
  - unfold strictT. rewrite R1, R2. exact Hst.
  - destruct (vmarking_call Hwf Hon Hk Hok Ek Emk)
      as (_ & _ & _ & (l & Hl & Hn) & (r' & Hr' & Hm') & _).
    assert (Hnm : n <> m) by (intros ->; rewrite Hn in Hm'; inversion Hm'; subst; contradiction).
    pose proof (Forest_untouched n l (KV_VForest Hk) Hn Hl) as F1.
    unfold strictT. rewrite R1, R2. intros a b ta tb' Ho Hh.
    apply in_app_or in Ho. apply in_app_or in Hh. destruct Ho as [Ho|[Ho|[]]]; destruct Hh as [Hh|[Hh|[]]].
    + exact (Hst a b ta tb' Ho Hh).
    + inversion Hh; subst b tb'. exfalso. exact (proj2 (F1 _ Ho) eq_refl).
    + inversion Ho; subst a b ta. exact (Hlt h n m tb' Ek Emk Hh).
    + inversion Ho; subst a b ta. inversion Hh; subst. contradiction.
Qed.

(* s2 is the state on which the tranche was drawn; t the time of the step *)
Definition VStepInv (t : Q) (s2 s : st viworld) : Prop :=
  KK s /\ strictT (vi_base (world s)) /\ clock s = t
  /\ (forall v c, getc (cw_st (vi_base (world s))) v = Some c -> In c (sus fcm) -> getc (cw_st (vi_base (world s2))) v = Some c)
  /\ (forall n t', In (n, t') (hit s) ->
        (t' < t)%Q \/ (t' = t /\ exists c, In c (sus fcm) /\ getc (cw_st (vi_base (world s2))) n = Some c)).

(* one call c of the tranche, which was possible on s2 too *)
Lemma vstep_call Xtr t s2 s c : KK s2 -> VStepInv t s2 s -> (forall h, c <> DPost h) ->
  dcall_ok D Xtr c s -> dcall_ok D Xtr c s2 -> VStepInv t s2 (dafter D c s).
Proof.
  intros Hk2 (Hk & Hst & Hc & Hback & Hhits) Hnp Hok Hok2.
  assert (Hback' : forall v c0, getc (cw_st (vi_base (world (dafter D c s)))) v = Some c0 -> In c0 (sus fcm) ->
                                getc (cw_st (vi_base (world s2))) v = Some c0).
  { intros v c0 Hv Hcs. apply Hback; [|exact Hcs]. exact (vsus_back_call Xtr s c v c0 Hok Hv Hcs). }
  split; [exact (KK_dafter Xtr s c Hk Hok)|].
  split; [|split; [destruct (dafter_frame D c s Hnp) as [-> _]; exact Hc | split; [exact Hback'|]]].
  - (* if the call marks (n, m): m was infectious when the tranche was drawn, so it was not hit in this step *)
    apply (vstrict_after_call Xtr s c Hk Hok Hst). intros h n m t' Ek Emk Hh. rewrite Hc.
    destruct (Hhits m t' Hh) as [Hlt|[_ (c0 & Hc0 & Hg)]]; [exact Hlt | exfalso].
    destruct (vmarking_call Hwf Hon Hk2 Hok2 Ek Emk)
      as (_ & _ & _ & _ & (r & Hr & Hm) & _).
    rewrite Hm in Hg. inversion Hg; subst. contradiction.
  - destruct (vcall_records Xtr s c Hk Hok) as [[R1 R2]|(h & n & m & Ek & Emk & R1 & R2)].
    + rewrite R2. exact Hhits.
    + rewrite R2, Hc. intros a ta Ha. apply in_app_or in Ha. destruct Ha as [Ha|[Ha|[]]]; [exact (Hhits a ta Ha)|].
      inversion Ha; subst a ta. right. split; [reflexivity|].
      destruct (vmarking_call Hwf Hon Hk Hok Ek Emk) as (_ & _ & _ & (l & Hl & Hn) & _).
      exists l. split; [exact Hl | exact (Hback n l Hn Hl)].
Qed.

Lemma vsel_member_drawn xe s2 : dsel_ok D (loci s2) (world s2) xe -> sel_member xe s2 = true.
Proof.
  unfold dsel_ok, sel_member. intros [_ H]. destruct (fst xe) as [y|pi d].
  - apply mem_In. exact (proj2 H).
  - exact (vi_dyn_sound vm nodes edges init inf maxtime monitor pi _ _ d (proj1 H)).
Qed.

Definition VHeadInv (t : Q) s : Prop :=
  KK s /\ strictT (vi_base (world s)) /\ forall n t', In (n, t') (hit s) -> (t' < t)%Q.

Lemma dsync_loop_strict pf fuel t ev k s t' ev' k' s' :
  dsync_loop D pf fuel t ev k s = (t', ev', k', s') -> VHeadInv t s -> VHeadInv t' s'.
Proof.
  apply (dsync_loop_inv D pf VHeadInv).
  - intros t1 s1 (Hk & Hst & Hh). split; [exact (KK_dsched s1 _ Hk (dsched_set_stuck s1)) | split; assumption].
  - intros t1 s1 (Hk & Hst & Hh). unfold dsync_step.
    destruct (vrun_pending_K pf t1 0 (set_clock t1 s1) (KK_dsched s1 _ Hk (dsched_set_clock t1 s1))) as (K1 & O1 & H1).
    destruct (run_pending (d_tb D) pf t1 0 (set_clock t1 s1)) as [n s2]. cbn [snd world set_clock] in K1, O1, H1.
    destruct (dtranche_spec D (set_clock t1 s2)) as [Ho Hsel].
    destruct (dtranche D (set_clock t1 s2)) as [evs s3]. cbn [fst snd] in Ho, Hsel.
    assert (K3 : KK s3) by (exact (KK_dsched _ _ (KK_dsched s2 _ K1 (dsched_set_clock t1 s2)) (dsched_osame _ _ Ho))).
    assert (W3 : world s3 = world s2) by (rewrite (osame_world _ _ Ho); reflexivity).
    assert (C3 : clock s3 = t1) by (rewrite (osame_clock _ _ Ho); reflexivity).
    rewrite <- (osame_loci _ _ Ho), <- (osame_world _ _ Ho), Forall_forall in Hsel.
    assert (S3 : VStepInv t1 s3 s3).
    { split; [exact K3|]. split; [|split; [exact C3 | split; [tauto|]]].
      - unfold strictT. rewrite W3, O1, H1. exact Hst.
      - intros a ta Ha. left. rewrite W3, H1 in Ha. exact (Hh a ta Ha). }
    destruct (dfire_tranche_inv D (fun _ s4 => VStepInv t1 s3 s4) t1 evs) with (nev := n) (s := s3) as [(K4 & St4 & _ & _ & Hh4) _];
      [|exact C3 | exact S3|].
    + intros xe _ s4 Hxe Em Hc S4.
      apply (vstep_call Xpos t1 s3 s4 _ K3 S4 (sel_call_nonposted t1 xe)); [exact (sel_call_ok D _ _ t1 xe s4 (Hsel xe Hxe) Em Hc)|].
      exact (sel_call_ok D _ _ t1 xe s3 (Hsel xe Hxe) (vsel_member_drawn xe s3 (Hsel xe Hxe)) C3).
    + split; [exact K4|]. split; [exact St4|].
      intros a ta Ha. destruct (Hh4 a ta Ha) as [Hlt|[-> _]]; rewrite Qred_correct; lra.
Qed.

Theorem vstrict_sync pf fuel rs ds : graph_okb nodes edges = true -> init_ok fcm nodes init = true ->
  strictT (vi_base (world (r_final (dsync_run D pf fuel rs ds)))).
Proof.
  intros Hg Hi. unfold dsync_run.
  destruct (dsync_loop D pf fuel 1 0 0 (setup_state (d_tb D) rs [] ds)) as [[[t ev] k] s] eqn:E. cbn [r_final].
  apply (dsync_loop_strict pf fuel 1 0 0 _ t ev k s E).
  split; [exact (KV_setup rs [] ds Hwf Hg Hi)|].
  unfold D. rewrite vi_setup_world. split; [unfold strictT; intros ? ? ? ? [] | intros ? ? []].
Qed.

(* only stochastic calls mark, at their call time: the times of the marking calls are a subsequence of
   the times of the stochastic calls *)
Lemma vinfection_times_sorted (R : Q -> Q -> Prop) Xtr rs ls ds cs s : graph_okb nodes edges = true -> init_ok fcm nodes init = true ->
  DSteps D Xtr (setup_state (d_tb D) rs ls ds) cs s -> StronglySorted R (dctimes cs) -> StronglySorted R (map snd (vinfections vm cs)).
Proof.
  intros Hg Hi H Hs. unfold vinfections. rewrite flat_map_concat_map, concat_map, map_map, <- flat_map_concat_map.
  revert Hs. apply SS_flat_sub. intros [s1 c] Hsc.
  destruct (DSteps_inv_call D Xtr KK KK_dsched (KK_dafter Xtr)
              _ cs s s1 c (KV_setup rs ls ds Hwf Hg Hi) H Hsc) as [Hk Hok].
  unfold vinfection. cbn [snd]. destruct (dcall_kind vm c) as [h|] eqn:Ek; [|left; reflexivity].
  destruct (marks h (snd (dcall_args c))) as [[n m]|] eqn:Em; [|left; reflexivity]. right.
  destruct (vmarking_call Hwf Hon Hk Hok Ek Em) as (Hnp & _).
  destruct c as [x t e|pi d t|h0]; [reflexivity | reflexivity | exfalso; exact (Hnp h0 eq_refl)].
Qed.

(* probabilities and infectivities >= 0: the rates are >= 0 wherever the infectivities are the initial ones *)
Theorem vstoch_ctimes_strict Xtr pf fuel rs ls ds cs :
  (forall ev, In ev (vim_events vm) -> (0 <= ce_p ev)%Q) -> (forall x, In x inf -> (0 <= snd x)%Q) -> Forall (Qlt 0) ls ->
  let r := dstoch_run D pf fuel rs ls ds in
  r_stuck r = false -> DSteps D Xtr (setup_state (d_tb D) rs ls ds) cs (r_final r) -> StronglySorted Qlt (dctimes cs).
Proof.
  intros Hp Hq. apply (dstoch_ctimes_strict D (inf_const inf)).
  - intros s1 s2 Hc Hs. unfold inf_const. rewrite (dsched_world Hs). exact Hc.
  - intros s1 c Hc _. exact (inf_const_dafter Hc).
  - intros s1 Hc. apply vi_dnonneg. unfold vi_nonneg. unfold inf_const in Hc. rewrite Hc. split; assumption.
  - unfold inf_const, D. rewrite vi_setup_world. reflexivity.
Qed.

End VT.
