(* SIR_VariableInfection in the Coq whole-run model.
     A. the dynamic kernel (Model/KernelDyn.v), for every user state W and every dynamic table D
        (arbitrary user programs, arbitrary generator of appended entries): what a tranche and a
        Gillespie iteration do, membership under Gillespie dynamics, both loops without appended
        entries; the model follows /repo after repair F15 (0d0f7b6: len(SingletonLocus) is 0
        once its element has left its locus);
     B. the table the tie accepts is [sir_vi_gen pRemove post] (Model/CompartVI.v);
     C. non-vacuity: concrete runs on a 3-node path under both dynamics (also with a stale entry
        skipped and with posted removals), by vm_compute.
   The statements about whole runs of the model stand in Properties/C05.v (membership, zero-probability
   entries, the distribution) and Properties/C07.v (run invariant, partition, diagram).
   A record [OHandler prog t clock e (Some m)] is written at the instant a stochastic /
   per-element event function is entered; for an appended entry m is the outcome of the entry's
   own membership test (SingletonLocus.__contains__) on the state at that instant
   (Model/KernelDyn.v, fire_dyn).  The tie Tie/CompartVI.v compares exactly these flags with the
   `e in SI-locus` the harness evaluates at the entry of SIR_VariableInfection.infect. *)
From Coq Require Import List ZArith QArith Bool Arith Lia.
From EpyV Require Import Model.Kernel Model.KernelDyn Model.Loci Model.Compart Model.CompartVI Proofs.KernelMember
  Proofs.CompartInv Proofs.KernelDyn Proofs.KernelDynLoops Proofs.KernelDynRun Proofs.KernelDynStatic
  Proofs.KernelDynExample Proofs.CompartVI Tie.CompartVI.
Import ListNotations.
Open Scope Q_scope.

(* over a whole tranche: every handler record has member = true, time t, clock t, and the count
   grows by exactly the number of event functions entered (skipped entries are not counted) *)
Theorem CVI_sync_tranche_count : forall W (D : dtable W) t evs nev (s : st W), clock s = t ->
  exists l, out (snd (dfire_tranche D t evs nev s)) = l ++ out s /\
            Forall (dtranche_rec t) l /\
            fst (dfire_tranche D t evs nev s) = (nev + nfired l)%nat.
Proof.
  intros W D t evs nev s Hc.
  destruct (dfire_tranche_inv D (fun nev' s' => exists l, out s' = l ++ out s /\ Forall (dtranche_rec t) l /\ nev' = (nev + nfired l)%nat) t evs)
    with (nev := nev) (s := s) as [H _]; [|exact Hc| |exact H].
  - intros xe nev1 s1 _ Em Hc1 (l & E & R & N). destruct (dafter_out D (sel_call t xe) s1) as [l1 [A E1]].
    exists ([dtap (sel_call t xe)] ++ l1 ++ [drec (sel_call t xe) s1] ++ l).
    split; [rewrite E1, E, <- !app_assoc; reflexivity|].
    unfold sel_member in Em. unfold sel_call in *. split.
    + apply Forall_app. split; [|apply Forall_app; split; [exact (Forall_impl _ (act_dtranche t) A)|]].
      * destruct (fst xe); repeat constructor; eauto.
      * constructor; [|exact R]. destruct (fst xe); cbn [drec]; rewrite Em, Hc1; repeat split.
    + rewrite !nfired_app, (nfired_act l1 A), N. destruct (fst xe); unfold nfired; cbn; lia.
  - exists []. split; [reflexivity|]. split; [constructor | unfold nfired; cbn; lia].
Qed.
Print Assumptions CVI_sync_tranche_count.

(* allEventsInTimestep only selects entries of positive probability; an appended entry selected was
   generated from the loci and user state as they stood at that call, and is paired with its own value *)
Theorem CVI_sync_select : forall W (D : dtable W) (s : st W),
  Forall (dsel_ok D (loci s) (world s)) (fst (dtranche D s)).
Proof. intros W D s. exact (proj2 (dtranche_spec D s)). Qed.
Print Assumptions CVI_sync_select.

(* C05, stochastic dynamics.  One Gillespie iteration: selection over the distribution computed
   from the state at its start, the posted events, then the firing (dstoch_fire): a registered
   event reads its live locus, an appended entry is tested on the current state and, if still a
   member, called on its stored value without consuming a rank *)
Theorem CVI_stoch_iteration : forall W (D : dtable W) pf f t events (s : st W),
  dstoch_loop D pf (S f) t events s =
  if at_equil (d_tb D) t s then (t, events, s)
  else if Qeq_bool (dsum_rates s (dtransitions D (loci s) (world s))) 0 then
    match next_pending_time s with
    | (None, s') => (t, events, s')
    | (Some et, s') => let '(n, s'') := run_pending (d_tb D) pf et 0 s' in dstoch_loop D pf f et (events + n) s''
    end
  else
    match dstoch_select D s with
    | None => (t, events, set_stuck s)
    | Some (x, dt, s3) =>
        let nt := Qred (t + dt) in
        let '(n, s4) := run_pending (d_tb D) pf nt 0 s3 in
        let '(ev', s6) := dstoch_fire D x nt (events + n) (set_clock nt s4) in
        dstoch_loop D pf f nt ev' s6
    end.
Proof. intros W D. exact (dstoch_loop_S D). Qed.
Print Assumptions CVI_stoch_iteration.

(* with probabilities >= 0 and uniform variates in [0,1): the entry selected has a positive rate and a
   positive probability *)
Theorem CVI_zero_never_stoch_select : forall W (D : dtable W) (s : st W) x dt s3,
  dnonneg D (loci s) (world s) -> Forall unit_rand (rands s) ->
  Qeq_bool (dsum_rates s (dtransitions D (loci s) (world s))) 0 = false ->
  dstoch_select D s = Some (x, dt, s3) ->
  In x (dtransitions D (loci s) (world s)) /\ 0 < drate s x /\ 0 < trans_p x.
Proof.
  intros W D s x dt s3 Hnn Hr Ha E. split; [exact (proj1 (dstoch_select_shape D s x dt s3 E))|].
  exact (dstoch_select_pos D s x dt s3 Hnn Hr Ha E).
Qed.
Print Assumptions CVI_zero_never_stoch_select.

(* for every dynamic table, whatever user programs post and do: every event function entered from
   the Gillespie loop - registered event or appended entry - is entered on an element that passes the
   membership test of its locus at that instant *)
Theorem CVI_member_stoch : forall W (D : dtable W) pf fuel rs ls ds k t c e m,
  In (OHandler k t c e (Some m)) (r_out (dstoch_run D pf fuel rs ls ds)) -> m = true.
Proof. intros W D. exact (dstoch_run_member D). Qed.
Print Assumptions CVI_member_stoch.

(* the F15 situation in the model: the entry for element 1 is selected at time 0 for time 1; an event posted
   for 1/2 removes element 1 from the underlying locus; the stale entry is skipped (before the repair the
   event function was entered on the non-member) *)
Example CVI_stale_entry_skipped :
  let D := ex_D [] [APost (1#2) 1%nat] 1 in
  let r := dstoch_run D 10 10 [1#2; 1#4] [2] [] in
  r_out r = [OPosted 0 (1 # 2); OHandler 1 (1 # 2) (1 # 2) (EN 0) None; OTap (1 # 2) 0 (NPost 1) (EN 0)]
  /\ r_time r = 1 /\ r_events r = 1%nat /\ r_stuck r = false /\ loci (r_final r) = [[EN 2]].
Proof. exact dstoch_stale_skipped. Qed.
Print Assumptions CVI_stale_entry_skipped.

(* without appended entries both loops of Model/KernelDyn.v compute exactly what Model/Kernel.v's do *)
Theorem CVI_conservative_stoch : forall W (tb : table W) pf fuel rs ls ds,
  dstoch_run (static_dtable tb) pf fuel rs ls ds = stoch_run tb pf fuel rs ls ds.
Proof. intros W tb pf fuel rs ls ds. unfold dstoch_run, stoch_run. rewrite dstoch_loop_static. reflexivity. Qed.
Print Assumptions CVI_conservative_stoch.

Theorem CVI_conservative_sync : forall W (tb : table W) pf fuel rs ds,
  dsync_run (static_dtable tb) pf fuel rs ds = sync_run tb pf fuel rs ds.
Proof. intros W tb pf fuel rs ds. unfold dsync_run, sync_run. rewrite dsync_loop_static. reflexivity. Qed.
Print Assumptions CVI_conservative_sync.

(* the tables Tie/CompartVI.v accepts on a run ([vi_shipped], read off the live objects) are the class
   [sir_vi_gen pRemove post] *)
Theorem CVI_shipped_is_sir_vi : forall vm, Tie.CompartVI.vi_shipped vm = true -> exists p post, vm = sir_vi_gen p post.
Proof.
  intros [specs events si0 infect sp]. unfold Tie.CompartVI.vi_shipped. cbn [vim_events vim_specs vim_si vim_infect vim_seed_post].
  destruct events as [|[el lo p kd] [|ev2 events]]; try discriminate.
  cbn [ce_elem ce_locus ce_kind]. rewrite !andb_true_iff. intros [[[[[[H1 H2] H3] H4] H5] H6] H8].
  exists p.
  assert (Hsp : exists post, sp = option_map (fun T => (1%Z, T, 0%nat)) post).
  { destruct sp as [[[c T] k]|]; [|exists None; reflexivity]. apply andb_true_iff in H8. destruct H8 as [G1 G2].
    apply Z.eqb_eq in G1. apply Nat.eqb_eq in G2. subst. exists (Some T). reflexivity. }
  destruct Hsp as [post ->]. exists post. clear H8. apply Nat.eqb_eq in H3. apply Nat.eqb_eq in H5. subst el lo si0.
  destruct kd as [c|c m0 post0| |]; cbn in H4; try discriminate; [|destruct post0; discriminate]. apply Z.eqb_eq in H4. subst c.
  destruct infect as [c0|c m [post1|]| |]; cbn in H6; try discriminate.
  apply andb_true_iff in H6. destruct H6 as [H6 H7]. apply Z.eqb_eq in H6. subst c. destruct m; [|discriminate].
  destruct specs as [|[c1|l r|l2 rs2] [|[c|l3 r3|l3 rs3] [|sp3 specs]]]; cbn in H1; rewrite ?andb_true_iff in H1;
    try discriminate; try (exfalso; intuition discriminate).
  destruct H1 as [[G1 G2] [G3 _]].
  apply Z.eqb_eq in G1. apply Z.eqb_eq in G2. apply Z.eqb_eq in G3. subst. reflexivity.
Qed.
Print Assumptions CVI_shipped_is_sir_vi.

(* path 0 - 1 - 2, node 0 infected; infectivities 1/2 on (0,1), 1/4 on (1,2) (what
   initialInfectivities stores when rng.random() returns 1/2, 1/4); pRemove = 1/4 *)
Definition ex_vi (mon : option Q) : dtable viworld :=
  mk_vitable (sir_vi (1#4)) [0; 1; 2]%Z [(0, 1); (1, 2)]%Z [(0, 1); (1, 3); (2, 3)]%Z
             (initial_infectivities [(0, 1); (1, 2)]%Z [1#2; 1#4]) 3 mon.

Definition summary (x : trans viworld) : bool * nat * Q * Kernel.elem * nat :=
  match x with
  | TStat y => (true, fst (fst y), ev_p (snd y), EN 0, ev_prog (snd y))
  | TDyn pi d => (false, pi, de_p d, de_value d, de_prog d)
  end.

(* the hypotheses of the theorems about SIR_VariableInfection hold of it *)
Example CVI_example_hyps :
  vi_nopost (sir_vi (1#4)) = true /\ wf_loci (vim_specs (sir_vi (1#4))) = true
  /\ graph_okb [0; 1; 2]%Z [(0, 1); (1, 2)]%Z = true
  /\ init_ok (vi_cm (sir_vi (1#4))) [0; 1; 2]%Z [(0, 1); (1, 3); (2, 3)]%Z = true
  /\ inf_covers [(0, 1); (1, 2)]%Z (initial_infectivities [(0, 1); (1, 2)]%Z [1#2; 1#4]) = true.
Proof. repeat split. Qed.
Print Assumptions CVI_example_hyps.

(* the distribution at the start: removal on I (p = 1/4), then the one S-I edge (1,0) with infectivity 1/2 *)
Example CVI_example_distribution :
  let s := setup_state (d_tb (ex_vi None)) [] [] [] in
  map summary (dper_element (ex_vi None) (loci s) (world s))
  = [(true, 0%nat, 1#4, EN 0, 0%nat); (false, 0%nat, 1#2, EE 1 0, 1%nat)].
Proof. vm_compute. reflexivity. Qed.
Print Assumptions CVI_example_distribution.

(* Gillespie: a = 3/4; infect on (1,0) at 1/2 (no rank consumed); then remove on node 0 (rank 0) at 3/2;
   then infect on (2,1) at 7/2 >= maximumTime *)
Example CVI_example_stoch :
  let r := dstoch_run (ex_vi None) 50 50 [1#2; 1#2; 1#2; 1#2; 1#2; 1#2] [3#8; 3#4; 1] [0%nat] in
  r_out r = [OHandler 1 (1 # 2) (1 # 2) (EE 1 0) (Some true); OTap (1 # 2) 0 (NEv 0 1) (EE 1 0);
             OHandler 0 (3 # 2) (3 # 2) (EN 0) (Some true); OTap (3 # 2) 0 (NEv 0 0) (EN 0);
             OHandler 1 (7 # 2) (7 # 2) (EE 2 1) (Some true); OTap (7 # 2) 0 (NEv 0 1) (EE 2 1)]
  /\ r_time r = 7 # 2 /\ r_events r = 3%nat /\ r_stuck r = false
  /\ loci (r_final r) = [[]; [EN 1; EN 2]]
  /\ draws (r_final r) = []                                        (* exactly one rank was consumed: by the removal *)
  /\ cw_occ (vi_base (world (r_final r))) = [(1, 0, 1 # 2); (2, 1, 7 # 2)]%Z
  /\ Forall unit_rand [1#2; 1#2; 1#2; 1#2; 1#2; 1#2].
Proof.
  cbv zeta. repeat split; try (vm_compute; reflexivity).
  repeat constructor; vm_compute; discriminate.
Qed.
Print Assumptions CVI_example_stoch.

(* synchronous, behind a Monitor (delta = 1): step 1: trial 1/2 > 1/4 for the removal of node 0, trial
   1/4 <= 1/2 for the edge (1,0): infect; step 2: removal trials 1/8 (node 0: removed), 7/8 (node 1: not),
   edge (2,1): trial 1/2 > 1/4 *)
Example CVI_example_sync :
  let r := dsync_run (ex_vi (Some 1)) 50 50 [1#2; 1#4; 1#8; 7#8; 1#2] [] in
  r_out r = [OPostedRep 0; OHandler 2 0 0 (EN 0) None; OObserve 0 [1%nat; 1%nat]; OTap 0 0 (NPost 2) (EN 0);
             OHandler 2 1 1 (EN 0) None; OObserve 1 [1%nat; 1%nat]; OTap 1 0 (NPost 2) (EN 0);
             OHandler 1 1 1 (EE 1 0) (Some true); OTap 1 1 (NEv 1 1) (EE 1 0);
             OHandler 2 2 2 (EN 0) None; OObserve 2 [1%nat; 2%nat]; OTap 2 0 (NPost 2) (EN 0);
             OHandler 0 2 2 (EN 0) (Some true); OTap 2 1 (NEv 1 0) (EN 0)]
  /\ r_time r = 3 /\ r_events r = 5%nat /\ r_steps r = 2%nat /\ r_stuck r = false
  /\ loci (r_final r) = [[EE 2 1]; [EN 1]].
Proof. cbv zeta. repeat split; vm_compute; reflexivity. Qed.
Print Assumptions CVI_example_sync.

(* synchronous, the F8 situation on a triangle 0-1-2 with 0 and 1 infected, all infectivities 1: both
   (2,0) and (2,1) are selected; infect on (2,0) empties the SI locus; (2,1) fails its test: skipped *)
Example CVI_example_sync_skip :
  let D := mk_vitable (sir_vi 0) [0; 1; 2]%Z [(0, 1); (0, 2); (1, 2)]%Z [(0, 1); (1, 1); (2, 3)]%Z
                      (initial_infectivities [(0, 1); (0, 2); (1, 2)]%Z [1; 1; 1]) 2 None in
  let r := dsync_run D 50 50 [1#2; 1#2] [] in
  r_out r = [OHandler 1 1 1 (EE 2 0) (Some true); OTap 1 0 (NEv 0 1) (EE 2 0)]
  /\ r_events r = 1%nat /\ r_steps r = 1%nat /\ r_stuck r = false
  /\ cw_occ (vi_base (world (r_final r))) = [((2, 0)%Z, 1)].
Proof. cbv zeta. repeat split; vm_compute; reflexivity. Qed.
Print Assumptions CVI_example_sync_skip.

(* the F15 situation with the harness' posted-removal subclass: path 0 - 1, node 0 infected and removed by an
   event posted for 1/2, infectivity 1, pRemove = 0.  Gillespie selects infect on (1,0) for time 1; the posted
   removal runs first; the entry is stale and is skipped: node 1 stays susceptible *)
Example CVI_example_posted_removal :
  let D := mk_vitable (sir_vi_gen 0 (Some (1#2))) [0; 1]%Z [(0, 1)]%Z [(0, 1); (1, 3)]%Z
                      (initial_infectivities [(0, 1)]%Z [1]) 3 None in
  let r := dstoch_run D 50 50 [1#2; 1#2; 1#2] [1; 1] [] in
  r_out r = [OPosted 0 (1 # 2); OHandler 0 (1 # 2) (1 # 2) (EN 0) None; OTap (1 # 2) 0 (NPost 0) (EN 0)]
  /\ r_time r = 1 /\ r_events r = 1%nat /\ r_stuck r = false
  /\ map (getc (cw_st (vi_base (world (r_final r))))) [0; 1]%Z = [Some 2; Some 3]%Z.
Proof. cbv zeta. repeat split; vm_compute; reflexivity. Qed.
Print Assumptions CVI_example_posted_removal.
