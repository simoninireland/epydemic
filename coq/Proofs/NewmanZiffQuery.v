(* C13: what the query methods of NewmanZiff report, against an independent graph-theoretic
   specification (connected components as classes of the closure [conn]). *)
From Coq Require Import List ZArith QArith Bool Arith Lia Permutation.
From EpyV Require Import Lib.Prelude Model.NewmanZiff Proofs.NewmanZiffUF Proofs.NewmanZiffOcc.
Import ListNotations.
Local Open Scope nat_scope.

(* c is the number of nodes of V connected to n *)
Definition class_size (V : nat -> Prop) (es : list nedge) (n : nat) (c : Z) : Prop :=
  exists l, NoDup l /\ (forall x, In x l <-> V x /\ conn es n x) /\ c = Z.of_nat (length l).

(* g is the size of a largest component (0 for the network without nodes) *)
Definition largest_class (V : nat -> Prop) (es : list nedge) (g : Z) : Prop :=
  (forall n c, V n -> class_size V es n c -> (c <= g)%Z) /\
  ((exists n, V n /\ class_size V es n g) \/ (g = 0%Z /\ forall n, ~ V n)).

(* k is the number of components: a system of k pairwise unconnected representatives *)
Definition n_classes (V : nat -> Prop) (es : list nedge) (k : Z) : Prop :=
  exists reps, NoDup reps /\ (forall r, In r reps -> V r) /\ (forall n, V n -> exists r, In r reps /\ conn es n r)
    /\ (forall r r', In r reps -> In r' reps -> conn es r r' -> r = r') /\ k = Z.of_nat (length reps).

(* componentSize(n): the size of n's component, 0 for a node that is not in the network *)
Definition size_spec (V : nat -> Prop) (es : list nedge) (n : nat) (c : Z) : Prop :=
  (V n /\ class_size V es n c) \/ (~ V n /\ c = 0%Z).

Lemma class_size_unique V es n c c' : class_size V es n c -> class_size V es n c' -> c = c'.
Proof.
  intros (l & ND & Hl & ->) (l' & ND' & Hl' & ->). f_equal. apply Permutation_length.
  apply NoDup_Permutation; auto. intros x. rewrite Hl, Hl'. tauto.
Qed.

Lemma class_size_no_edges (V : nat -> Prop) n : V n -> class_size V [] n 1%Z.
Proof.
  intros Vn. exists [n]. split; [repeat constructor; cbn; tauto|]. split; [|reflexivity].
  intros x. cbn. split.
  - intros [<-|[]]. split; [exact Vn | apply conn_refl].
  - intros [_ C]. left. apply conn_nil. exact C.
Qed.

Section Spec.
  Variables (a : list Z) (es : list nedge) (V : nat -> Prop).
  Hypothesis U : UF a es.
  Hypothesis HV : forall x, V x <-> occ a x.

  Lemma uf_class_size n r d : path a n r d -> class_size V es n (- get a r)%Z.
  Proof.
    intros P. destruct (uf_size U (proj2 (path_lt P))) as (l & ND & Hl & E).
    exists l. split; [exact ND|]. split; [|exact E]. intros x. rewrite Hl, HV. split.
    - intros (e & Q). split; [eapply path_occ; eauto|]. apply (uf_classes U P Q). reflexivity.
    - intros (O & C). destruct (uf_total U O) as (r' & d' & Q & _).
      apply (uf_classes U P Q) in C. subst. eauto.
  Qed.

  Lemma gcc_true g : GccOK a g -> largest_class V es g.
  Proof.
    intros [H1 H2]. split.
    - intros n c Vn Cs. apply HV in Vn. destruct (uf_total U Vn) as (r & d & P & _).
      rewrite (class_size_unique _ _ _ _ _ Cs (uf_class_size _ _ _ P)). apply H1. apply (path_lt P).
    - destruct H2 as [(r & R & E)|[E H]].
      + left. exists r. pose proof (path_of_root R) as P. split; [apply HV; eapply path_occ; eauto|].
        rewrite <- E. eapply uf_class_size; eauto.
      + right. split; [exact E|]. intros n Vn. apply HV in Vn. destruct (uf_total U Vn) as (r & d & P & _).
        apply (H r). apply (path_lt P).
  Qed.

  Lemma nc_true k : NcOK a k -> n_classes V es k.
  Proof.
    intros (l & ND & Hl & E). exists l. split; [exact ND|]. split; [|split; [|split; [|exact E]]].
    - intros r I. apply Hl in I. apply HV. eapply path_occ. apply path_of_root. exact I.
    - intros n Vn. apply HV in Vn. destruct (uf_total U Vn) as (r & d & P & _). exists r.
      split; [apply Hl; apply (path_lt P) | eapply uf_root_conn; eauto].
    - intros r r' I I' C. apply Hl in I. apply Hl in I'.
      apply (uf_classes U (path_of_root I) (path_of_root I')). exact C.
  Qed.
End Spec.

Lemma componentSize_bond_spec a es V n : UF a es -> (forall x, V x <-> occ a x) -> occ a n ->
  exists a' c, componentSize_bond a n = (a', c) /\ compr a a' /\ V n /\ class_size V es n c.
Proof.
  intros U HV O. unfold componentSize_bond. destruct (root_spec U O) as (a' & r & d & E & P & C).
  rewrite E. exists a', (- get a' r)%Z. split; [reflexivity|]. split; [exact C|]. split; [apply HV, O|].
  rewrite (c_neg C) by apply (path_lt P). eapply uf_class_size; eauto.
Qed.

Lemma componentSize_site_spec a es V n : UF a es -> (forall x, V x <-> occ a x) -> n < length a ->
  exists a' c, componentSize_site a n = (a', c) /\ compr a a' /\ size_spec V es n c.
Proof.
  intros U HV Ln. unfold componentSize_site. destruct (Z.eqb_spec (get a n) (unocc a)) as [E|Ne].
  - exists a, 0%Z. split; [reflexivity|]. split; [apply compr_refl|]. right. split; [|reflexivity].
    rewrite HV. intros [_ O]. contradiction.
  - destruct (componentSize_bond_spec a es V n U HV (conj Ln Ne)) as (a' & c & E & C & S).
    exists a', c. split; [exact E|]. split; [exact C | left; exact S].
Qed.

(* what a sample reports is true of the working network it sees *)
Definition reports_true (N : nat) (o : obs) : Prop :=
  let V := fun n => In n (o_wnodes o) in
  largest_class V (o_wedges o) (o_gcc o) /\ n_classes V (o_wedges o) (o_ncomp o) /\
  Forall2 (size_spec V (o_wedges o)) (seq 0 N) (o_sizes o).

Lemma sample_with_eq cs N p s :
  sample_with cs N p s =
    (set_comp s (fst (sizes_all cs (comp s) (seq 0 N))),
     {| o_p := p; o_comp := comp s; o_gcc := gcc s; o_ncomp := ncomp s;
        o_sizes := snd (sizes_all cs (comp s) (seq 0 N)); o_wnodes := wnodes s; o_wedges := wedges s |}).
Proof. unfold sample_with. destruct (sizes_all _ _ _). reflexivity. Qed.

(* for a componentSize method cs that is correct on the nodes satisfying Pre, which path compression keeps *)
Section Sample.
  Variables (cs : list Z -> nat -> list Z * Z) (Pre : list Z -> nat -> Prop).
  Hypothesis Hpre : forall a a' n, compr a a' -> Pre a n -> Pre a' n.
  Hypothesis Hcs : forall a es V n, UF a es -> (forall x, V x <-> occ a x) -> Pre a n ->
    exists a' c, cs a n = (a', c) /\ compr a a' /\ size_spec V es n c.

  Lemma sizes_all_spec es V : forall ns a, UF a es -> (forall x, V x <-> occ a x) -> (forall n, In n ns -> Pre a n) ->
    exists a' l, sizes_all cs a ns = (a', l) /\ compr a a' /\ Forall2 (size_spec V es) ns l.
  Proof.
    induction ns as [|n ns IH]; intros a U HV HP.
    - exists a, []. split; [reflexivity|]. split; [apply compr_refl | constructor].
    - cbn [sizes_all]. destruct (Hcs a es V n U HV (HP n (or_introl eq_refl))) as (a1 & c & E1 & C1 & S1). rewrite E1.
      assert (HV1 : forall x, V x <-> occ a1 x) by (intros x; rewrite HV; symmetry; apply (compr_occ C1)).
      destruct (IH a1 (UF_compr U C1) HV1) as (a2 & l & E2 & C2 & S2).
      { intros m I. eapply Hpre; [exact C1|]. apply HP. right. exact I. }
      rewrite E2. exists a2, (c :: l). split; [reflexivity|]. split; [eapply compr_trans; eauto|]. constructor; assumption.
  Qed.

  Lemma sample_with_spec N p s : Inv s -> (forall x, In x (wnodes s) <-> occ (comp s) x) -> (forall n, n < N -> Pre (comp s) n) ->
    compr (comp s) (comp (fst (sample_with cs N p s))) /\ reports_true N (snd (sample_with cs N p s)).
  Proof.
    intros [U G K] HV HP. rewrite sample_with_eq.
    destruct (sizes_all_spec (wedges s) (fun n => In n (wnodes s)) (seq 0 N) (comp s) U HV) as (a' & l & E & C & S).
    { intros n I. apply HP. apply in_seq in I. lia. }
    rewrite E. split; [exact C|]. split; [eapply gcc_true; eauto|]. split; [eapply nc_true; eauto | exact S].
  Qed.
End Sample.
