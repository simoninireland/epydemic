(* Soundness of the SIvR summaries: a program whose summary is k IS the event function `vhandler k`. *)
From Coq Require Import List ZArith QArith Bool Arith.
From EpyV Require Import Lib.Prelude Model.Kernel Model.Loci Model.Compart Model.CompartV Model.EvProg Model.EvProgV Proofs.EvProg.
Import ListNotations.
Open Scope Q_scope.

Lemma run_body_app : forall tbl t ed x y i,
  run_body tbl t ed (x ++ y) i = run_body tbl t ed y (run_body tbl t ed x i).
Proof. intros. apply fold_left_app. Qed.

Theorem vsummarise_sound : forall p k, vsummarise p = Some k ->
  forall tbl off0 t e kloci w, vinterp tbl off0 p t e kloci w = vhandler tbl off0 k t e kloci w.
Proof.
  intros p k H tbl off0 t e kloci w. destruct p as [q|pre off eff th el]; cbn [vsummarise] in H.
  - destruct (summarise q) as [h|] eqn:Eq.
    + injection H as <-. cbn [vinterp vhandler]. rewrite (summarise_sound _ _ Eq). reflexivity.
    + clear Eq. destruct q as [body|body]; [|discriminate].
      destruct (arun false body (a0 true)) as [a|] eqn:E; [|discriminate].
      destruct a as [b [c|] occ hit post lacts]; [|discriminate].
      destruct occ; [discriminate|]. destruct hit; [discriminate|]. destruct post; [discriminate|].
      destruct lacts as [|[[|] iV] [|[[|] iN] [|? ?]]]; try discriminate. injection H as <-.
      cbn [vinterp vhandler]. destruct e as [n|n m]; [|destruct w; reflexivity].
      rewrite (interp_node E). reflexivity.
  - (* the record patterns of vsummarise are taken apart field by field, failing ones discarded at
       once: destructing a whole record first makes over a hundred cases *)
    destruct (arun true pre (a0 false)) as [ap|] eqn:Ep; [|discriminate].
    destruct ap as [[|] chg occ hit post lacts]; [|discriminate]. destruct chg; [discriminate|].
    destruct occ; [discriminate|]. destruct hit; [discriminate|]. destruct post; [discriminate|]. destruct lacts; [|discriminate].
    destruct (arun true th (a0 true)) as [at_|] eqn:Et; [|discriminate].
    destruct at_ as [bt [c|] [[|]|] hit post lacts]; try discriminate. destruct hit; [discriminate|]. destruct post; [discriminate|].
    destruct lacts as [|[[|] iV] [|? ?]]; try discriminate.
    destruct (arun true el (a0 true)) as [ae|] eqn:Ee; [|discriminate].
    destruct ae as [be [c'|] [[|]|] hit post lacts]; try discriminate. destruct hit; [discriminate|]. destruct post; [discriminate|].
    destruct lacts as [|[[|] iN] [|? ?]]; try discriminate.
    destruct (Z.eqb_spec c c') as [<-|]; [|discriminate]. injection H as <-.
    cbn [vinterp vhandler]. destruct e as [n|n m]; [reflexivity|].
    (* the three branches finish the runs of pre ++ th, pre and pre ++ el; the prefix has bound n *)
    pose proof (fun body a => finish_conc tbl t (Some (n, m)) n (vw_base w) false body a off0 kloci eq_refl) as F.
    unfold vfinish. rewrite <- !run_body_app, (F _ _ Ep), (F _ _ (arun_app Ep Et)), (F _ _ (arun_app Ep Ee)).
    rewrite <- (conc_a0 tbl t (Some (n, m)) n (vw_base w) false), (proj1 (arun_conc tbl t (Some (n, m)) n (vw_base w) eq_refl _ _ _ Ep)).
    destruct w as [[bs bo bh] vv gg]. unfold fin, v_infect. cbn.
    destruct (match vacc_time _ n with Some tv => Qltb (tv + off) t | None => false end); [|reflexivity].
    destruct gg as [|r gg]; [reflexivity|]. cbn.
    destruct (Qltb eff r); reflexivity.
Qed.
