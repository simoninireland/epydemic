(* What the kernel does to the ln stream and to [stuck] ([okeep], [omono]) and what reading the
   oracle leaves alone ([osame]); non-negative rates make the Gillespie time step non-negative
   ([nonneg_tb] ... [dt_nonneg], used by the case analysis of a step).  The two scheduler loops of
   Model/Kernel.v restated as iterations of a step function that also returns the posted entries
   fired ([stoch_step]/[stoch_loopL], [sync_step]/[sync_loopL]), proved equal to the model's loops,
   with a case analysis of one step ([step_spec], [sync_spec]) and an induction principle per loop.
   Set-up code makes user moves from [init_state].  Then the lifting of a predicate on states that
   the primitive steps of the kernel preserve to run_pending, to one step and to both loops, used
   at once for [omono] along one step. *)
From Coq Require Import List ZArith QArith Qabs Bool Arith Lia Lqa.
From EpyV Require Import Model.Kernel Proofs.KernelBase Proofs.KernelRelabel.
Import ListNotations.
Open Scope Q_scope.

Section L.
Context {W : Type}.
Implicit Types s : st W.

(* user code leaves the ln stream and [stuck] alone *)
Definition okeep s s' : Prop := lns s' = lns s /\ stuck s' = stuck s.
(* the kernel only consumes the ln stream and only raises [stuck] *)
Definition omono s s' : Prop := incl (lns s') (lns s) /\ (stuck s = true -> stuck s' = true).

Lemma oracle_okeep s s' : oracle_of s' = oracle_of s -> okeep s s'.
Proof. intros [= _ A _ B]. split; assumption. Qed.
Lemma omono_refl s : omono s s. Proof. split; [apply incl_refl|auto]. Qed.
Lemma omono_trans {s1 s2 s3} : omono s1 s2 -> omono s2 s3 -> omono s1 s3.
Proof. intros [A B] [C D]. split; [eapply incl_tran; eassumption|auto]. Qed.
Lemma okeep_omono s s' : okeep s s' -> omono s s'.
Proof. intros [A B]. split; [rewrite A; apply incl_refl|congruence]. Qed.
Lemma omono_live s s' : omono s s' -> stuck s' = false -> stuck s = false.
Proof. intros [_ Hm] H. destruct (stuck s); [rewrite Hm in H; [discriminate|reflexivity]|reflexivity]. Qed.

Lemma fire_event_okeep tb x t e s : okeep s (fire_event tb x t e s).
Proof. apply oracle_okeep, fire_event_oracle. Qed.

Lemma pend_step_okeep tb h s : okeep s (pend_step tb h s).
Proof. apply oracle_okeep, pend_step_oracle. Qed.

(* run_pending reads no oracle: it keeps the ln stream (more than [omono] asks) and only raises [stuck] *)
Lemma run_pendingL_omono tb fuel t n s n' s' l :
  run_pendingL tb fuel t n s = (n', s', l) -> lns s' = lns s /\ (stuck s = true -> stuck s' = true).
Proof.
  apply (run_pendingL_ind tb t (fun _ s _ s' _ => lns s' = lns s /\ (stuck s = true -> stuck s' = true))).
  - split; reflexivity.
  - split; auto.
  - intros _ s0 h _ s1 _ _ _ _ [A B]. destruct (pend_step_okeep tb h (discard s0)) as [C D].
    split; [rewrite A; exact C|]. intros Hs. apply B. rewrite D. exact Hs.
Qed.

(* s' is s after reads of the oracle: same core, loci, ids and world *)
Definition osame s s' : Prop :=
  core_of s' = core_of s /\ (loci s' = loci s /\ ids s' = ids s /\ world s' = world s) /\ omono s s'.
Lemma osame_refl s : osame s s.
Proof. split; [reflexivity|split; [repeat split|apply omono_refl]]. Qed.
Lemma osame_trans s1 s2 s3 : osame s1 s2 -> osame s2 s3 -> osame s1 s3.
Proof.
  intros [A [[B1 [B2 B3]] C]] [D [[E1 [E2 E3]] F]].
  split; [congruence|split; [repeat split; congruence|exact (omono_trans C F)]].
Qed.
Lemma osame_core s s' : osame s s' -> core_of s' = core_of s.
Proof. intros [H _]. exact H. Qed.
Lemma osame_clock s s' : osame s s' -> clock s' = clock s.
Proof. intros [H _]. unfold core_of in H. congruence. Qed.
Lemma osame_omono {s s'} : osame s s' -> omono s s'.
Proof. intros [_ [_ H]]. exact H. Qed.
Lemma set_stuck_osame s : osame s (set_stuck s).
Proof. split; [reflexivity|split; [repeat split|split; [apply incl_refl|reflexivity]]]. Qed.
Lemma set_oracle_osame rs ls ds s : incl ls (lns s) -> osame s (set_oracle rs ls ds s).
Proof. intros H. split; [reflexivity|split; [repeat split|split; [exact H|auto]]]. Qed.

Lemma next_rand_osame s : osame s (snd (next_rand s)).
Proof. unfold next_rand. destruct (rands s); [apply set_stuck_osame|apply set_oracle_osame, incl_refl]. Qed.
Lemma next_ln_osame s : osame s (snd (next_ln s)).
Proof.
  unfold next_ln. destruct (lns s) eqn:E; [apply set_stuck_osame|].
  apply set_oracle_osame. rewrite E. apply incl_tl, incl_refl.
Qed.
Lemma next_draw_osame s : osame s (snd (next_draw s)).
Proof. unfold next_draw. destruct (draws s); [apply set_stuck_osame|apply set_oracle_osame, incl_refl]. Qed.

Lemma next_ln_val s : fst (next_ln s) = 0 \/ In (fst (next_ln s)) (lns s).
Proof. unfold next_ln. destruct (lns s); cbn; auto. Qed.

Lemma trials_osame p x els s : osame s (snd (trials p x els s)).
Proof.
  revert s. induction els as [|e els IH]; intros s; cbn [trials]; [apply osame_refl|].
  pose proof (next_rand_osame s) as H. destruct (next_rand s) as [r s1].
  specialize (IH s1). destruct (trials p x els s1) as [sel s2]. exact (osame_trans _ _ _ H IH).
Qed.

Lemma elem_trials_osame x s : osame s (snd (elem_trials x s)).
Proof.
  unfold elem_trials. destruct (locus s _); [apply osame_refl|].
  destruct (Qltb _ _); [apply trials_osame|apply osame_refl].
Qed.

Lemma fixed_trial_osame x s : osame s (snd (fixed_trial x s)).
Proof.
  unfold fixed_trial. destruct (locus s _); [apply osame_refl|]. destruct (Qltb _ _); [|apply osame_refl].
  pose proof (next_rand_osame s) as H. destruct (next_rand s) as [r s1].
  destruct (Qle_bool r _); [|exact H].
  pose proof (next_draw_osame s1) as H1. destruct (next_draw s1) as [k s2]. exact (osame_trans _ _ _ H H1).
Qed.

(* one part of the tranche after another *)
Lemma osame_then {A} s (r : list A * st W) (k : st W -> list A * st W) :
  osame s (snd r) -> (forall s1, osame s1 (snd (k s1))) ->
  osame s (snd (let '(sel, s1) := r in let '(sel', s2) := k s1 in (sel ++ sel', s2))).
Proof.
  intros H K. destruct r as [sel s1]. specialize (K s1). destruct (k s1) as [sel' s2].
  exact (osame_trans _ _ _ H K).
Qed.

Lemma tranche_elem_osame evs s : osame s (snd (tranche_elem evs s)).
Proof.
  revert s. induction evs as [|x evs IH]; intros s; [apply osame_refl|].
  rewrite tranche_elem_cons. apply osame_then; [apply elem_trials_osame|exact IH].
Qed.

Lemma tranche_fixed_osame evs s : osame s (snd (tranche_fixed evs s)).
Proof.
  revert s. induction evs as [|x evs IH]; intros s; [apply osame_refl|].
  rewrite tranche_fixed_cons. apply osame_then; [apply fixed_trial_osame|exact IH].
Qed.

Lemma tranche_osame tb s : osame s (snd (tranche tb s)).
Proof. apply osame_then; [apply tranche_elem_osame|intro; apply tranche_fixed_osame]. Qed.

Definition nonneg_tb (tb : table W) : Prop :=
  Forall (fun p => Forall (fun ev => 0 <= ev_p ev) (p_events p)) (t_procs tb).

Lemma index_events_nonneg pi j evs : Forall (fun ev => 0 <= ev_p ev) evs ->
  Forall (fun x : nat * nat * event => 0 <= ev_p (snd x)) (index_events pi j evs).
Proof.
  revert j. induction evs as [|e evs IH]; intros j H; cbn; [constructor|].
  inversion H; subst. constructor; [assumption|apply IH; assumption].
Qed.

Lemma all_events_nonneg (tb : table W) : nonneg_tb tb ->
  Forall (fun x : nat * nat * event => 0 <= ev_p (snd x)) (all_events tb).
Proof.
  unfold nonneg_tb, all_events. generalize 0%nat. induction (t_procs tb) as [|p ps IH]; intros pi H; cbn; [constructor|].
  inversion H; subst. apply Forall_app. split; [apply index_events_nonneg; assumption|apply IH; assumption].
Qed.

Lemma transitions_nonneg (tb : table W) : nonneg_tb tb ->
  Forall (fun x : nat * nat * event => 0 <= ev_p (snd x)) (transitions tb).
Proof.
  intros H. apply all_events_nonneg in H. unfold transitions, per_element, fixed_rate.
  rewrite Forall_forall in *. intros x Hx. apply in_app_or in Hx.
  destruct Hx as [Hx|Hx]; apply filter_In in Hx; apply H, Hx.
Qed.

Lemma qlen_nonneg l : 0 <= qlen l.
Proof. unfold qlen. change 0 with (inject_Z 0). rewrite <- Zle_Qle. lia. Qed.

Lemma rate_nonneg s x : 0 <= ev_p (snd x) -> 0 <= rate s x.
Proof.
  intros H. unfold rate. destruct (ev_elem (snd x)); [|exact H].
  rewrite Qred_correct. apply Qmult_le_0_compat; [exact H|apply qlen_nonneg].
Qed.

Lemma sum_rates_nonneg s trs : Forall (fun x : nat * nat * event => 0 <= ev_p (snd x)) trs -> 0 <= sum_rates s trs.
Proof.
  unfold sum_rates. intros H.
  assert (G : forall a, 0 <= a -> 0 <= fold_left (fun a x => Qred (a + rate s x)) trs a); [|apply G; lra].
  induction trs as [|x trs IH]; intros a Ha; cbn [fold_left]; [exact Ha|].
  inversion H; subst. apply IH; [assumption|]. rewrite Qred_correct.
  pose proof (rate_nonneg s x H2). lra.
Qed.

Lemma dt_nonneg a ln : 0 <= a -> Qeq_bool a 0 = false -> 0 <= ln -> 0 <= Qred ((1 / a) * ln).
Proof.
  intros Ha Hne Hln. rewrite Qred_correct.
  assert (Hpos : 0 < a).
  { destruct (Qlt_le_dec 0 a) as [H|H]; [exact H|]. exfalso.
    assert (E : a == 0) by lra. apply Qeq_bool_iff in E. congruence. }
  apply Qmult_le_0_compat; [|exact Hln].
  unfold Qdiv. rewrite Qmult_1_l. apply Qlt_le_weak, Qinv_lt_0_compat, Hpos.
Qed.

(* one iteration of the stochastic loop after its exit test: stop, or continue at time [nt]
   having executed [n] events and fired the posted entries [l] *)
Inductive step_res := Stop (s : st W) | Cont (nt : Q) (n : nat) (s : st W) (l : list entry).

Definition stoch_step (tb : table W) (pf : nat) (t : Q) (s : st W) : step_res :=
  let trs := transitions tb in
  let a := sum_rates s trs in
  if Qeq_bool a 0 then
    match next_pending_time s with
    | (None, s') => Stop s'
    | (Some et, s') => let '(n, s'', l) := run_pendingL tb pf et 0 s' in Cont et n s'' l
    end
  else
    let '(_, s1) := next_rand s in
    let '(ln, s2) := next_ln s1 in
    let dt := Qred ((1 / a) * ln) in
    match trs with
    | [] => Stop (set_stuck s)
    | x0 :: rest =>
        let '(x, s3) := match rest with
                        | [] => (x0, s2)
                        | _ => let '(r2, s3) := next_rand s2 in (select (rate s) (r2 * a) 0 x0 trs, s3)
                        end in
        let nt := Qred (t + dt) in
        let '(n, s4, l) := run_pendingL tb pf nt 0 s3 in
        let s5 := set_clock nt s4 in
        let lc := locus s5 (ev_locus (snd x)) in
        match lc with
        | [] => Cont nt n s5 l
        | _ => let '(k, s6) := next_draw s5 in
               Cont nt (S n) (fire_event tb x nt (nth (k mod length lc) lc (EN 0)) s6) l
        end
    end.

Definition at_end (tb : table W) (t : Q) (s : st W) : bool :=
  Qle_bool (t_maxtime tb) t || t_equil tb (loci s) (world s).

Fixpoint stoch_loopL (tb : table W) (pf fuel : nat) (t : Q) (events : nat) (s : st W) : Q * nat * st W * list entry :=
  match fuel with
  | O => (t, events, set_stuck s, [])
  | S f =>
      if at_end tb t s then (t, events, s, [])
      else match stoch_step tb pf t s with
           | Stop s' => (t, events, s', [])
           | Cont nt n s' l =>
               let '(t', ev', sf, l') := stoch_loopL tb pf f nt (events + n) s' in (t', ev', sf, l ++ l')
           end
  end.

Lemma stoch_loopL_fst tb pf fuel t events s :
  fst (stoch_loopL tb pf fuel t events s) = stoch_loop tb pf fuel t events s.
Proof.
  revert t events s. induction fuel as [|f IH]; intros t events s; cbn [stoch_loopL stoch_loop]; [reflexivity|].
  unfold at_end. destruct (Qle_bool (t_maxtime tb) t || t_equil tb (loci s) (world s)); [reflexivity|].
  unfold stoch_step.
  destruct (Qeq_bool (sum_rates s (transitions tb)) 0).
  - destruct (next_pending_time s) as [[et|] s']; [|reflexivity].
    rewrite <- (run_pendingL_fst tb pf et 0 s').
    destruct (run_pendingL tb pf et 0 s') as [[n s''] l]. cbn [fst].
    rewrite <- IH. destruct (stoch_loopL tb pf f et (events + n) s'') as [[[t' ev'] sf] l']. reflexivity.
  - destruct (next_rand s) as [r1 s1]. destruct (next_ln s1) as [ln s2].
    destruct (transitions tb) as [|x0 rest]; [reflexivity|].
    destruct (match rest with [] => (x0, s2) | _ :: _ => _ end) as [x s3].
    rewrite <- (run_pendingL_fst tb pf _ 0 s3).
    destruct (run_pendingL tb pf _ 0 s3) as [[n s4] l]. cbn [fst].
    destruct (locus (set_clock _ s4) (ev_locus (snd x))) as [|e0 lc].
    + rewrite <- IH. destruct (stoch_loopL tb pf f _ (events + n) _) as [[[t' ev'] sf] l']. reflexivity.
    + destruct (next_draw (set_clock _ s4)) as [k s6].
      rewrite <- IH, Nat.add_succ_r. destruct (stoch_loopL tb pf f _ _ _) as [[[t' ev'] sf] l']. reflexivity.
Qed.

Inductive step_spec (tb : table W) (pf : nat) (t : Q) (s : st W) : step_res -> Prop :=
| sp_none : head (queue (discard s)) = None -> step_spec tb pf t s (Stop (discard s))
| sp_stuck : step_spec tb pf t s (Stop (set_stuck s))
| sp_pend h n s' l : head (queue (discard s)) = Some h ->
    run_pendingL tb pf (e_time h) 0 (discard s) = (n, s', l) -> step_spec tb pf t s (Cont (e_time h) n s' l)
| sp_ev0 s3 nt n s4 l : osame s s3 -> (nonneg_tb tb -> Forall (Qle 0) (lns s) -> t <= nt) ->
    run_pendingL tb pf nt 0 s3 = (n, s4, l) -> step_spec tb pf t s (Cont nt n (set_clock nt s4) l)
| sp_ev1 s3 nt n s4 l s6 x e : osame s s3 -> (nonneg_tb tb -> Forall (Qle 0) (lns s) -> t <= nt) ->
    run_pendingL tb pf nt 0 s3 = (n, s4, l) -> osame (set_clock nt s4) s6 ->
    step_spec tb pf t s (Cont nt (S n) (fire_event tb x nt e s6) l).

Lemma stoch_step_spec tb pf t s : step_spec tb pf t s (stoch_step tb pf t s).
Proof.
  unfold stoch_step.
  destruct (Qeq_bool (sum_rates s (transitions tb)) 0) eqn:Ea.
  - unfold next_pending_time. destruct (head (queue (discard s))) as [h|] eqn:Eh; cbn [option_map].
    + destruct (run_pendingL tb pf (e_time h) 0 (discard s)) as [[n s''] l] eqn:E.
      eapply sp_pend; eassumption.
    + apply sp_none. exact Eh.
  - pose proof (next_rand_osame s) as H1. destruct (next_rand s) as [r1 s1]. cbn [snd] in H1.
    pose proof (next_ln_osame s1) as H2. pose proof (next_ln_val s1) as Hv.
    destruct (next_ln s1) as [ln s2]. cbn [snd fst] in H2, Hv.
    destruct (transitions tb) as [|x0 rest] eqn:Et; [apply sp_stuck|].
    destruct (match rest with [] => (x0, s2) | _ :: _ => _ end) as [x s3] eqn:E3.
    assert (Hs3 : osame s s3).
    { apply (osame_trans _ _ _ H1), (osame_trans _ _ _ H2). apply (f_equal snd) in E3. cbn [snd] in E3. subst s3.
      destruct rest; [apply osame_refl|]. pose proof (next_rand_osame s2) as H. destruct (next_rand s2). exact H. }
    assert (Hnt : nonneg_tb tb -> Forall (Qle 0) (lns s) -> t <= Qred (t + Qred (1 / sum_rates s (x0 :: rest) * ln))).
    { intros Hnn Hl.
      assert (0 <= Qred (1 / sum_rates s (x0 :: rest) * ln)); [|rewrite Qred_correct; lra].
      apply dt_nonneg; [|exact Ea|].
      - apply sum_rates_nonneg. rewrite <- Et. apply transitions_nonneg, Hnn.
      - destruct Hv as [->|Hv]; [lra|]. rewrite Forall_forall in Hl. apply Hl.
        destruct H1 as [_ [_ [Hi _]]]. apply Hi. exact Hv. }
    destruct (run_pendingL tb pf _ 0 s3) as [[n s4] l] eqn:E.
    destruct (locus (set_clock _ s4) (ev_locus (snd x))) as [|e0 lc].
    + eapply sp_ev0; eassumption.
    + pose proof (next_draw_osame (set_clock (Qred (t + Qred (1 / sum_rates s (x0 :: rest) * ln))) s4)) as H6.
      destruct (next_draw (set_clock _ s4)) as [k s6]. cbn [snd] in H6.
      eapply sp_ev1; eassumption.
Qed.

(* induction over the stochastic loop: an invariant of the loop head (time, events, state, fired so far) *)
Lemma stoch_loopL_inv (tb : table W) (pf : nat) (I : Q -> nat -> st W -> list entry -> Prop) :
  (forall t ev s lg, I t ev s lg -> I t ev (set_stuck s) lg) ->
  (forall t ev s lg r, I t ev s lg -> at_end tb t s = false -> step_spec tb pf t s r ->
     match r with Stop s' => I t ev s' lg | Cont nt n s' l => I nt (ev + n)%nat s' (lg ++ l) end) ->
  forall {fuel t ev s lg t' ev' s' l'}, I t ev s lg ->
    stoch_loopL tb pf fuel t ev s = (t', ev', s', l') -> I t' ev' s' (lg ++ l').
Proof.
  intros Hst Hstep. induction fuel as [|f IH]; intros t ev s lg t' ev' s' l' HI; cbn [stoch_loopL].
  - intros [= <- <- <- <-]. rewrite app_nil_r. apply Hst, HI.
  - destruct (at_end tb t s) eqn:Em; [intros [= <- <- <- <-]; rewrite app_nil_r; exact HI|].
    pose proof (Hstep t ev s lg _ HI Em (stoch_step_spec tb pf t s)) as H.
    destruct (stoch_step tb pf t s) as [s1|nt n s1 l]; [intros [= <- <- <- <-]; rewrite app_nil_r; exact H|].
    destruct (stoch_loopL tb pf f nt (ev + n) s1) as [[[t1 ev1] sf] l1] eqn:E. intros [= <- <- <- <-].
    rewrite app_assoc. eapply IH; eassumption.
Qed.

Definition sync_step (tb : table W) (pf : nat) (t : Q) (s : st W) : nat * st W * list entry :=
  let s0 := set_clock t s in
  let '(n, s1, l) := run_pendingL tb pf t 0 s0 in
  let s1' := set_clock t s1 in
  let '(evs, s2) := tranche tb s1' in
  let '(nev, s3) := fire_tranche tb t evs n s2 in (nev, s3, l).

Fixpoint sync_loopL (tb : table W) (pf fuel : nat) (t : Q) (events steps : nat) (s : st W)
  : Q * nat * nat * st W * list entry :=
  match fuel with
  | O => (t, events, steps, set_stuck s, [])
  | S f =>
      if at_end tb t s then (t, events, steps, s, [])
      else
        let '(nev, s3, l) := sync_step tb pf t s in
        let '(t', ev', st', sf, l') :=
          sync_loopL tb pf f (Qred (t + 1)) (events + nev) (if (0 <? nev)%nat then S steps else steps) s3 in
        (t', ev', st', sf, l ++ l')
  end.

Lemma sync_loopL_fst tb pf fuel t events steps s :
  fst (sync_loopL tb pf fuel t events steps s) = sync_loop tb pf fuel t events steps s.
Proof.
  revert t events steps s. induction fuel as [|f IH]; intros t events steps s; cbn [sync_loopL sync_loop]; [reflexivity|].
  unfold at_end. destruct (Qle_bool (t_maxtime tb) t || t_equil tb (loci s) (world s)); [reflexivity|].
  unfold sync_step. rewrite <- (run_pendingL_fst tb pf t 0 (set_clock t s)).
  destruct (run_pendingL tb pf t 0 (set_clock t s)) as [[n s1] l]. cbn [fst].
  destruct (tranche tb (set_clock t s1)) as [evs s2].
  destruct (fire_tranche tb t evs n s2) as [nev s3].
  rewrite <- IH. destruct (sync_loopL tb pf f _ _ _ s3) as [[[[t' ev'] st'] sf] l']. reflexivity.
Qed.

Inductive sync_spec (tb : table W) (pf : nat) (t : Q) (s : st W) : nat * st W * list entry -> Prop :=
| sy_step n s1 l s2 evs nev s3 : run_pendingL tb pf t 0 (set_clock t s) = (n, s1, l) ->
    osame (set_clock t s1) s2 -> fire_tranche tb t evs n s2 = (nev, s3) -> sync_spec tb pf t s (nev, s3, l).

Lemma sync_step_spec tb pf t s : sync_spec tb pf t s (sync_step tb pf t s).
Proof.
  unfold sync_step. destruct (run_pendingL tb pf t 0 (set_clock t s)) as [[n s1] l] eqn:E.
  pose proof (tranche_osame tb (set_clock t s1)) as H. destruct (tranche tb (set_clock t s1)) as [evs s2].
  cbn [snd] in H. destruct (fire_tranche tb t evs n s2) as [nev s3] eqn:E2.
  eapply sy_step; eassumption.
Qed.

Lemma fire_tranche_inv (tb : table W) (t : Q) (I : nat -> st W -> Prop) :
  (forall nev s x e, I nev s -> I (S nev) (fire_event tb x t e s)) ->
  forall {evs nev s nev' s'}, I nev s -> fire_tranche tb t evs nev s = (nev', s') -> I nev' s'.
Proof.
  intros Hf. induction evs as [|[x e] evs IH]; intros nev s nev' s' HI; cbn [fire_tranche].
  - intros [= <- <-]. exact HI.
  - destruct (mem e (locus s (ev_locus (snd x)))); [|apply IH; exact HI].
    apply IH. apply Hf, HI.
Qed.

Lemma sync_loopL_inv (tb : table W) (pf : nat) (I : Q -> nat -> nat -> st W -> list entry -> Prop) :
  (forall t ev k s lg, I t ev k s lg -> I t ev k (set_stuck s) lg) ->
  (forall t ev k s lg nev s' l, I t ev k s lg -> at_end tb t s = false -> sync_spec tb pf t s (nev, s', l) ->
     I (Qred (t + 1)) (ev + nev)%nat (if (0 <? nev)%nat then S k else k) s' (lg ++ l)) ->
  forall {fuel t ev k s lg t' ev' k' s' l'}, I t ev k s lg ->
    sync_loopL tb pf fuel t ev k s = (t', ev', k', s', l') -> I t' ev' k' s' (lg ++ l').
Proof.
  intros Hst Hstep. induction fuel as [|f IH]; intros t ev k s lg t' ev' k' s' l' HI; cbn [sync_loopL].
  - intros [= <- <- <- <- <-]. rewrite app_nil_r. apply Hst, HI.
  - destruct (at_end tb t s) eqn:Em; [intros [= <- <- <- <- <-]; rewrite app_nil_r; exact HI|].
    pose proof (sync_step_spec tb pf t s) as Hs.
    destruct (sync_step tb pf t s) as [[nev s3] l].
    pose proof (Hstep t ev k s lg nev s3 l HI Em Hs) as H.
    destruct (sync_loopL tb pf f _ _ _ s3) as [[[[t1 ev1] k1] sf] l1] eqn:E. intros [= <- <- <- <- <-].
    rewrite app_assoc. eapply IH; eassumption.
Qed.

Definition init_state (tb : table W) (rs ls : list Q) (ds : list nat) : st W :=
  {| clock := 0; nextid := 0; queue := []; loci := init_loci tb; world := t_world tb;
     ids := []; out := []; rands := rs; lns := ls; draws := ds; stuck := false |}.

Lemma setup_fold_umoves (ps : list proc) (k : nat) s :
  let s' := fst (fold_left (fun (acc : st W * nat) p => (run_actions (snd acc) 0 (EN 0) (p_setup p) (fst acc), S (snd acc))) ps (s, k)) in
  umoves (core_of s) (core_of s') /\ oracle_of s' = oracle_of s.
Proof.
  revert k s. induction ps as [|p ps IH]; intros k s; cbn [fold_left fst snd].
  - split; [apply us_refl|reflexivity].
  - destruct (IH (S k) (run_actions k 0 (EN 0) (p_setup p) s)) as [A B]. split.
    + eapply umoves_trans; [apply run_actions_umoves|exact A].
    + rewrite B. apply run_actions_oracle.
Qed.

Lemma setup_state_umoves tb rs ls ds :
  umoves (core_of (init_state tb rs ls ds)) (core_of (setup_state tb rs ls ds))
  /\ okeep (init_state tb rs ls ds) (setup_state tb rs ls ds).
Proof.
  destruct (setup_fold_umoves (t_procs tb) 0 (init_state tb rs ls ds)) as [A B].
  split; [exact A|apply oracle_okeep, B].
Qed.

End L.

(* A predicate on the state and the log of fired entries that is preserved by the primitive steps
   of the kernel (getting stuck, reading the oracle, discarding dead heads, setting the clock,
   firing the live head, firing a stochastic event at the clock) holds along run_pending, along
   one step of either loop, and along the loops. *)
Section Lift.
Context {W : Type}.
Implicit Types s : st W.
Variable tb : table W.
Variable P : st W -> list entry -> Prop.
Hypothesis P_stuck : forall s lg, P s lg -> P (set_stuck s) lg.
Hypothesis P_osame : forall s s' lg, osame s s' -> P s lg -> P s' lg.
Hypothesis P_discard : forall s lg, P s lg -> P (discard s) lg.
Hypothesis P_clock : forall c s lg, P s lg -> P (set_clock c s) lg.
Hypothesis P_pend : forall h s0 lg, head (queue s0) = Some h -> e_live h = true -> P s0 lg ->
  P (pend_step tb h s0) (lg ++ [h]).
Hypothesis P_event : forall x t e s lg, clock s = t -> P s lg -> P (fire_event tb x t e s) lg.

Lemma lift_run_pendingL {fuel t n s lg n' s' l} :
  P s lg -> run_pendingL tb fuel t n s = (n', s', l) -> P s' (lg ++ l).
Proof.
  intros HP H. revert lg HP.
  refine (run_pendingL_ind tb t (fun _ s _ s' l => forall lg, P s lg -> P s' (lg ++ l)) _ _ _ fuel n s n' s' l H).
  - intros _ s0 lg HP. rewrite app_nil_r. apply P_stuck, HP.
  - intros _ s0 _ lg HP. rewrite app_nil_r. apply P_discard, HP.
  - intros _ s0 h _ s1 l1 Eh Hl _ IH lg HP. change (h :: l1) with ([h] ++ l1). rewrite app_assoc.
    apply IH, P_pend; [exact Eh|exact Hl|apply P_discard, HP].
Qed.

Lemma lift_fire_tranche {t evs nev s lg nev' s'} :
  clock s = t -> P s lg -> fire_tranche tb t evs nev s = (nev', s') -> P s' lg.
Proof.
  intros Hc HP H.
  refine (proj1 (fire_tranche_inv tb t (fun _ sx => P sx lg /\ clock sx = t) _ (conj HP Hc) H)).
  intros _ sx x e [A B]. split; [apply P_event; assumption|rewrite fire_event_clock; exact B].
Qed.

Lemma lift_stoch_step {pf t s lg r} : P s lg -> step_spec tb pf t s r ->
  match r with Stop s' => P s' lg | Cont _ _ s' l => P s' (lg ++ l) end.
Proof.
  intros HP Hs.
  destruct Hs as [Hnone | | h n s2 l1 Hh Hrp | s3 nt n s4 l1 Hos Hnt Hrp | s3 nt n s4 l1 s6 x e Hos Hnt Hrp Hos6].
  - apply P_discard, HP.
  - apply P_stuck, HP.
  - exact (lift_run_pendingL (P_discard _ _ HP) Hrp).
  - apply P_clock. exact (lift_run_pendingL (P_osame _ _ _ Hos HP) Hrp).
  - apply P_event; [exact (osame_clock _ _ Hos6)|].
    apply (P_osame _ _ _ Hos6), P_clock.
    exact (lift_run_pendingL (P_osame _ _ _ Hos HP) Hrp).
Qed.

Lemma lift_stoch_loopL {pf fuel t ev s lg t' ev' s' l} :
  P s lg -> stoch_loopL tb pf fuel t ev s = (t', ev', s', l) -> P s' (lg ++ l).
Proof.
  intros HP H.
  refine (stoch_loopL_inv tb pf (fun _ _ s lg => P s lg) _ _ HP H).
  - intros _ _ s1 lg1. apply P_stuck.
  - intros t1 _ s1 lg1 r HP1 _ Hs. exact (lift_stoch_step HP1 Hs).
Qed.

Lemma lift_sync_step {pf t s lg nev s' l} : P s lg -> sync_spec tb pf t s (nev, s', l) -> P s' (lg ++ l).
Proof.
  intros HP Hs. inversion Hs as [n s0 l0 s2 evs nev1 s31 Hrp Hos Hft]; subst.
  refine (lift_fire_tranche _ _ Hft).
  - exact (osame_clock _ _ Hos).
  - apply (P_osame _ _ _ Hos), P_clock.
    exact (lift_run_pendingL (P_clock _ _ _ HP) Hrp).
Qed.

Lemma lift_sync_loopL {pf fuel t ev k s lg t' ev' k' s' l} :
  P s lg -> sync_loopL tb pf fuel t ev k s = (t', ev', k', s', l) -> P s' (lg ++ l).
Proof.
  intros HP H.
  refine (sync_loopL_inv tb pf (fun _ _ _ s lg => P s lg) _ _ HP H).
  - intros _ _ _ s1 lg1. apply P_stuck.
  - intros t1 _ _ s1 lg1 nev s3 l1 HP1 _ Hs. exact (lift_sync_step HP1 Hs).
Qed.

End Lift.

Definition res_state {W : Type} (r : @step_res W) : st W :=
  match r with Stop s' | Cont _ _ s' _ => s' end.

Section Omono.
Context {W : Type}.
Variable tb : table W.
Variable s : st W.

Let P (s1 : st W) (_ : list entry) : Prop := omono s s1.
Let P_stuck s1 lg (M : P s1 lg) : P (set_stuck s1) lg := omono_trans M (osame_omono (set_stuck_osame s1)).
Let P_osame s1 s2 lg (O : osame s1 s2) (M : P s1 lg) : P s2 lg := omono_trans M (osame_omono O).
Let P_same s1 lg (M : P s1 lg) : P s1 lg := M.
Let P_pend h s0 lg (_ : head (queue s0) = Some h) (_ : e_live h = true) (M : P s0 lg) :
  P (pend_step tb h s0) (lg ++ [h]) := omono_trans M (okeep_omono _ _ (pend_step_okeep tb h s0)).
Let P_event x t e s1 lg (_ : clock s1 = t) (M : P s1 lg) : P (fire_event tb x t e s1) lg :=
  omono_trans M (okeep_omono _ _ (fire_event_okeep tb x t e s1)).

Lemma step_spec_omono {pf t r} : step_spec tb pf t s r -> omono s (res_state r).
Proof.
  intros H.
  pose proof (lift_stoch_step tb P P_stuck P_osame P_same (fun _ => P_same) P_pend P_event (omono_refl s) H (lg := [])) as G.
  destruct r; exact G.
Qed.

Lemma sync_spec_omono {pf t nev s' l} : sync_spec tb pf t s (nev, s', l) -> omono s s'.
Proof. exact (lift_sync_step tb P P_stuck P_osame P_same (fun _ => P_same) P_pend P_event (omono_refl s) (lg := [])). Qed.

End Omono.
Arguments step_spec_omono {W tb s pf t r}.
Arguments sync_spec_omono {W tb s pf t nev s' l}.
