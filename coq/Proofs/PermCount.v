(* Counting permutations by the set of their first k elements (C14, uniformity):
   a uniformly random permutation of a duplicate-free list has a uniformly random k-subset as prefix.
   Stated and proved as a counting theorem over the explicit enumeration [perms] of all permutations:
   exactly  k! * (n-k)!  of the n! permutations of [es] have a given k-subset S as their first k elements
   ([prefix_count]).  Last, the index permutations of 0..n-1 enumerate the rearrangements of a list
   ([apply_all_perms]), which carries the count over to the shuffles of Percolate ([occupied_filter]). *)
From Coq Require Import List ZArith QArith Qround Bool Arith Lia Permutation.
From EpyV Require Import Lib.Prelude Lib.Lists Model.Percolate.
Import ListNotations.
Local Close Scope Q_scope.

Lemma skipn_app_len {A} (a b : list A) k : length a = k -> skipn k (a ++ b) = b.
Proof. intros <-. induction a as [|x a IH]; cbn; [reflexivity | exact IH]. Qed.

Section Perms.
  Context {A : Type}.

  (* x inserted at every position of l *)
  Fixpoint inserts (x : A) (l : list A) : list (list A) :=
    match l with
    | [] => [[x]]
    | y :: t => (x :: y :: t) :: map (cons y) (inserts x t)
    end.

  Fixpoint perms (l : list A) : list (list A) :=
    match l with
    | [] => [[]]
    | x :: t => flat_map (inserts x) (perms t)
    end.

  Lemma in_inserts x l p : In p (inserts x l) <-> Add x l p.
  Proof.
    revert p. induction l as [|y t IH]; intros p; cbn.
    - split; [intros [<-|[]]; constructor | intros H; inversion H; auto].
    - split.
      + intros [<-|H]; [constructor|]. apply in_map_iff in H. destruct H as (q & <- & Hq).
        constructor. apply IH, Hq.
      + intros H. inversion H; subst; [left; reflexivity | right; apply in_map, IH; assumption].
  Qed.

  Lemma inserts_length x l : length (inserts x l) = S (length l).
  Proof. induction l as [|y t IH]; cbn; [reflexivity|]. rewrite map_length, IH. reflexivity. Qed.

  Lemma inserts_NoDup x l : ~ In x l -> NoDup (inserts x l).
  Proof.
    induction l as [|y t IH]; cbn; intros Hn.
    - repeat constructor. intros [].
    - constructor.
      + intros H. apply in_map_iff in H. destruct H as (q & [= E _] & _). apply Hn. left; exact E.
      + apply FinFun.Injective_map_NoDup; [intros a b [= E]; exact E|].
        apply IH. intros H. apply Hn. right; exact H.
  Qed.

  Lemma perms_sound l p : In p (perms l) -> Permutation p l.
  Proof.
    revert p. induction l as [|x t IH]; intros p; cbn.
    - intros [<-|[]]. constructor.
    - intros H. apply in_flat_map in H. destruct H as (q & Hq & Hp). apply in_inserts in Hp.
      rewrite <- (Permutation_Add Hp). apply perm_skip, IH, Hq.
  Qed.

  Lemma perms_complete l p : Permutation p l -> In p (perms l).
  Proof.
    revert p. induction l as [|x t IH]; intros p P; cbn.
    - apply Permutation_sym, Permutation_nil in P. subst p. left; reflexivity.
    - destruct (Add_inv x p) as (q & Hq); [apply (Permutation_in _ (Permutation_sym P)); left; reflexivity|].
      apply in_flat_map. exists q. split; [|apply in_inserts, Hq].
      apply IH. exact (Permutation_Add_inv P Hq (Add_head x t)).
  Qed.

  Lemma perms_spec l p : In p (perms l) <-> Permutation p l.
  Proof. split; [apply perms_sound | apply perms_complete]. Qed.

  Lemma perms_length l : length (perms l) = fact (length l).
  Proof.
    induction l as [|x t IH]; [reflexivity|].
    cbn [perms]. rewrite (flat_map_const_length (inserts x) (perms t) (S (length t))).
    - rewrite IH. change (fact (length (x :: t))) with (S (length t) * fact (length t)). apply Nat.mul_comm.
    - intros q Hq. rewrite inserts_length. f_equal. apply Permutation_length, perms_sound, Hq.
  Qed.

  Lemma perms_NoDup l : NoDup l -> NoDup (perms l).
  Proof.
    induction l as [|x t IH]; intros ND; cbn.
    - repeat constructor. intros [].
    - inversion ND as [|? ? Hn ND']; subst.
      assert (Hq : forall q, In q (perms t) -> ~ In x q).
      { intros q Hq H. apply Hn. eapply Permutation_in; [apply perms_sound; exact Hq | exact H]. }
      apply NoDup_flat_map.
      + apply IH, ND'.
      + intros q Hin. apply inserts_NoDup, Hq, Hin.
      + intros q q' p Hin _ Hp Hp'. apply in_inserts in Hp, Hp'.
        exact (Add_unique x q q' p (Hq q Hin) Hp Hp').
  Qed.

  Variable eqb : A -> A -> bool.
  Hypothesis eqb_spec : forall x y, eqb x y = true <-> x = y.

  Definition memb (x : A) (l : list A) : bool := existsb (eqb x) l.
  Definition same_elts (a b : list A) : bool :=
    forallb (fun x => memb x b) a && forallb (fun x => memb x a) b.

  (* these are [memb] and [set_eqb] of Lib/Prelude *)
  Lemma same_elts_spec a b : same_elts a b = true <-> (forall x, In x a <-> In x b).
  Proof. exact (set_eqb_spec eqb eqb_spec a b). Qed.

  Section Count.
    Variables (es S : list A).
    Hypothesis NDes : NoDup es.
    Hypothesis NDS : NoDup S.
    Hypothesis Sub : incl S es.

    (* the complement of S in es *)
    Let R := filter (fun x => negb (memb x S)) es.

    Lemma in_R x : In x R <-> In x es /\ ~ In x S.
    Proof.
      unfold R. rewrite filter_In, negb_true_iff, <- not_true_iff_false.
      apply and_iff_compat_l, not_iff_compat, (memb_In eqb eqb_spec).
    Qed.

    Lemma NoDup_R : NoDup R.
    Proof. apply NoDup_filter, NDes. Qed.

    Lemma split_Permutation : Permutation (S ++ R) es.
    Proof.
      apply NoDup_Permutation; [|exact NDes|].
      - apply NoDup_app_iff. split; [exact NDS | split; [exact NoDup_R|]].
        intros x Hs Hr. apply in_R in Hr. exact (proj2 Hr Hs).
      - intros x. rewrite in_app_iff, in_R. split.
        + intros [H|[H _]]; [apply Sub, H | exact H].
        + intros H. destruct (memb x S) eqn:E.
          * left. apply (memb_In eqb eqb_spec), E.
          * right. split; [exact H|]. intros Hs. apply not_true_iff_false in E. apply E, (memb_In eqb eqb_spec), Hs.
    Qed.

    Lemma R_length : length R = length es - length S.
    Proof.
      generalize (Permutation_length split_Permutation). rewrite app_length. lia.
    Qed.

    (* the permutations of es whose first (length S) elements are those of S, listed explicitly *)
    Definition glued : list (list A) := flat_map (fun a => map (app a) (perms R)) (perms S).

    Lemma glued_length : length glued = fact (length S) * fact (length es - length S).
    Proof.
      unfold glued. rewrite (flat_map_const_length _ _ (fact (length R))).
      - rewrite perms_length, R_length. reflexivity.
      - intros a _. rewrite map_length. apply perms_length.
    Qed.

    Lemma glued_NoDup : NoDup glued.
    Proof.
      unfold glued. apply NoDup_flat_map.
      - apply perms_NoDup, NDS.
      - intros a _. apply FinFun.Injective_map_NoDup; [exact (app_inv_head a) | apply perms_NoDup, NoDup_R].
      - intros a a' p Ha Ha' Hp Hp'.
        apply in_map_iff in Hp. destruct Hp as (b & <- & _).
        apply in_map_iff in Hp'. destruct Hp' as (b' & E & _).
        assert (La : length a = length S) by apply Permutation_length, perms_sound, Ha.
        assert (La' : length a' = length S) by apply Permutation_length, perms_sound, Ha'.
        rewrite <- (firstn_app_len a b (length S) La), <- (firstn_app_len a' b' (length S) La'), E.
        reflexivity.
    Qed.

    Lemma in_glued p :
      In p glued <-> In p (perms es) /\ same_elts (firstn (length S) p) S = true.
    Proof.
      unfold glued. rewrite in_flat_map. split.
      - intros (a & Ha & Hp). apply in_map_iff in Hp. destruct Hp as (b & <- & Hb).
        apply perms_sound in Ha. apply perms_sound in Hb. split.
        + apply perms_complete. rewrite <- split_Permutation. apply Permutation_app; assumption.
        + rewrite (firstn_app_len a b _ (Permutation_length Ha)).
          apply same_elts_spec. intros x. split; apply Permutation_in; [|symmetry]; exact Ha.
      - intros [Hp Hs]. apply perms_sound in Hp.
        (* the prefix is a permutation of S; cancelling it from  prefix ++ rest ~ es ~ S ++ R  leaves rest ~ R *)
        assert (Pf : Permutation (firstn (length S) p) S).
        { apply NoDup_Permutation; [|exact NDS | apply same_elts_spec, Hs].
          apply (NoDup_app_iff _ (skipn (length S) p)). rewrite firstn_skipn.
          exact (Permutation_NoDup (Permutation_sym Hp) NDes). }
        exists (firstn (length S) p). split; [apply perms_complete, Pf|].
        apply in_map_iff. exists (skipn (length S) p). split; [apply firstn_skipn|].
        apply perms_complete, (Permutation_app_inv_l S).
        rewrite <- Pf at 1. rewrite firstn_skipn, split_Permutation. exact Hp.
    Qed.

    Theorem prefix_count :
      length (filter (fun p => same_elts (firstn (length S) p) S) (perms es))
      = fact (length S) * fact (length es - length S).
    Proof.
      rewrite <- glued_length. apply Permutation_length, NoDup_Permutation.
      - apply NoDup_filter, perms_NoDup, NDes.
      - exact glued_NoDup.
      - intros p. rewrite filter_In. symmetry. apply in_glued.
    Qed.

    (* the same with a cut position k that may exceed the length (firstn then takes everything) *)
    Theorem prefix_count_min k : length S = Nat.min k (length es) ->
      length (filter (fun p => same_elts (firstn k p) S) (perms es))
      = fact (length S) * fact (length es - length S).
    Proof.
      intros Hk. rewrite <- prefix_count. f_equal. apply filter_ext_in.
      intros p Hp. rewrite (firstn_min_len p k), (Permutation_length (perms_sound _ _ Hp)), <- Hk.
      reflexivity.
    Qed.
  End Count.

  Theorem prefix_uniform es S S' k :
    NoDup es -> NoDup S -> NoDup S' -> incl S es -> incl S' es ->
    length S = Nat.min k (length es) -> length S' = Nat.min k (length es) ->
    length (filter (fun p => same_elts (firstn k p) S) (perms es))
    = length (filter (fun p => same_elts (firstn k p) S') (perms es)).
  Proof.
    intros NDes NDS NDS' Sub Sub' Hk Hk'.
    rewrite (prefix_count_min es S NDes NDS Sub k Hk), (prefix_count_min es S' NDes NDS' Sub' k Hk'), Hk, Hk'.
    reflexivity.
  Qed.
End Perms.

(* permutations commute with relabelling: index permutations enumerate element permutations *)
Lemma inserts_map {A B} (f : A -> B) x l : inserts (f x) (map f l) = map (map f) (inserts x l).
Proof.
  induction l as [|y t IH]; cbn; [reflexivity|]. f_equal.
  rewrite IH, !map_map. reflexivity.
Qed.

Lemma perms_map {A B} (f : A -> B) l : perms (map f l) = map (map f) (perms l).
Proof.
  induction l as [|x t IH]; cbn; [reflexivity|].
  rewrite IH. generalize (perms t). intros L. induction L as [|q L IHL]; cbn; [reflexivity|].
  rewrite map_app, IHL, inserts_map. reflexivity.
Qed.

Lemma apply_all_perms {A} (d : A) (l : list A) :
  map (apply_perm d l) (perms (seq 0 (length l))) = perms l.
Proof.
  unfold apply_perm. rewrite <- perms_map, map_nth_seq. reflexivity.
Qed.

(* how C14_uniform compares the occupied list with a given subset *)
Definition same_edges : list edge -> list edge -> bool := same_elts zpair_eqb.

(* counting shuffles by the occupied set is counting the permutations of the edge list by their prefix *)
Lemma occupied_filter nodes es T S :
  length (filter (fun perm => same_edges (occupied (percolate nodes es perm T)) S) (perms (seq 0 (length es))))
  = length (filter (fun p => same_elts zpair_eqb (firstn (occ_of (length es) T) p) S) (perms es)).
Proof.
  rewrite <- apply_all_perms with (d := (0, 0)%Z), <- filter_map_length. reflexivity.
Qed.
