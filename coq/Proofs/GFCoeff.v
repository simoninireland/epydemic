(* Coefficients: ProductGF's enumeration of index pairs is the Cauchy product; scaling;
   the operator layer (subtraction, division, numbers as one-coefficient lists). *)
From Coq Require Import List ZArith QArith Bool Arith Lia Setoid Morphisms.
From EpyV Require Import Lib.Lists Model.GF Proofs.GFSum.
Import ListNotations.
Open Scope Q_scope.

Lemma filter_eq_seq t s n :
  filter (fun b => (b =? t)%nat) (seq s n) = if ((s <=? t) && (t <? s + n))%nat then [t] else [].
Proof.
  revert s. induction n; intros s; simpl.
  - destruct (Nat.leb_spec s t), (Nat.ltb_spec t (s + 0)); simpl; try reflexivity; lia.
  - rewrite IHn.
    destruct (Nat.eqb_spec s t) as [->|Hne].
    + destruct (Nat.leb_spec (S t) t); [lia|]. simpl.
      destruct (Nat.leb_spec t t); [|lia]. destruct (Nat.ltb_spec t (t + S n)); [|lia]. reflexivity.
    + destruct (Nat.leb_spec (S s) t), (Nat.leb_spec s t), (Nat.ltb_spec t (S s + n)), (Nat.ltb_spec t (s + S n));
        simpl; try reflexivity; lia.
Qed.

(* the pairs (a, b), a <= b, a + b = i, for one a *)
Lemma forwards_row i a : (a <= i)%nat ->
  filter (fun p => (fst p + snd p =? i)%nat) (map (fun b => (a, b)) (seq a (S i - a)))
  = if (a <=? i - a)%nat then [(a, (i - a)%nat)] else [].
Proof.
  intros Ha. rewrite filter_map_comm. cbn [fst snd].
  rewrite (filter_ext (fun b => (a + b =? i)%nat) (fun b => (b =? i - a)%nat)).
  2:{ intros b. destruct (Nat.eqb_spec (a + b) i), (Nat.eqb_spec b (i - a)); try reflexivity; lia. }
  rewrite filter_eq_seq.
  destruct (Nat.leb_spec a (i - a)), (Nat.ltb_spec (i - a) (a + (S i - a))); simpl; try reflexivity; lia.
Qed.

Lemma forwards_eq i :
  forwards i = flat_map (fun a => if (a <=? i - a)%nat then [(a, (i - a)%nat)] else []) (seq 0 (S i)).
Proof.
  unfold forwards, cwr2. rewrite filter_flat_map. apply flat_map_ext_in.
  intros a Ha. apply in_seq in Ha. apply forwards_row. lia.
Qed.

Lemma backwards_eq i :
  backwards i = flat_map (fun a => if (a <? i - a)%nat then [((i - a)%nat, a)] else []) (seq 0 (S i)).
Proof.
  unfold backwards. rewrite forwards_eq, filter_flat_map.
  generalize (seq 0 (S i)). induction l; simpl; [reflexivity|].
  rewrite map_app, IHl. f_equal.
  destruct (Nat.leb_spec a (i - a)), (Nat.ltb_spec a (i - a)); simpl; try reflexivity; try lia.
  - destruct (Nat.eqb_spec a (i - a)); [lia|]. reflexivity.
  - destruct (Nat.eqb_spec a (i - a)); [|lia]. reflexivity.
Qed.

Lemma lsum_flat_map_if {A B} (G : B -> Q) (c : A -> bool) (h : A -> B) l :
  lsum (map G (flat_map (fun a => if c a then [h a] else []) l)) == lsum (map (fun a => if c a then G (h a) else 0) l).
Proof.
  rewrite lsum_flat_map. apply lsum_map_ext_in. intros a _. destruct (c a); simpl; ring.
Qed.

(* c = 0; for (i, j) in forwards + backwards: c += F i j   is   Σ_{j<=i} F j (i-j) *)
Lemma index_pairs_sum (F : nat -> nat -> Q) i :
  fold_left (fun c p => c + F (fst p) (snd p)) (index_pairs i) 0 == sumn (S i) (fun j => F j (i - j)%nat).
Proof.
  rewrite fold_left_sum, Qplus_0_l. unfold index_pairs.
  rewrite map_app, lsum_app, forwards_eq, backwards_eq.
  rewrite (lsum_flat_map_if (fun p => F (fst p) (snd p))), (lsum_flat_map_if (fun p => F (fst p) (snd p))).
  rewrite !lsum_seq. cbn [fst snd].
  rewrite (sumn_rev (S i) (fun a => if (a <? i - a)%nat then F (i - a)%nat a else 0)).
  rewrite <- sumn_add. apply sumn_ext. intros a Ha.
  replace (S i - 1 - a)%nat with (i - a)%nat by lia.
  replace (i - (i - a))%nat with a by lia.
  destruct (Nat.leb_spec a (i - a)), (Nat.ltb_spec (i - a) a); try lia; ring.
Qed.

Lemma coeff_Sum a b i : coeff (Sum a b) i == coeff a i + coeff b i.
Proof. reflexivity. Qed.

Lemma coeff_Prod a b i : coeff (Prod a b) i == cauchy (coeff a) (coeff b) i.
Proof. simpl. apply (index_pairs_sum (fun p q => coeff a p * coeff b q)). Qed.

Lemma coeff_ext_cauchy a b a' b' i :
  (forall j, coeff a j == coeff a' j) -> (forall j, coeff b j == coeff b' j) ->
  coeff (Prod a b) i == coeff (Prod a' b') i.
Proof. intros Ha Hb. rewrite !coeff_Prod. apply cauchy_ext; assumption. Qed.

Lemma coeff_scale n g : forall i, coeff (scale n g) i == n * coeff g i.
Proof.
  induction g; intros i.
  - reflexivity.
  - simpl. rewrite IHg1, IHg2. ring.
  - cbn [scale]. rewrite !coeff_Prod. unfold cauchy. rewrite <- sumn_scale.
    apply sumn_ext. intros j _. rewrite IHg1. ring.
Qed.

Lemma coeff_from_coeffs cs i : coeff (from_coeffs cs) i = nth i cs 0.
Proof. reflexivity. Qed.
Lemma coeff_from_function c i : coeff (from_function c) i = c i.
Proof. reflexivity. Qed.

(* a number is the one-coefficient list [n] *)
Lemma coeff_const n i : coeff (from_coeffs [n]) i == if (i =? 0)%nat then n else 0.
Proof. simpl. destruct i as [|[|i]]; reflexivity. Qed.

Lemma coeff_gadd_num f n i : coeff (gadd_num f n) i == coeff f i + (if (i =? 0)%nat then n else 0).
Proof. unfold gadd_num. cbn [coeff]. rewrite <- coeff_const. reflexivity. Qed.
Lemma coeff_gsub f g i : coeff (gsub f g) i == coeff f i - coeff g i.
Proof. unfold gsub. cbn [coeff]. rewrite coeff_scale. ring. Qed.
Lemma coeff_gsub_num f n i : coeff (gsub_num f n) i == coeff f i - (if (i =? 0)%nat then n else 0).
Proof.
  unfold gsub_num. cbn [coeff]. rewrite coeff_const. destruct (i =? 0)%nat; ring.
Qed.

Lemma gdiv_zero f n : n == 0 -> gdiv f n = None.
Proof. intros H. unfold gdiv. apply Qeq_bool_iff in H. rewrite H. reflexivity. Qed.
Lemma gdiv_nonzero f n : ~ n == 0 -> gdiv f n = Some (scale (1 / n) f).
Proof. intros H. unfold gdiv. destruct (Qeq_bool n 0) eqn:E; [apply Qeq_bool_iff in E; contradiction | reflexivity]. Qed.
