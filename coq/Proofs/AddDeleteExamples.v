(* C19, part 5: the documented configurations as concrete tables (what harness/c19.py reads off
   the live objects), their well-formedness, and the concrete runs of Properties/C19.v. *)
From Coq Require Import List ZArith QArith Bool Arith Lia.
From EpyV Require Import Lib.Prelude Model.Kernel Model.Loci Model.Compart Model.AddDelete
                         Proofs.LociBase Proofs.AddDeleteInv Proofs.AddDeleteMain.
Import ListNotations.
Close Scope Q_scope.
Close Scope Z_scope.

(* SIR: S = 1, I = 2, R = 3; loci SI and I as SIR.build registers them *)
Definition sir_tbl : list spec := [EdgeLocus 1 2; NodeLocus 2]%Z.

(* AddDelete alone: one locus *)
Definition cfg_alone (c : nat) : adcfg :=
  {| ac_combo := Alone; ac_deg := c; ac_tbl := []; ac_li := 0; ac_off := 1; ac_S := 1%Z; ac_R := 3%Z |}.
(* class DynamicSIR(SIR, AddDelete): AddDelete.build runs first - loci allnodes, SI, I *)
Definition cfg_inherit (c : nat) : adcfg :=
  {| ac_combo := Inherit; ac_deg := c; ac_tbl := sir_tbl; ac_li := 0; ac_off := 1; ac_S := 1%Z; ac_R := 3%Z |}.
(* class X(AddDelete, SIR): SIR.build runs first - loci SI, I, allnodes *)
Definition cfg_inherit_rev (c : nat) : adcfg :=
  {| ac_combo := Inherit; ac_deg := c; ac_tbl := sir_tbl; ac_li := 2; ac_off := 0; ac_S := 1%Z; ac_R := 3%Z |}.
(* ProcessSequence({disease: SIR(), population: CompartmentedAddDelete()}): loci SI, I, allnodes *)
Definition cfg_sequence (via_disease : bool) (c : nat) : adcfg :=
  {| ac_combo := Sequence via_disease; ac_deg := c; ac_tbl := sir_tbl; ac_li := 2; ac_off := 0; ac_S := 1%Z; ac_R := 3%Z |}.

Definition sir_events (si i : nat) (pInfect pRemove : Q) : list adevent :=
  [ {| ae_elem := true; ae_locus := si; ae_p := pInfect; ae_kind := PDisease (HLeft 2%Z true None) |};
    {| ae_elem := true; ae_locus := i; ae_p := pRemove; ae_kind := PDisease (HNode 3%Z) |} ].
Definition pop_events (li : nat) (pAdd pDelete : Q) : list adevent :=
  [ {| ae_elem := false; ae_locus := li; ae_p := pAdd; ae_kind := PAdd |};
    {| ae_elem := false; ae_locus := li; ae_p := pDelete; ae_kind := PDelete |} ].

Definition procs_alone (pAdd pDelete : Q) := [pop_events 0 pAdd pDelete].
Definition procs_inherit (pInfect pRemove pAdd pDelete : Q) := [sir_events 1 2 pInfect pRemove ++ pop_events 0 pAdd pDelete].
Definition procs_inherit_rev (pInfect pRemove pAdd pDelete : Q) := [sir_events 0 1 pInfect pRemove ++ pop_events 2 pAdd pDelete].
Definition procs_sequence (pInfect pRemove pAdd pDelete : Q) := [sir_events 0 1 pInfect pRemove; pop_events 2 pAdd pDelete].

(* decidable forms of the hypotheses of the run theorems *)
Lemma cfg_ok_of : forall cf,
  ((ac_li cf <? ac_off cf) || (ac_off cf + length (ac_tbl cf) <=? ac_li cf))
  && (with_disease cf || match ac_tbl cf with [] => true | _ => false end)
  && (wf_loci (ac_tbl cf) && single_orientation (ac_tbl cf) || negb (tracked_edges cf))
  && (forallb (fun sp => negb (mentions sp (ac_R cf))) (ac_tbl cf)
      || negb match ac_combo cf with Sequence true => true | _ => false end) = true ->
  cfg_ok cf.
Proof.
  intros cf H. apply andb_true_iff in H. destruct H as [H H4]. apply andb_true_iff in H. destruct H as [H H3].
  apply andb_true_iff in H. destruct H as [H1 H2]. constructor.
  - apply orb_true_iff in H1. destruct H1 as [H1|H1]; [left; apply Nat.ltb_lt, H1 | right; apply Nat.leb_le, H1].
  - intro D. rewrite D in H2. destruct (ac_tbl cf); [reflexivity | discriminate].
  - intro T. rewrite T, orb_false_r in H3. apply andb_true_iff, H3.
  - intro Ec. rewrite Ec, orb_false_r in H4. exact H4.
Qed.

Lemma events_ok_of : forall cf procs,
  forallb (fun a => match ae_kind a with
                    | PAdd => true
                    | PDelete => Nat.eqb (ae_locus a) (ac_li cf)
                    | PDisease h => quiet_hk h
                    end) (concat procs) = true ->
  forall a, In a (concat procs) -> event_ok cf a.
Proof.
  intros cf procs H a Ha. rewrite forallb_forall in H. specialize (H a Ha). unfold event_ok.
  destruct (ae_kind a); [exact I | apply Nat.eqb_eq, H | exact H].
Qed.

Fixpoint nodupb (l : list Z) : bool := match l with [] => true | x :: t => negb (zmem x t) && nodupb t end.
Lemma nodupb_NoDup : forall l, nodupb l = true -> NoDup l.
Proof.
  induction l as [|x l IH]; intro H; [constructor|]. cbn in H. apply andb_true_iff in H. destruct H as [H1 H2].
  constructor; [apply zmem_false, negb_true_iff, H1 | apply IH, H2].
Qed.

Lemma init_ok_of : forall cf n0 nloci nodes edges init,
  Nat.eqb (length nodes) n0 && nodupb nodes && graph_okb nodes edges && Nat.ltb (ac_li cf) nloci
  && (negb (with_disease cf)
      || forallb (fun nc => zmem (fst nc) nodes) init && forallb (fun v => existsb (fun nc => Z.eqb (fst nc) v) init) nodes) = true ->
  init_ok cf n0 nloci nodes edges init.
Proof.
  intros cf n0 nloci nodes edges init H. repeat (apply andb_true_iff in H; destruct H as [H ?]).
  constructor.
  - apply Nat.eqb_eq, H.
  - apply nodupb_NoDup. assumption.
  - assumption.
  - apply Nat.ltb_lt. assumption.
  - intro D. rewrite D in *. cbn [negb orb] in *. match goal with X : _ && _ = true |- _ => apply andb_true_iff in X; destruct X as [X1 X2] end.
    split; [exact X1|]. intros v Hv. rewrite forallb_forall in X2. specialize (X2 v Hv). apply existsb_exists in X2.
    destruct X2 as [[a c] [Hin E]]. cbn in E. apply Z.eqb_eq in E. subst a. eauto.
Qed.

(* F11: the documented sequence combination on the complete graph on four infected nodes, degree 2,
   additions only; one addition (stochastic dynamics: rate 1, first event at time 1/2 = maximum time) *)
Definition k4_nodes : list Z := [0; 1; 2; 3]%Z.
Definition k4_edges : list (Z * Z) := [(0, 1); (0, 2); (0, 3); (1, 2); (1, 3); (2, 3)]%Z.
Definition k4_infected : list (Z * Z) := [(0, 2); (1, 2); (2, 2); (3, 2)]%Z.

Definition f11_run (via_disease : bool) : result adworld :=
  ad_run (cfg_sequence via_disease 2) (procs_sequence 0 0 1 0) 3 k4_nodes k4_edges k4_infected (1 # 2)%Q [0; 1]
         false 4 4 [(1 # 2)%Q; (1 # 2)%Q] [(1 # 2)%Q] [0].

(* non-vacuity: inheritance combination, synchronous dynamics, path 0-1-2 with node 1 infected, degree 1:
   every timestep adds a node and deletes one *)
Definition ex_inherit_run : result adworld :=
  ad_run (cfg_inherit 1) (procs_inherit 1 (1 # 2) 1 1) 3 [0; 1; 2]%Z [(0, 1); (1, 2)]%Z [(0, 1); (1, 2); (2, 1)]%Z 4%Q
         [0; 1; 0; 2; 1; 0] true 4 6
         [(1 # 4); (3 # 4); (1 # 2); (1 # 2); (1 # 2); (1 # 2); (1 # 2); (1 # 2); (1 # 2); (1 # 2); (1 # 2); (1 # 2); (1 # 2); (1 # 2); (1 # 2); (1 # 2)]%Q
         [] [1; 0; 2; 1; 0; 3; 1; 2].
