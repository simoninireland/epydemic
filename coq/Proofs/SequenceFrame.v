(* Frame property over the write summaries of Model/Sequence.v: an event of one instance
   leaves every attribute and every locus that is named for another instance untouched. *)
From Coq Require Import List ZArith QArith Bool Arith String Ascii Lia.
From EpyV Require Import Model.Kernel Model.Sequence Proofs.Sequence Proofs.SequenceNames.
Import ListNotations.
Close Scope Q_scope.
Open Scope list_scope.

Lemma selem_eqb_eq (a b : elem) : elem_eqb a b = true <-> a = b.
Proof.
  destruct a as [x|x1 x2], b as [y|y1 y2]; simpl; try (split; [discriminate|congruence]).
  - rewrite Z.eqb_eq. split; congruence.
  - rewrite andb_true_iff, !Z.eqb_eq. split; [intros [-> ->]; reflexivity|intro H; injection H; auto].
Qed.

Lemma key_eqb_eq (a b : string * elem) : key_eqb a b = true <-> a = b.
Proof.
  unfold key_eqb. destruct a as [a1 a2], b as [b1 b2]; simpl.
  rewrite andb_true_iff, String.eqb_eq, selem_eqb_eq. split; [intros [-> ->]; reflexivity|intro H; injection H; auto].
Qed.

Lemma var_eqb_eq (a b : var) : var_eqb a b = true <-> a = b.
Proof.
  destruct a, b; simpl; try (split; [discriminate|congruence]); rewrite String.eqb_eq; split; congruence.
Qed.

Lemma attr_get_set k k' v l :
  attr_get k (attr_set k' v l) = if key_eqb k k' then Some v else attr_get k l.
Proof. apply (assoc_get_set _ _ key_eqb attr_get attr_set key_eqb_eq); reflexivity. Qed.

(* one write within the summary: an attribute name the event may not write keeps its value on
   every element, a locus it may not touch keeps its contents *)
Lemma frame_write (inst : option string) (fn : string) (stems : list string) (x : write) (w : sworld) :
  within_summary fn stems x = true ->
  (forall a e, ~ In a (may_change_attrs inst fn) ->
     attr_get (a, e) (sw_attrs (apply_write inst w x)) = attr_get (a, e) (sw_attrs w))
  /\ (forall n, ~ In n (may_change_loci inst stems) -> locus_get n (apply_write inst w x) = locus_get n w).
Proof.
  intro Hx. destruct x as [v e' val|stem content]; simpl in Hx; apply existsb_exists in Hx; destruct Hx as (y & Hy & E).
  - apply var_eqb_eq in E. subst y. split; [|reflexivity]. intros a e Ha. simpl. rewrite attr_get_set.
    destruct (key_eqb (a, e) (var_name inst v, e')) eqn:Ek; [|reflexivity].
    apply key_eqb_eq in Ek. injection Ek as -> _. destruct Ha. apply in_map, Hy.
  - apply String.eqb_eq in E. subst y. split; [reflexivity|]. intros n Hn. unfold locus_get. simpl. rewrite dict_get_set.
    destruct (String.eqb n (decorated_name inst stem)) eqn:En; [|reflexivity].
    apply String.eqb_eq in En. subst n. destruct Hn. apply in_map, Hy.
Qed.

Theorem frame_general (inst : option string) (fn : string) (stems : list string) (ws : list write) (w : sworld) :
  (forall x, In x ws -> within_summary fn stems x = true) ->
  (forall a e, ~ In a (may_change_attrs inst fn) ->
     attr_get (a, e) (sw_attrs (apply_writes inst ws w)) = attr_get (a, e) (sw_attrs w))
  /\ (forall n, ~ In n (may_change_loci inst stems) -> locus_get n (apply_writes inst ws w) = locus_get n w).
Proof.
  unfold apply_writes. revert w. induction ws as [|x ws IH]; intros w Hws; [split; reflexivity|]. simpl.
  destruct (IH (apply_write inst w x)) as [IHa IHl]; [intros y Hy; apply Hws; right; exact Hy|].
  destruct (frame_write inst fn stems x w (Hws x (or_introl eq_refl))) as [Ha Hl]. split.
  - intros a e Hn. rewrite (IHa a e Hn). exact (Ha a e Hn).
  - intros n Hn. rewrite (IHl n Hn). exact (Hl n Hn).
Qed.

Lemma write_summary_stems fn v : In v (write_summary fn) ->
  match v with Own s => has_at s = false | Shared n => In n shared_vars end.
Proof.
  unfold write_summary. destruct (String.eqb fn "infect").
  - simpl. intros [<-|[<-|[<-|[<-|[<-|[<-|[]]]]]]]; simpl; auto.
  - destruct (String.eqb fn "remove" || String.eqb fn "recover" || String.eqb fn "resuscept"); [|intros []].
    simpl. intros [<-|[]]. reflexivity.
Qed.

(* a state variable of another instance j is outside the write set of an event of i *)
Lemma other_instance_attr (i j : option string) (fn stem : string) :
  i <> j -> has_at stem = false -> ~ In (state_variable j stem) shared_vars ->
  ~ In (state_variable j stem) (may_change_attrs i fn).
Proof.
  intros Hij Hstem Hshared Hin. unfold may_change_attrs in Hin. apply in_map_iff in Hin.
  destruct Hin as (v & Ev & Hv). pose proof (write_summary_stems fn v Hv) as Hk.
  destruct v as [s|n]; simpl in Ev.
  - exact (decorated_neq i j s stem Hij Hk Hstem Ev).
  - apply Hshared. rewrite <- Ev. exact Hk.
Qed.

(* ... and so is a locus of j *)
Lemma other_instance_locus (i j : option string) (stems : list string) (stem : string) :
  i <> j -> (forall s, In s stems -> has_at s = false) -> has_at stem = false ->
  ~ In (decorated_name j stem) (may_change_loci i stems).
Proof.
  intros Hij Hstems Hstem Hin. apply (names_disjoint i j stems [stem] Hij Hstems) with (x := decorated_name j stem).
  - intros s [<-|[]]. exact Hstem.
  - exact Hin.
  - left. reflexivity.
Qed.

Lemma shared_vars_no_at n : In n shared_vars -> has_at n = false.
Proof. simpl. intros [<-|[<-|[<-|[<-|[]]]]]; reflexivity. Qed.

(* for a named instance j the side condition on the shared names holds by itself *)
Lemma named_not_shared (j stem : string) : ~ In (state_variable (Some j) stem) shared_vars.
Proof.
  intro H. apply shared_vars_no_at in H. unfold state_variable in H. rewrite has_at_decorated in H. discriminate.
Qed.
