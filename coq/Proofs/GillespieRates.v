(* C02: the rate table of the Gillespie loop of Model/Kernel.v, the order of [transitions],
   the vocabulary in which one iteration of [stoch_loop] is stated as a function of the oracle
   values it consumes ([after], [running]), and the passivity of processes that have no
   stochastic events (observers). *)
From Coq Require Import List ZArith QArith Bool Arith Lia Lqa.
From Coq Require Import Permutation.
From EpyV Require Import Model.Kernel Proofs.KernelBase Proofs.KernelLoops Proofs.KernelRelabel Proofs.KernelMember.
Import ListNotations.
Open Scope Q_scope.

Section Rates.
Variable W : Type.
Variable tb : table W.
Notation st := (st W).
Notation tr := (nat * nat * event)%type.

Lemma rate_elem : forall (s : st) (x : tr), ev_elem (snd x) = true ->
  rate s x == ev_p (snd x) * qlen (locus s (ev_locus (snd x))).
Proof. intros s x H. unfold rate. rewrite H. apply Qred_correct. Qed.

Lemma rate_fixed : forall (s : st) (x : tr), ev_elem (snd x) = false -> rate s x = ev_p (snd x).
Proof. intros s x H. unfold rate. rewrite H. reflexivity. Qed.

Lemma qlen_pos : forall l, l <> [] -> 0 < qlen l.
Proof.
  intros l H. unfold qlen. change 0 with (inject_Z 0). rewrite <- Zlt_Qlt. destruct l; [congruence|]. cbn [length]. lia.
Qed.

Lemma rate_elem_empty : forall (s : st) (x : tr), ev_elem (snd x) = true -> locus s (ev_locus (snd x)) = [] -> rate s x == 0.
Proof. intros s x E H. rewrite (rate_elem s x E), H. unfold qlen. cbn. ring. Qed.

(* a per-element event of positive probability has rate 0 only on an empty locus *)
Lemma rate_zero_empty : forall (s : st) (x : tr), ev_elem (snd x) = true -> 0 < ev_p (snd x) -> rate s x == 0 ->
  locus s (ev_locus (snd x)) = [].
Proof.
  intros s x E Hp Hr. rewrite (rate_elem s x E) in Hr.
  destruct (locus s (ev_locus (snd x))) as [|e0 l0]; [reflexivity | exfalso].
  pose proof (Qmult_lt_0_compat _ _ Hp (qlen_pos (e0 :: l0) ltac:(discriminate))) as H.
  rewrite Hr in H. exact (Qlt_irrefl 0 H).
Qed.

Lemma index_events_spec : forall pi evs j,
  index_events pi j evs = map (fun ke => (pi, fst ke, snd ke)) (combine (seq j (length evs)) evs).
Proof.
  intros pi. induction evs as [|e evs IH]; intros j; [reflexivity|].
  cbn [index_events length seq combine map fst snd]. rewrite IH. reflexivity.
Qed.

Lemma all_events_from_spec : forall ps pi,
  all_events_from pi ps = flat_map (fun ip => index_events (fst ip) 0 (p_events (snd ip))) (combine (seq pi (length ps)) ps).
Proof.
  induction ps as [|p ps IH]; intros pi; [reflexivity|].
  cbn [all_events_from length seq combine flat_map fst snd]. rewrite IH. reflexivity.
Qed.

(* entries of [transitions] are pairwise distinct: (process, index) identifies the event *)
Theorem transitions_NoDup : NoDup (transitions tb).
Proof.
  apply (Permutation_NoDup (Permutation_sym (transitions_perm tb))).
  apply (NoDup_map_inv fst), all_events_from_fst_NoDup.
Qed.

(* KernelMember.nonneg_table, with the world type explicit *)
Definition nonneg_table : Prop := forall x : tr, In x (all_events tb) -> 0 <= ev_p (snd x).

Lemma nonneg_table_member : nonneg_table = KernelMember.nonneg_table tb.
Proof. reflexivity. Qed.

Lemma transitions_rates_nonneg : forall s : st, nonneg_table -> forall x, In x (transitions tb) -> 0 <= rate s x.
Proof. intros s H x Hx. apply rate_nonneg, H, transitions_in, Hx. Qed.

Lemma rate_loci : forall (s s' : st) x, loci s' = loci s -> rate s' x = rate s x.
Proof. intros s s' x H. unfold rate, locus. rewrite H. reflexivity. Qed.

Lemma sum_rates_loci : forall (s s' : st) trs, loci s' = loci s -> sum_rates s' trs = sum_rates s trs.
Proof.
  intros s s' trs H. unfold sum_rates. generalize 0. induction trs as [|x trs IH]; intros a; [reflexivity|].
  cbn [fold_left]. rewrite (rate_loci s s' x H). apply IH.
Qed.

(* the state after the selection part of an iteration when no posted event is pending:
   clock advanced, oracle values consumed, everything else untouched *)
Definition after (s : st) (nt : Q) (rs ls : list Q) (ds : list nat) : st :=
  {| clock := nt; nextid := nextid s; queue := []; loci := loci s; world := world s; ids := ids s; out := out s;
     rands := rs; lns := ls; draws := ds; stuck := stuck s |}.

Lemma run_pending_empty : forall pf t n (s : st), queue s = [] ->
  run_pending tb (S pf) t n s = (n, set_queue [] s).
Proof. intros pf t n s H. cbn [run_pending]. unfold discard. rewrite H. reflexivity. Qed.

Definition running (t : Q) (s : st) : Prop :=
  (Qle_bool (t_maxtime tb) t || t_equil tb (loci s) (world s)) = false
  /\ Qeq_bool (sum_rates s (transitions tb)) 0 = false.

(* a process without stochastic events adds nothing to the transitions: the transitions of
   [observer; procs] are those of [procs] with the process index shifted, with the same rates *)
Definition shift (x : tr) : tr := (S (fst (fst x)), snd (fst x), snd x).

Lemma all_events_from_shift : forall ps pi, all_events_from (S pi) ps = map shift (all_events_from pi ps).
Proof.
  induction ps as [|p ps IH]; intros pi; [reflexivity|].
  cbn [all_events_from]. rewrite map_app, IH, (index_events_relabel shift pi (S pi)); reflexivity.
Qed.

End Rates.

Arguments after {W}.
Arguments shift x /.

Section Observer.
Variable W : Type.
Notation st := (st W).

(* the table with one more process in front that registers no stochastic events *)
Definition with_observer (tb : table W) (su : list action) : table W :=
  {| t_maxtime := t_maxtime tb; t_loci := t_loci tb; t_procs := {| p_events := []; p_setup := su |} :: t_procs tb;
     t_progs := t_progs tb; t_world := t_world tb; t_equil := t_equil tb |}.

(* posted events whose programs neither touch loci nor post programs outside a closed set of
   such programs leave the loci and the three oracle streams exactly as they were: the rates, the
   kind selected and the values consumed by the stochastic part of the loop are unchanged *)
Variable tb : table W.
Variable P : nat -> Prop.

Definition passive_action (a : action) : Prop :=
  match a with
  | APost _ k | APostOn _ _ k | APostRep _ _ k => P k
  | APostPast => P 0%nat
  | AUnpost _ _ | AQuery _ | AObserve => True
  | ALAdd _ _ | ALDiscard _ _ | ALAddSelf _ | ALDiscardSelf _ => False
  end.
Definition closed : Prop :=
  forall k, P k -> forall t e l w, Forall passive_action (snd (prog_of tb k t e l w)).
Definition qinv (s : st) : Prop := Forall (fun x => P (e_prog x)) (queue s).
Definition same_lo (s s' : st) : Prop :=
  loci s' = loci s /\ rands s' = rands s /\ lns s' = lns s /\ draws s' = draws s.

Lemma same_lo_refl : forall s, same_lo s s. Proof. intros s. repeat split. Qed.
Lemma same_lo_trans : forall s1 s2 s3, same_lo s1 s2 -> same_lo s2 s3 -> same_lo s1 s3.
Proof. intros s1 s2 s3 (a1 & a2 & a3 & a4) (b1 & b2 & b3 & b4). repeat split; congruence. Qed.

Lemma post_passive : forall t p e k rep (s : st), P k -> qinv s ->
  same_lo s (snd (post t p e k rep s)) /\ qinv (snd (post t p e k rep s)).
Proof.
  intros t p e k rep s Hk Hq. unfold post. destruct (Qltb t (clock s)); cbn [snd].
  - split; [apply same_lo_refl | exact Hq].
  - split; [repeat split|]. unfold qinv. cbn [queue]. constructor; [exact Hk | exact Hq].
Qed.

Lemma kill_passive : forall i q, Forall (fun x => P (e_prog x)) q -> Forall (fun x => P (e_prog x)) (kill i q).
Proof.
  intros i q H. unfold kill. apply Forall_forall. intros y Hy. apply in_map_iff in Hy.
  destruct Hy as (x & <- & Hx). rewrite Forall_forall in H. specialize (H x Hx).
  destruct (e_id x =? i)%nat; exact H.
Qed.

Lemma do_action_passive : forall p t e a (s : st), passive_action a -> qinv s ->
  same_lo s (do_action p t e a s) /\ qinv (do_action p t e a s).
Proof.
  intros p t e a s Ha Hq. destruct a; cbn [passive_action] in Ha; try contradiction; cbn [do_action].
  - destruct (post_passive (Qred (t + dt)) p e prog None s Ha Hq) as [H1 H2].
    destruct (post (Qred (t + dt)) p e prog None s) as [[i|] s']; cbn [snd] in *; (split; [exact H1 | exact H2]).
  - destruct (post_passive (Qred (t + dt)) p x prog None s Ha Hq) as [H1 H2].
    destruct (post (Qred (t + dt)) p x prog None s) as [[i|] s']; cbn [snd] in *; (split; [exact H1 | exact H2]).
  - destruct (post_passive (Qred (t + dt0)) p e prog (Some ddt) s Ha Hq) as [H1 H2].
    destruct (post (Qred (t + dt0)) p e prog (Some ddt) s) as [[i|] s']; cbn [snd] in *; (split; [exact H1 | exact H2]).
  - destruct (post_passive (Qred (clock s - 1)) p e 0%nat None s Ha Hq) as [H1 H2].
    destruct (post (Qred (clock s - 1)) p e 0%nat None s) as [[i|] s']; cbn [snd] in *; (split; [exact H1 | exact H2]).
  - destruct (ids s); [split; [apply same_lo_refl | exact Hq]|].
    destruct (find_live _ (queue s)).
    + split; [repeat split|]. unfold qinv. cbn [queue emit set_queue]. apply kill_passive. exact Hq.
    + split; [repeat split | exact Hq].
  - destruct (ids s); split; try apply same_lo_refl; try exact Hq. repeat split.
  - split; [repeat split | exact Hq].
Qed.

(* [s'] is reached from [s] by passive code: loci and oracle as in [s], queue still within P *)
Definition passive_from (s s' : st) : Prop := same_lo s s' /\ qinv s'.

Lemma passive_action_step : forall s0 p t e a s, passive_action a -> passive_from s0 s -> passive_from s0 (do_action p t e a s).
Proof.
  intros s0 p t e a s Ha [H0 Hq]. destruct (do_action_passive p t e a s Ha Hq) as [H1 H2].
  split; [exact (same_lo_trans _ _ _ H0 H1)|exact H2].
Qed.

Lemma run_prog_passive : forall p k t e (s : st), closed -> P k -> qinv s -> passive_from s (run_prog tb p k t e s).
Proof.
  intros p k t e s Hc Hk Hq. unfold run_prog.
  assert (Ha := Hc k Hk t e (loci s) (world s)).
  destruct (prog_of tb k t e (loci s) (world s)) as [w acts]. cbn [snd] in Ha.
  apply (user_actions (fun _ => passive_from s) passive_action (fun p0 _ e0 => passive_action_step s p0 _ e0) p t e acts _ Ha).
  exact (conj (same_lo_refl s) Hq).
Qed.

Lemma fire_passive : forall x (s : st), closed -> P (e_prog x) -> qinv s -> passive_from s (fire tb x s).
Proof.
  intros x s Hc Hk Hq. apply fire_inv.
  - exact (run_prog_passive (e_proc x) (e_prog x) (e_time x) (e_elem x) (emit _ s) Hc Hk Hq).
  - intros ddt s2 _ [H1 H2]. destruct (post_passive (Qred (e_time x + ddt)) (e_proc x) (e_elem x) (e_prog x) (Some ddt) s2 Hk H2) as [H3 H4].
    split; [exact (same_lo_trans _ _ _ H1 H3)|exact H4].
  - intros s2 H. exact H.
Qed.

Theorem run_pending_passive : forall fuel t n (s : st), closed -> qinv s ->
  same_lo s (snd (run_pending tb fuel t n s)) /\ qinv (snd (run_pending tb fuel t n s)).
Proof.
  intros fuel t n s Hc Hq. rewrite <- run_pendingL_fst.
  destruct (run_pendingL tb fuel t n s) as [[n' s'] l] eqn:E. cbn [fst snd].
  assert (Hsub : forall (s1 s2 : st), incl (queue s2) (queue s1) -> qinv s1 -> qinv s2).
  { unfold qinv. intros s1 s2 Hi H. rewrite Forall_forall in *. intros y Hy. exact (H y (Hi y Hy)). }
  refine (lift_run_pendingL tb (fun s1 _ => passive_from s s1) _ _ _ (lg := []) (conj (same_lo_refl s) Hq) E).
  - intros s1 _ H. exact H.
  - intros s1 _ [H1 H2]. split; [exact H1|]. apply (Hsub s1); [apply discard_dead_incl|exact H2].
  - intros h s1 _ Hh _ [H1 H2]. unfold pend_step.
    assert (Hp : P (e_prog h)) by (unfold qinv in H2; rewrite Forall_forall in H2; exact (H2 h (head_in _ _ Hh))).
    destruct (fire_passive h (set_clock (e_time h) (set_queue (remove_id (e_id h) (queue s1)) s1)) Hc Hp) as [H3 H4].
    + apply (Hsub s1); [apply remove_id_incl|exact H2].
    + split; [exact (same_lo_trans _ _ _ H1 H3)|exact H4].
Qed.

End Observer.
