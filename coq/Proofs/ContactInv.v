(* C08, the invariant.  [once_model cm]: a node is infected at most once ([sus]: the compartments
   infections take nodes out of).  For such tables [Forest] (the occupied edges and hitting times
   form a contact forest over the nodes that were susceptible at set-up) is kept by every
   scheduler move and every call: [K] = J, posted entries sit on nodes (QE), Forest; K_sched,
   K_call (through marking_call and call_records: what is known at, and recorded by, a marking
   call), K_setup, K_steps.  Then what Forest gives (unique infector, hit nodes, skeleton), and
   the records as functions of the calls of a run ([infections]; hits_first_only for every table,
   occ_is_infections and times_along_tree for at-most-once tables). *)
From Coq Require Import List ZArith QArith Bool Arith Relations Sorted.
From EpyV Require Import Model.Kernel Model.Loci Model.Compart Proofs.LociBase
  Proofs.CompartRun Proofs.CompartInv Proofs.CompartDiagram Proofs.ContactBase Proofs.ContactForest.
Import ListNotations.
Close Scope Q_scope.

Definition rights (sp : spec) : list Z :=
  match sp with EdgeLocus _ r => [r] | MultiEdgeLocus _ rs => rs | NodeLocus _ => [] end.
Definition marking (h : hkind) : bool := match h with HLeft _ true _ => true | _ => false end.

(* the compartments out of which a marking (infection) event takes a node *)
Definition sus (cm : cmodel) : list Z :=
  flat_map (fun ev => if marking (ce_kind ev) then [locus_left (nth (ce_locus ev) (cm_specs cm) default_spec)] else [])
           (cm_events cm).

(* a node is infected at most once: no event function of the table (stochastic or posted) moves a
   node INTO a susceptible compartment, and the infector's compartments are not susceptible ones *)
Definition once_model (cm : cmodel) : bool :=
  forallb (fun h => forallb (fun c => negb (zmem c (sus cm))) (kind_target h)) (cm_kinds cm)
  && forallb (fun ev => if marking (ce_kind ev)
                        then forallb (fun r => negb (zmem r (sus cm))) (rights (nth (ce_locus ev) (cm_specs cm) default_spec))
                        else true) (cm_events cm).

Lemma once_target cm h c : once_model cm = true -> In h (cm_kinds cm) -> In c (kind_target h) -> ~ In c (sus cm).
Proof.
  unfold once_model. rewrite andb_true_iff. intros [H _] Hh Hc. rewrite forallb_forall in H. specialize (H h Hh).
  rewrite forallb_forall in H. specialize (H c Hc). apply negb_true_iff, zmem_false in H. exact H.
Qed.

Lemma once_rights cm cev r : once_model cm = true -> In cev (cm_events cm) -> marking (ce_kind cev) = true ->
  In r (rights (nth (ce_locus cev) (cm_specs cm) default_spec)) -> ~ In r (sus cm).
Proof.
  unfold once_model. rewrite andb_true_iff. intros [_ H] Hin Hm Hr. rewrite forallb_forall in H. specialize (H cev Hin).
  rewrite Hm, forallb_forall in H. specialize (H r Hr). apply negb_true_iff, zmem_false in H. exact H.
Qed.

Lemma sus_left cm cev : In cev (cm_events cm) -> marking (ce_kind cev) = true ->
  In (locus_left (nth (ce_locus cev) (cm_specs cm) default_spec)) (sus cm).
Proof. intros Hin Hm. unfold sus. apply in_flat_map. exists cev. split; [exact Hin|]. rewrite Hm. left. reflexivity. Qed.

Lemma right_ok_rights sp s m : right_ok sp s m -> exists r, getc s m = Some r /\ In r (rights sp).
Proof.
  destruct sp as [c|l r|l rs]; cbn [right_ok rights]; [intros [] | intros H; exists r; split; [exact H | left; reflexivity] | exact (fun H => H)].
Qed.

Lemma marks_marking h e nm : marks h e = Some nm -> marking h = true /\ e = EE (fst nm) (snd nm).
Proof. destruct h as [c|c [|] post| |], e as [a|a b]; cbn; intros E; inversion E; split; reflexivity. Qed.

Lemma SS_before {A} (R : A -> A -> Prop) l1 x l2 : StronglySorted R (l1 ++ x :: l2) -> forall y, In y l1 -> R y x.
Proof.
  induction l1 as [|z l1 IH]; intros H y Hy; [destruct Hy|]. cbn [app] in H. inversion H as [|? ? H1 H2]; subst.
  destruct Hy as [<-|Hy]; [|apply IH; assumption]. rewrite Forall_forall in H2. apply H2, in_app_iff. right. left. reflexivity.
Qed.

Section CF.
Variable cm : cmodel.
Variables (nodes : list Z) (edges : list (Z * Z)) (init : list (Z * Z)) (maxtime : Q) (monitor : option Q).
Let tb := mk_table cm nodes edges init maxtime monitor.
Let st0 := Loci.setup (cm_specs cm) nodes edges init.

Definition proj_hit (x : Z * Z * Q) : Z * Q := (child x, snd x).

(* the invariant.  Edges are recorded as (infected, infector, time). *)
Definition Forest (w : cworld) : Prop :=
  let st := cw_st w in
  (* a node that is (still) susceptible touches no occupied edge *)
  (forall v c, getc st v = Some c -> In c (sus cm) -> forall x, In x (cw_occ w) -> child x <> v /\ parent x <> v)
  (* the hitting times are those of the occupied edges, on their infected ends, in the same order *)
  /\ cw_hit w = map proj_hit (cw_occ w)
  (* occupied pairs are edges of the network *)
  /\ (forall x, In x (cw_occ w) -> adjb edges (child x) (parent x) = true)
  (* each occupied edge joined a node no earlier occupied edge touches to another node *)
  /\ forestL (cw_occ w)
  (* a susceptible node has been in that compartment since set-up *)
  /\ (forall v c, getc st v = Some c -> In c (sus cm) -> getc st0 v = Some c)
  (* the infected end of an occupied edge was susceptible at set-up: it is not a seed *)
  /\ (forall x, In x (cw_occ w) -> exists c, In c (sus cm) /\ getc st0 (child x) = Some c).

Lemma Forest_untouched w v c : Forest w -> getc (cw_st w) v = Some c -> In c (sus cm) ->
  forall x, In x (cw_occ w) -> child x <> v /\ parent x <> v.
Proof. intros F. apply F. Qed.
Lemma Forest_hits w : Forest w -> cw_hit w = map proj_hit (cw_occ w).
Proof. intros F. apply F. Qed.
Lemma Forest_adj w x : Forest w -> In x (cw_occ w) -> adjb edges (child x) (parent x) = true.
Proof. intros F. apply F. Qed.
Lemma Forest_list w : Forest w -> forestL (cw_occ w).
Proof. intros F. apply F. Qed.
Lemma Forest_since_setup w v c : Forest w -> getc (cw_st w) v = Some c -> In c (sus cm) -> getc st0 v = Some c.
Proof. intros F. apply F. Qed.
Lemma Forest_child_setup w x : Forest w -> In x (cw_occ w) -> exists c, In c (sus cm) /\ getc st0 (child x) = Some c.
Proof. intros F. apply F. Qed.

(* K: the C08 run invariant on a state of the simulation *)
Definition K (s : st cworld) : Prop := J cm nodes edges s /\ QE s /\ Forest (world s).

Lemma K_J s : K s -> J cm nodes edges s.
Proof. intros H. apply H. Qed.
Lemma K_QE s : K s -> QE s.
Proof. intros H. apply H. Qed.
Lemma K_Forest s : K s -> Forest (world s).
Proof. intros H. apply H. Qed.

Lemma move_sus_back h t e kl w v c : once_model cm = true -> In h (cm_kinds cm) ->
  getc (cw_st (fst (handler (cm_specs cm) 0 h t e kl w))) v = Some c -> In c (sus cm) -> getc (cw_st w) v = Some c.
Proof.
  intros Ho Hh. rewrite handler_getc. destruct (moved h e) as [[n c0]|] eqn:M; [|tauto].
  destruct (getc_raises (cw_st w) n); [tauto|]. destruct (Z.eqb v n); [|tauto].
  intros E Hc. inversion E; subst c0. exfalso. exact (once_target cm h c Ho Hh (moved_target h e n c M) Hc).
Qed.

Lemma sus_back_call (Hon : once_model cm = true) (s : st cworld) c v c0 : call_ok tb c s ->
  getc (cw_st (world (after tb c s))) v = Some c0 -> In c0 (sus cm) -> getc (cw_st (world s)) v = Some c0.
Proof.
  intros Hok. unfold tb. rewrite after_world. destruct (call_kind cm c) as [h|] eqn:Ek; [|tauto].
  apply move_sus_back; [exact Hon | eapply nth_error_In; exact Ek].
Qed.

Lemma marking_call (s : st cworld) c h n m : wf_model cm = true -> once_model cm = true -> K s -> call_ok tb c s ->
  call_kind cm c = Some h -> marks h (snd (call_args c)) = Some (n, m) ->
  let st := cw_st (world s) in
  (exists x, c = CEv x (clock s) (EE n m))
  /\ (exists l, In l (sus cm) /\ getc st n = Some l) /\ (exists r, ~ In r (sus cm) /\ getc st m = Some r)
  /\ adjb edges n m = true /\ getc_raises st n = false.
Proof.
  intros Hwf Ho (Hj & Hq & Hf) Hok Ek Em. cbv zeta.
  destruct c as [x t e|hh]; [|cbn [call_args snd] in Em; rewrite (posted_no_marks cm nodes edges init maxtime monitor s hh h Hq Hok) in Em; discriminate].
  cbn [call_args snd] in Em.
  destruct (call_moves s x t e Hwf Hj Hok) as (j & cev & Ex & En & Hin & _ & Hmv).
  unfold call_kind in Ek. subst x. cbn [call_args fst snd mk_ev ev_prog] in Ek.
  rewrite (event_kind cm j cev En) in Ek. inversion Ek; subst h.
  destruct (marks_marking _ _ _ Em) as [Hm Ee]. cbn [fst snd] in Ee.
  destruct (ce_kind cev) as [c1|c1 mark post| |] eqn:Ekind; try discriminate.
  destruct (through_infectious_edge cm nodes edges init maxtime monitor s _ t e Hwf Hj Hok j cev c1 mark post eq_refl En Ekind)
    as (n' & m' & Ee' & Hedge & Hn & Hr).
  rewrite Ee in Ee'. inversion Ee'; subst n' m'.
  assert (Hmk : marking (ce_kind cev) = true) by (rewrite Ekind; exact Hm).
  destruct (right_ok_rights _ _ _ Hr) as [r [Hr1 Hr2]].
  split; [exists (mpi monitor, j, mk_ev j cev); rewrite (proj2 (proj2 Hok)), Ee; reflexivity|].
  split; [eexists; split; [exact (sus_left cm cev Hin Hmk) | exact Hn]|].
  split; [exists r; split; [exact (once_rights cm cev r Ho Hin Hmk Hr2) | exact Hr1]|].
  split; [apply adjb_spec; exact Hedge|]. rewrite Ee in Hmv. exact (proj1 (proj2 (Hmv n c1 eq_refl))).
Qed.

Lemma call_records (Hwf : wf_model cm = true) (Hon : once_model cm = true) (s : st cworld) c : K s -> call_ok tb c s ->
  (cw_occ (world (after tb c s)) = cw_occ (world s) /\ cw_hit (world (after tb c s)) = cw_hit (world s))
  \/ (exists h n m, call_kind cm c = Some h /\ marks h (snd (call_args c)) = Some (n, m)
        /\ cw_occ (world (after tb c s)) = cw_occ (world s) ++ [(n, m, clock s)]
        /\ cw_hit (world (after tb c s)) = cw_hit (world s) ++ [(n, clock s)]).
Proof.
  intros Hk Hok. unfold tb. rewrite after_world. destruct (call_kind cm c) as [h|] eqn:Ek; [|left; split; reflexivity].
  rewrite handler_occ, handler_hit. destruct (marks h (snd (call_args c))) as [[n m]|] eqn:Em; [|left; split; reflexivity].
  right. exists h, n, m. split; [reflexivity|]. split; [exact Em|].
  destruct (marking_call s c h n m Hwf Hon Hk Hok Ek Em) as ((x & Ec) & (l & Hl & Hn) & _).
  assert (Et : snd (fst (call_args c)) = clock s) by (rewrite Ec; reflexivity). rewrite Et.
  pose proof (Forest_untouched _ n l (K_Forest s Hk) Hn Hl) as Fresh.
  split; [apply mark_occupied_fresh; exact Fresh|]. cbn [fst]. apply mark_hit_fresh.
  rewrite (Forest_hits _ (K_Forest s Hk)), map_map. intros H. apply in_map_iff in H. destruct H as [y [E Hy]]. exact (proj1 (Fresh y Hy) E).
Qed.

Lemma K_sched s s' : K s -> sched s s' -> K s'.
Proof.
  intros (Hj & Hq & Hf) Hs. split; [eapply J_sched; eassumption|]. split; [eapply QE_sched; eassumption|].
  rewrite (sched_world Hs). exact Hf.
Qed.

Lemma K_call s c : wf_model cm = true -> once_model cm = true -> K s -> call_ok tb c s -> K (after tb c s).
Proof.
  intros Hwf Ho Hk Hok. pose proof Hk as (Hj & Hq & (Hunt & Hhits & Hadj0 & Hlist & Hsince & Hchild)).
  split; [apply J_call; [apply wf_model_loci, Hwf | exact Hj]|]. split; [apply QE_call; assumption|].
  pose proof (fun v c0 => sus_back_call Ho s c v c0 Hok) as Back. unfold Forest. cbv zeta.
  destruct (call_records Hwf Ho s c Hk Hok) as [[-> ->]|(h & n & m & Ek & Em & -> & ->)].
  - refine (conj _ (conj Hhits (conj Hadj0 (conj Hlist (conj _ Hchild))))).
    + intros v c0 Hv Hc0. apply (Hunt v c0); [apply Back; assumption | exact Hc0].
    + intros v c0 Hv Hc0. apply Hsince; [apply Back; assumption | exact Hc0].
  - destruct (marking_call s c h n m Hwf Ho Hk Hok Ek Em) as (_ & (l & Hl & Hn) & (r & Hr & Hm) & Hadj & Hraise).
    pose proof (Hunt n l Hn Hl) as Fresh.
    assert (Gn : exists c1, ~ In c1 (sus cm) /\ getc (cw_st (world (after tb c s))) n = Some c1).
    { destruct (marks_moved h _ n m Em) as [c1 Mv]. exists c1. split.
      - eapply once_target; [exact Ho | eapply nth_error_In; exact Ek | eapply moved_target; exact Mv].
      - unfold tb. rewrite after_world, Ek, handler_getc, Mv, Hraise, Z.eqb_refl. reflexivity. }
    destruct Gn as (c1 & Hc1 & Gn).
    assert (Hnm : n <> m) by (intros ->; rewrite Hn in Hm; inversion Hm; subst; contradiction).
    refine (conj _ (conj _ (conj _ (conj _ (conj _ _))))).
    + intros v c0 Hv Hc0 y Hy. pose proof (Back v c0 Hv Hc0) as Hv0.
      apply in_app_or in Hy. destruct Hy as [Hy|[<-|[]]]; [exact (Hunt v c0 Hv0 Hc0 y Hy)|]. cbn [child parent fst snd].
      split; intros <-; [rewrite Gn in Hv; inversion Hv; subst; contradiction | rewrite Hm in Hv0; inversion Hv0; subst; contradiction].
    + rewrite map_app, Hhits. reflexivity.
    + intros y Hy. apply in_app_or in Hy. destruct Hy as [Hy|[<-|[]]]; [apply Hadj0, Hy | exact Hadj].
    + apply forestL_snoc; [exact Hlist | exact Hnm|]. intros y Hy. apply Fresh, Hy.
    + intros v c0 Hv Hc0. apply Hsince; [apply Back; assumption | exact Hc0].
    + intros y Hy. apply in_app_or in Hy. destruct Hy as [Hy|[<-|[]]]; [apply Hchild, Hy|].
      exists l. split; [exact Hl | exact (Hsince n l Hn Hl)].
Qed.

Lemma K_setup rs ls ds : wf_model cm = true -> graph_okb nodes edges = true -> init_ok cm nodes init = true ->
  K (setup_state tb rs ls ds).
Proof.
  intros Hwf Hg Hi. split; [apply J_setup; [apply wf_model_loci, Hwf | exact Hg | exact Hi]|]. split; [apply QE_setup|].
  unfold tb. rewrite setup_world. unfold mk_table. cbn [t_world]. unfold Forest. cbn [cw_st cw_occ cw_hit].
  refine (conj _ (conj eq_refl (conj _ (conj I (conj _ _))))).
  - intros v c _ _ x [].
  - intros x [].
  - intros v c H _. exact H.
  - intros x [].
Qed.

Theorem K_steps rs ls ds cs s : wf_model cm = true -> once_model cm = true -> graph_okb nodes edges = true ->
  init_ok cm nodes init = true -> Steps tb (setup_state tb rs ls ds) cs s -> K s /\ Forall (fun sc => K (fst sc)) cs.
Proof.
  intros Hwf Ho Hg Hi H.
  exact (Steps_inv tb K K_sched (fun s c Hk Hok => K_call s c Hwf Ho Hk Hok) _ cs s (K_setup rs ls ds Hwf Hg Hi) H).
Qed.

Lemma K_at_call rs ls ds cs s s1 c : wf_model cm = true -> once_model cm = true -> graph_okb nodes edges = true ->
  init_ok cm nodes init = true -> Steps tb (setup_state tb rs ls ds) cs s -> In (s1, c) cs -> K s1 /\ call_ok tb c s1.
Proof.
  intros Hwf Ho Hg Hi. exact (Steps_inv_call tb K K_sched (fun s c Hk Hok => K_call s c Hwf Ho Hk Hok) _ cs s s1 c (K_setup rs ls ds Hwf Hg Hi)).
Qed.

(* every ever-marked node has exactly one occupied edge on which it is the infected end, and that
   edge carries the node's hitting time *)
Theorem unique_parent w n t : Forest w -> In (n, t) (cw_hit w) ->
  exists m, In (n, m, t) (cw_occ w) /\ forall m' t', In (n, m', t') (cw_occ w) -> m' = m /\ t' = t.
Proof.
  intros F H. rewrite (Forest_hits w F) in H. apply in_map_iff in H. destruct H as [[[a m] t'] [E Hx]].
  unfold proj_hit in E. cbn [child fst snd] in E. inversion E; subst a t'. exists m. split; [exact Hx|].
  intros m' t' H'. destruct (forestL_functional _ (Forest_list w F) n m' m t' t H' Hx). split; assumption.
Qed.

Theorem hit_iff_child w n : Forest w -> (In n (map fst (cw_hit w)) <-> In n (map child (cw_occ w))).
Proof. intros F. rewrite (Forest_hits w F), map_map. reflexivity. Qed.

Theorem hit_NoDup w : Forest w -> NoDup (map fst (cw_hit w)).
Proof.
  intros F. rewrite (Forest_hits w F), map_map. exact (forestL_child_NoDup _ (Forest_list w F)).
Qed.

(* seeds carry no hitting time *)
Theorem hit_not_seed w n t : Forest w -> In (n, t) (cw_hit w) -> exists c, In c (sus cm) /\ getc st0 n = Some c.
Proof.
  intros F H. destruct (unique_parent w n t F H) as [m [Hx _]]. exact (Forest_child_setup w _ F Hx).
Qed.

(* the infector of an occupied edge: if it has a hitting time at all, its own (unique) occupied edge
   comes earlier in the record *)
Theorem infector_earlier w o1 x o2 t' : Forest w -> cw_occ w = o1 ++ x :: o2 -> In (parent x, t') (cw_hit w) ->
  exists m', In (parent x, m', t') o1.
Proof.
  intros F E H. destruct (unique_parent w _ t' F H) as [m' [Hy _]]. pose proof (Forest_list w F) as F5.
  rewrite E in Hy, F5. exists m'. exact (parent_earlier o1 x o2 _ F5 Hy eq_refl).
Qed.

(* skeletonise(): the full node set with exactly the edges whose OCCUPIED flag is set *)
Definition occupiedb (w : cworld) (e : Z * Z) : bool := existsb (fun x => undirected_eqb (fst x) e) (cw_occ w).
Definition skeleton (w : cworld) : list Z * list (Z * Z) :=
  (st_nodes (cw_st w), filter (occupiedb w) (st_edges (cw_st w))).

Theorem skeleton_spec w : Forest w -> st_edges (cw_st w) = edges ->
  fst (skeleton w) = st_nodes (cw_st w)
  /\ (forall e, In e (snd (skeleton w)) <-> In e edges /\ exists x, In x (cw_occ w) /\ (e = (child x, parent x) \/ e = (parent x, child x)))
  /\ (forall x, In x (cw_occ w) -> In (child x, parent x) (snd (skeleton w)) \/ In (parent x, child x) (snd (skeleton w))).
Proof using cm nodes edges init maxtime monitor.
  intros F He. split; [reflexivity|].
  assert (A : forall e, In e (snd (skeleton w)) <-> In e edges /\ exists x, In x (cw_occ w) /\ (e = (child x, parent x) \/ e = (parent x, child x))).
  { intros e. unfold skeleton. cbn [snd]. rewrite filter_In, He. unfold occupiedb. rewrite existsb_exists.
    split; intros [H1 [x [Hx Hu]]]; (split; [exact H1|]); exists x; (split; [exact Hx|]).
    - apply undirected_eqb_spec in Hu. destruct x as [[a b] t], e as [e1 e2]. cbn [child parent fst snd] in *.
      destruct Hu as [Hu|Hu]; inversion Hu; subst; [left | right]; reflexivity.
    - apply undirected_eqb_spec. destruct x as [[a b] t], e as [e1 e2]. cbn [child parent fst snd] in *.
      destruct Hu as [Hu|Hu]; inversion Hu; subst; [left | right]; reflexivity. }
  split; [exact A|]. intros x Hx. pose proof (Forest_adj w x F Hx) as Ha. apply adjb_spec in Ha. destruct Ha as [Ha|Ha]; [left | right]; apply A;
    (split; [exact Ha|]); exists x; (split; [exact Hx|]); [left | right]; reflexivity.
Qed.

(* the (infected, infector, time) a call marks *)
Definition infection (sc : st cworld * call) : list (Z * Z * Q) :=
  match call_kind cm (snd sc) with
  | Some h => match marks h (snd (call_args (snd sc))) with
              | Some nm => [(nm, snd (fst (call_args (snd sc))))]
              | None => []
              end
  | None => []
  end.
Definition infections (cs : list (st cworld * call)) : list (Z * Z * Q) := flat_map infection cs.

(* every table (SIS included): the hitting times are the marks of the run applied first-only *)
Theorem hits_first_only sA cs s : Steps tb sA cs s ->
  cw_hit (world s) = first_only (map proj_hit (infections cs)) (cw_hit (world sA)).
Proof.
  intros H. induction H as [|cs s s' H IH Hs|cs s c H IH Hok]; [reflexivity | rewrite (sched_world Hs); exact IH|].
  unfold infections. rewrite flat_map_app, map_app. unfold first_only. rewrite fold_left_app.
  fold (first_only (map proj_hit (flat_map infection cs)) (cw_hit (world sA))). fold (infections cs). rewrite <- IH.
  unfold tb. rewrite after_world. cbn [flat_map]. rewrite app_nil_r. unfold infection. cbn [snd].
  destruct (call_kind cm c) as [h|]; [|reflexivity]. rewrite handler_hit.
  destruct (marks h (snd (call_args c))) as [nm|]; reflexivity.
Qed.

(* at-most-once tables: a call appends what it marks to the occupied edges *)
Lemma call_occ s c : wf_model cm = true -> once_model cm = true -> K s -> call_ok tb c s ->
  cw_occ (world (after tb c s)) = cw_occ (world s) ++ infection (s, c).
Proof.
  intros Hwf Ho Hk Hok. unfold tb. rewrite after_world. unfold infection. cbn [snd].
  destruct (call_kind cm c) as [h|] eqn:Ek; [|rewrite app_nil_r; reflexivity]. rewrite handler_occ.
  destruct (marks h (snd (call_args c))) as [[n m]|] eqn:Em; [|rewrite app_nil_r; reflexivity].
  destruct (marking_call s c h n m Hwf Ho Hk Hok Ek Em) as (_ & (l & Hl & Hn) & _).
  apply mark_occupied_fresh. exact (Forest_untouched _ n l (K_Forest s Hk) Hn Hl).
Qed.

(* so the occupied edges are exactly the marks of the run, in order *)
Theorem occ_is_infections rs ls ds cs s : wf_model cm = true -> once_model cm = true -> graph_okb nodes edges = true ->
  init_ok cm nodes init = true -> Steps tb (setup_state tb rs ls ds) cs s -> cw_occ (world s) = infections cs.
Proof.
  intros Hwf Ho Hg Hi H. induction H as [|cs s s' H IH Hs|cs s c H IH Hok].
  - unfold tb. rewrite setup_world. reflexivity.
  - rewrite (sched_world Hs). exact IH.
  - destruct (K_steps rs ls ds cs s Hwf Ho Hg Hi H) as [Hk _].
    unfold infections. rewrite flat_map_app. fold (infections cs). rewrite <- IH. cbn [flat_map]. rewrite app_nil_r.
    exact (call_occ s c Hwf Ho Hk Hok).
Qed.

(* times along the tree: whenever the times of the occupied edges are related by R in the order of
   the record (R = Qle: never decreasing; R = Qlt: strictly increasing), the hitting time of an
   infector is R-related to the hitting time of the node it infected *)
Lemma Forest_times (R : Q -> Q -> Prop) w : Forest w -> StronglySorted R (map snd (cw_occ w)) ->
  forall n m t t', In (n, m, t) (cw_occ w) -> In (m, t') (cw_hit w) -> R t' t.
Proof.
  intros F Hs n m t t' Hx Hm. destruct (in_split _ _ Hx) as [o1 [o2 E]].
  destruct (infector_earlier w o1 (n, m, t) o2 t' F E Hm) as [m' Hy]. cbn [parent fst snd] in Hy.
  rewrite E, map_app in Hs. cbn [map snd] in Hs.
  apply (SS_before R (map snd o1) t (map snd o2) Hs t'). apply in_map_iff. exists (m, m', t'). split; [reflexivity | exact Hy].
Qed.

(* the record is the marking calls of the run, in call order *)
Theorem times_along_tree (R : Q -> Q -> Prop) rs ls ds cs s : wf_model cm = true -> once_model cm = true ->
  graph_okb nodes edges = true -> init_ok cm nodes init = true -> Steps tb (setup_state tb rs ls ds) cs s ->
  StronglySorted R (map snd (infections cs)) ->
  forall n m t t', In (n, m, t) (cw_occ (world s)) -> In (m, t') (cw_hit (world s)) -> R t' t.
Proof.
  intros Hwf Ho Hg Hi H Hs.
  rewrite <- (occ_is_infections rs ls ds cs s Hwf Ho Hg Hi H) in Hs.
  exact (Forest_times R (world s) (K_Forest s (proj1 (K_steps rs ls ds cs s Hwf Ho Hg Hi H))) Hs).
Qed.

End CF.

Arguments Forest_untouched {cm nodes edges init w} v c.
Arguments Forest_hits {cm nodes edges init w}.
Arguments Forest_adj {cm nodes edges init w} x.
Arguments Forest_list {cm nodes edges init w}.
Arguments Forest_since_setup {cm nodes edges init w} v c.
Arguments Forest_child_setup {cm nodes edges init w} x.
Arguments K_J {cm nodes edges init s}.
Arguments K_QE {cm nodes edges init s}.
Arguments K_Forest {cm nodes edges init s}.
Arguments K_at_call {cm nodes edges init maxtime monitor}.
Arguments K_steps {cm nodes edges init maxtime monitor}.
Arguments call_occ {cm nodes edges init maxtime monitor}.
Arguments occ_is_infections {cm nodes edges init maxtime monitor}.
Arguments times_along_tree {cm nodes edges init maxtime monitor}.
Arguments hits_first_only {cm nodes edges init maxtime monitor}.
