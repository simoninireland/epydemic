(* Finite distributions over Q with the probability of an event (prob; the expectation laws come
   from Lib/Dist.v, whose type of distributions this is), the binomial law of independent Bernoulli
   trials, the first-success distribution behind the geometric law of Properties/C06.v, and their
   connection to the per-element trials of synchronous dynamics (spec_trials of Proofs/KernelSync.v).
   What is NOT proved here (and cannot be, in this setting): that rng.random() <= p has
   probability p.  The laws below take that as the definition of [trial p]. *)
From Coq Require Import List ZArith QArith Bool Arith Lia.
From EpyV Require Lib.Dist Proofs.GFSum.
From EpyV Require Import Model.Kernel Proofs.KernelSync.
Import ListNotations.
Open Scope Q_scope.

Definition dist (A : Type) := list (A * Q).
Definition ret {A} (a : A) : dist A := [(a, 1)].
Definition scale {A} (p : Q) (d : dist A) : dist A := map (fun bq => (fst bq, p * snd bq)) d.
Definition bind {A B} (d : dist A) (f : A -> dist B) : dist B :=
  flat_map (fun ap => scale (snd ap) (f (fst ap))) d.
Fixpoint prob {A} (P : A -> bool) (d : dist A) : Q :=
  match d with [] => 0 | (a, q) :: d' => (if P a then q else 0) + prob P d' end.
Definition mass {A} (d : dist A) : Q := prob (fun _ => true) d.
Definition trial (p : Q) : dist bool := [(true, p); (false, 1 - p)].

(* [dist] is Lib/Dist.v's type of weighted lists again, so Dist.expect applies: prob P is the
   expectation of the indicator of P, mass is Dist.total, and the probability of an event after a
   bind is the expectation of its conditional probabilities *)
Lemma prob_expect : forall A (P : A -> bool) d, prob P d == Dist.expect d (fun a => if P a then 1 else 0).
Proof.
  intros A P. induction d as [|[a q] d IH]; [reflexivity|]. rewrite Dist.expect_cons, <- IH. cbn [prob].
  destruct (P a); ring.
Qed.

Lemma mass_total : forall A (d : dist A), mass d == Dist.total d.
Proof. intros A d. unfold mass. rewrite prob_expect, Dist.expect_const. ring. Qed.

Lemma prob_bind : forall A B (P : B -> bool) (d : dist A) (f : A -> dist B),
  prob P (bind d f) == Dist.expect d (fun a => prob P (f a)).
Proof.
  intros A B P d f. rewrite prob_expect, (Dist.expect_bind A B d f). apply Dist.expect_ext_in.
  intros a q _. symmetry. apply prob_expect.
Qed.

Lemma prob_ret : forall A (P : A -> bool) a, prob P (ret a) == if P a then 1 else 0.
Proof. intros A P a. cbn [prob ret]. destruct (P a); ring. Qed.

Lemma prob_ext_In : forall A (P P' : A -> bool) d, (forall a q, In (a, q) d -> P a = P' a) -> prob P d == prob P' d.
Proof. intros A P P' d H. rewrite !prob_expect. apply Dist.expect_ext_in. intros a q Hin. rewrite (H a q Hin). reflexivity. Qed.

Lemma prob_ext : forall A (P P' : A -> bool) d, (forall a, P a = P' a) -> prob P d == prob P' d.
Proof. intros A P P' d H. apply prob_ext_In. intros a _ _. apply H. Qed.

Lemma prob_const : forall A (c : bool) (d : dist A), prob (fun _ => c) d == if c then mass d else 0.
Proof. intros A c d. destruct c; [reflexivity|]. rewrite prob_expect, Dist.expect_const. ring. Qed.

Lemma prob_false : forall A (d : dist A), prob (fun _ => false) d == 0.
Proof. intros A d. exact (prob_const A false d). Qed.

Lemma prob_bind_ext : forall A B (P : B -> bool) (d : dist A) (f g : A -> dist B),
  (forall a q, In (a, q) d -> prob P (f a) == prob P (g a)) -> prob P (bind d f) == prob P (bind d g).
Proof. intros A B P d f g H. rewrite !prob_bind. apply Dist.expect_ext_in, H. Qed.

Lemma prob_bind_ret_l : forall A B (P : B -> bool) (a : A) (f : A -> dist B),
  prob P (bind (ret a) f) == prob P (f a).
Proof. intros A B P a f. rewrite prob_bind. apply Dist.expect_ret. Qed.

Lemma prob_bind_ret : forall A B (P : B -> bool) (g : A -> B) d,
  prob P (bind d (fun a => ret (g a))) == prob (fun a => P (g a)) d.
Proof. intros A B P g d. rewrite prob_bind, prob_expect. apply Dist.expect_ext_in. intros a q _. apply prob_ret. Qed.

Lemma prob_bind_trial : forall B (P : B -> bool) p (f : bool -> dist B),
  prob P (bind (trial p) f) == p * prob P (f true) + (1 - p) * prob P (f false).
Proof. intros B P p f. rewrite prob_bind. unfold trial. rewrite !Dist.expect_cons. unfold Dist.expect. cbn [Dist.sumf]. ring. Qed.

Lemma prob_bind_assoc : forall A B C (P : C -> bool) (d : dist A) (f : A -> dist B) (g : B -> dist C),
  prob P (bind (bind d f) g) == prob P (bind d (fun a => bind (f a) g)).
Proof.
  intros A B C P d f g. rewrite !prob_bind, (Dist.expect_bind A B d f). apply Dist.expect_ext_in.
  intros a q _. symmetry. apply prob_bind.
Qed.

Lemma prob_bind_swap : forall A B C (P : C -> bool) (d1 : dist A) (d2 : dist B) (h : A -> B -> dist C),
  prob P (bind d1 (fun a => bind d2 (fun b => h a b))) == prob P (bind d2 (fun b => bind d1 (fun a => h a b))).
Proof.
  intros A B C P d1 d2 h. rewrite !prob_bind.
  rewrite (Dist.expect_ext_in _ d1 _ (fun a => Dist.expect d2 (fun b => prob P (h a b)))) by (intros; apply prob_bind).
  rewrite Dist.expect_swap. apply Dist.expect_ext_in. intros b q _. symmetry. apply prob_bind.
Qed.

Lemma prob_bind_const : forall A B (P : B -> bool) (d : dist A) (f : A -> dist B) c,
  (forall a q, In (a, q) d -> prob P (f a) == c) -> prob P (bind d f) == mass d * c.
Proof.
  intros A B P d f c H. rewrite prob_bind, (Dist.expect_ext_in _ d _ (fun _ => c) H), Dist.expect_const, mass_total. reflexivity.
Qed.

Lemma mass_bind : forall A B (d : dist A) (f : A -> dist B),
  (forall a q, In (a, q) d -> mass (f a) == 1) -> mass (bind d f) == mass d.
Proof. intros A B d f H. unfold mass at 1. rewrite (prob_bind_const _ _ _ d f 1 H). apply Qmult_1_r. Qed.

Lemma mass_ret : forall A (a : A), mass (ret a) == 1.
Proof. intros A a. apply prob_ret. Qed.

Lemma prob_bind_indicator : forall A B (P : B -> bool) (Q : A -> bool) (d : dist A) (f : A -> dist B),
  (forall a q, In (a, q) d -> prob P (f a) == if Q a then 1 else 0) -> prob P (bind d f) == prob Q d.
Proof. intros A B P Q d f H. rewrite prob_bind, prob_expect. apply Dist.expect_ext_in, H. Qed.

Lemma prob_bind2_map : forall A B C D (P : D -> bool) (g : C -> D) (d1 : dist A) (d2 : dist B) (h : A -> B -> C),
  prob P (bind d1 (fun a => bind d2 (fun b => ret (g (h a b))))) ==
  prob (fun c => P (g c)) (bind d1 (fun a => bind d2 (fun b => ret (h a b)))).
Proof.
  intros A B C D P g d1 d2 h. rewrite !prob_bind. apply Dist.expect_ext_in. intros a q _.
  rewrite (prob_bind_ret _ _ P (fun b => g (h a b))), (prob_bind_ret _ _ (fun c => P (g c)) (fun b => h a b)). reflexivity.
Qed.

(* every outcome d can produce satisfies R *)
Definition supp {A} (d : dist A) (R : A -> Prop) : Prop := forall a q, In (a, q) d -> R a.

Lemma supp_in : forall {A} {d : dist A} {R : A -> Prop} {a q}, supp d R -> In (a, q) d -> R a.
Proof. intros A d R a q H. apply H. Qed.

Lemma supp_ret : forall A (a : A) (R : A -> Prop), R a -> supp (ret a) R.
Proof. intros A a R H b q [E|[]]. inversion E; subst. exact H. Qed.

Lemma supp_bind : forall A B (d : dist A) (f : A -> dist B) (R : A -> Prop) (S : B -> Prop),
  supp d R -> (forall a, R a -> supp (f a) S) -> supp (bind d f) S.
Proof.
  intros A B d f R S Hd Hf b q H. unfold bind in H. apply in_flat_map in H. destruct H as [[a qa] [H1 H2]].
  unfold scale in H2. apply in_map_iff in H2. destruct H2 as [[b' qb] [E H2]].
  cbn [fst snd] in *. inversion E; subst. exact (Hf a (Hd a qa H1) b qb H2).
Qed.

Lemma supp_any : forall A (d : dist A), supp d (fun _ => True).
Proof. intros A d a q _. exact I. Qed.

Fixpoint qpow (q : Q) (n : nat) : Q := match n with O => 1 | S n' => q * qpow q n' end.

Fixpoint binom (n k : nat) : nat :=
  match n, k with
  | _, O => 1
  | O, S _ => 0
  | S n', S k' => binom n' k' + binom n' (S k')
  end.

Lemma binom_0 : forall n, binom n 0 = 1%nat.
Proof. destruct n; reflexivity. Qed.

Lemma binom_gt : forall n k, (n < k)%nat -> binom n k = 0%nat.
Proof.
  induction n as [|n IH]; intros k H; destruct k as [|k]; try lia; [reflexivity|].
  cbn [binom]. rewrite !IH by lia. reflexivity.
Qed.

Lemma binom_diag : forall n, binom n n = 1%nat.
Proof. induction n as [|n IH]; [reflexivity|]. cbn [binom]. rewrite IH, binom_gt by lia. reflexivity. Qed.

Definition qn (n : nat) : Q := inject_Z (Z.of_nat n).

Lemma qn_add : forall a b, qn (a + b) == qn a + qn b.
Proof. exact GFSum.qn_add. Qed.

Lemma qn_pos : forall n, (0 < n)%nat -> ~ qn n == 0.
Proof. exact GFSum.qn_pos. Qed.

(* number of successes in n independent trials *)
Fixpoint successes (n : nat) (p : Q) : dist nat :=
  match n with
  | O => ret 0%nat
  | S n' => bind (trial p) (fun b => bind (successes n' p) (fun k => ret (if b then S k else k)))
  end.

Definition binomial_pmf (n : nat) (p : Q) (k : nat) : Q := qn (binom n k) * qpow p k * qpow (1 - p) (n - k).

Lemma successes_step : forall n p (P : nat -> bool),
  prob P (successes (S n) p) == p * prob (fun k => P (S k)) (successes n p) + (1 - p) * prob P (successes n p).
Proof.
  intros n p P. cbn [successes]. rewrite prob_bind_trial, !prob_bind_ret. reflexivity.
Qed.

Theorem binomial_law : forall n p k, prob (Nat.eqb k) (successes n p) == binomial_pmf n p k.
Proof.
  induction n as [|n IH]; intros p k.
  - unfold binomial_pmf. cbn [successes]. rewrite prob_ret.
    destruct k as [|k]; cbn [Nat.eqb binom qpow Nat.sub]; [change (qn 1) with 1 | change (qn 0) with 0]; ring.
  - rewrite successes_step. destruct k as [|k].
    + rewrite (prob_ext _ _ (fun _ => false)) by reflexivity. rewrite prob_false, IH.
      unfold binomial_pmf. cbn [binom qpow]. rewrite !Nat.sub_0_r. cbn [qpow]. rewrite binom_0. change (qn 1) with 1. ring.
    + rewrite (prob_ext _ (fun j => (S k =? S j)%nat) (Nat.eqb k)) by reflexivity.
      rewrite !IH. unfold binomial_pmf. cbn [binom]. rewrite qn_add.
      replace (S n - S k)%nat with (n - k)%nat by lia. cbn [qpow].
      destruct (le_lt_dec (S k) n) as [Hle|Hgt].
      * replace (n - k)%nat with (S (n - S k)) by lia. cbn [qpow]. ring.
      * rewrite (binom_gt n (S k)) by lia. change (qn 0) with 0. ring.
Qed.

(* index (from 1) of the first success among n trials, if any *)
Fixpoint first_success (n : nat) (p : Q) : dist (option nat) :=
  match n with
  | O => ret None
  | S n' => bind (trial p) (fun b => if b then ret (Some 1%nat)
                                     else bind (first_success n' p) (fun r => ret (option_map S r)))
  end.

Definition is_some_k (k : nat) (r : option nat) : bool :=
  match r with Some j => Nat.eqb k j | None => false end.

Lemma first_success_not_0 : forall n p, prob (is_some_k 0) (first_success n p) == 0.
Proof.
  induction n as [|n IH]; intros p.
  - cbn [first_success]. rewrite prob_ret. reflexivity.
  - cbn [first_success]. rewrite prob_bind_trial, prob_ret, prob_bind_ret.
    rewrite (prob_ext _ _ (fun _ => false)) by (intros [j|]; reflexivity).
    rewrite prob_false. cbn [is_some_k Nat.eqb]. ring.
Qed.

(* The selection made by [trials] depends on the variates only through the outcomes [r <= p]:
   it picks the elements at the positions of the successes. *)
Fixpoint pick {A} (m : list bool) (els : list A) : list A :=
  match els with
  | [] => []
  | e :: els' => if hd false m then e :: pick (tl m) els' else pick (tl m) els'
  end.

Fixpoint outcomes (p : Q) (n : nat) (rs : list Q) : list bool :=
  match n with O => [] | S n' => Qle_bool (hd 0 rs) p :: outcomes p n' (tl rs) end.

Definition ntrue (m : list bool) : nat := length (filter (fun b : bool => b) m).

Lemma spec_trials_pick : forall x p els rs,
  spec_trials x p els rs = map (pair x) (pick (outcomes p (length els) rs) els).
Proof.
  intros x p. induction els as [|e els IH]; intros rs; [reflexivity|].
  cbn [spec_trials length outcomes pick hd tl]. rewrite IH.
  destruct (Qle_bool (hd 0 rs) p); reflexivity.
Qed.

Lemma outcomes_length : forall p n rs, length (outcomes p n rs) = n.
Proof. intros p. induction n as [|n IH]; intros rs; [reflexivity|]. cbn [outcomes length]. rewrite IH. reflexivity. Qed.

Lemma pick_length : forall A (els : list A) m, length m = length els -> length (pick m els) = ntrue m.
Proof.
  intros A. induction els as [|e els IH]; intros m H.
  - destruct m; [reflexivity | discriminate].
  - destruct m as [|b m]; [discriminate|]. cbn [pick hd tl]. unfold ntrue. cbn [filter].
    injection H as H. destruct b; cbn [length]; rewrite (IH m H); reflexivity.
Qed.

(* the outcomes of n independent trials *)
Fixpoint masks (n : nat) (p : Q) : dist (list bool) :=
  match n with
  | O => ret []
  | S n' => bind (trial p) (fun b => bind (masks n' p) (fun m => ret (b :: m)))
  end.

Lemma successes_masks : forall n p (P : nat -> bool),
  prob P (successes n p) == prob (fun m => P (ntrue m)) (masks n p).
Proof.
  induction n as [|n IH]; intros p P.
  - cbn [successes masks]. rewrite !prob_ret. reflexivity.
  - rewrite successes_step. cbn [masks]. rewrite prob_bind_trial, !prob_bind_ret.
    rewrite (IH p (fun k => P (S k))), (IH p P). reflexivity.
Qed.

Lemma masks_length : forall n p, supp (masks n p) (fun m => length m = n).
Proof.
  induction n as [|n IH]; intros p; cbn [masks]; [apply supp_ret; reflexivity|].
  eapply supp_bind; [apply supp_any|]. intros b _. eapply supp_bind; [apply IH|].
  intros m Hm. apply supp_ret. cbn [length]. rewrite Hm. reflexivity.
Qed.

(* the sub-list selected from a locus [els] when each element undergoes an independent trial *)
Definition selected_dist {X} (x : X) (p : Q) (els : list elem) : dist (list (X * elem)) :=
  bind (masks (length els) p) (fun m => ret (map (pair x) (pick m els))).

Theorem selected_binomial : forall X (x : X) p els k,
  prob (fun sel => Nat.eqb k (length sel)) (selected_dist x p els) == binomial_pmf (length els) p k.
Proof.
  intros X x p els k. unfold selected_dist. rewrite prob_bind_ret.
  rewrite <- binomial_law, (successes_masks _ _ (Nat.eqb k)).
  apply prob_ext_In. intros m q H. rewrite map_length, pick_length; [reflexivity|].
  exact (supp_in (masks_length _ _) H).
Qed.

Lemma mass_trial : forall p, mass (trial p) == 1.
Proof. intros p. unfold mass, trial. cbn [prob]. ring. Qed.

Lemma mass_successes : forall n p, mass (successes n p) == 1.
Proof.
  unfold mass. induction n as [|n IH]; intros p.
  - cbn [successes]. rewrite prob_ret. reflexivity.
  - rewrite successes_step, !IH. ring.
Qed.
