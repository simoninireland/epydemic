(* Non-vacuity of the hypotheses of the contour theorems: the algebraic numbers (MathComp's algC, an
   algebraically closed field of characteristic 0 standing in for the complex numbers) contain a
   primitive m-th root of unity for every m > 0, and m is invertible there. *)
From mathcomp Require Import ssreflect ssrfun ssrbool eqtype ssrnat ssralg poly ssrnum algC cyclotomic.
From EpyV Require Import Model.Contour Proofs.Contour.
Set Implicit Arguments.
Unset Strict Implicit.
Unset Printing Implicit Defensive.
Import GRing.Theory Num.Theory.
Local Open Scope ring_scope.

Lemma contour_hyps_algC m : (0 < m)%N -> exists z : algC, m.-primitive_root z /\ (m%:R != 0 :> algC).
Proof.
move=> m_gt0; have [z prim_z] := C_prim_root_exists m_gt0.
by exists z; split=> //; rewrite pnatr_eq0 -lt0n.
Qed.

(* 100 points, a series with 150 coefficients, n = i + order = 60: exactly a_60 comes out *)
Definition contour_example_stmt : Prop :=
  exists z : algC, 100.-primitive_root z /\ (100%:R != 0 :> algC) /\
    forall a : nat -> algC, contour_mean 100 z 1 (peval a 150) 60 = a 60%N.

Lemma contour_example_holds : contour_example_stmt.
Proof.
have [z [prim_z m_neq0]] := @contour_hyps_algC 100 isT.
exists z; split=> //; split=> // a.
by rewrite (contour_no_alias a prim_z m_neq0 (oner_neq0 _)).
Qed.
