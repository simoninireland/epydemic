(* Proofs about occupy (bond and site) of Model/NewmanZiff.v (C13): the union-find invariant,
   the running largest-component size and the component count are maintained. *)
From Coq Require Import List ZArith Bool Arith Lia.
From EpyV Require Import Lib.Prelude Lib.Lists Model.NewmanZiff Proofs.NewmanZiffUF.
Import ListNotations.

(* g is the largest size stored at a root (0 when there is no root) *)
Definition GccOK (a : list Z) (g : Z) : Prop :=
  (forall r, is_root a r -> (- get a r <= g)%Z) /\
  ((exists r, is_root a r /\ (- get a r)%Z = g) \/ (g = 0%Z /\ forall r, ~ is_root a r)).

(* nc is the number of roots *)
Definition NcOK (a : list Z) (nc : Z) : Prop :=
  exists l, NoDup l /\ (forall r, In r l <-> is_root a r) /\ nc = Z.of_nat (length l).

Lemma GccOK_compr {a a' g} : compr a a' -> GccOK a g -> GccOK a' g.
Proof.
  intros C [H1 H2]. split.
  - intros r R. apply (compr_root C) in R. rewrite (c_neg C) by apply R. auto.
  - destruct H2 as [(r & R & E)|[E H]].
    + left. exists r. split; [apply (compr_root C); exact R | rewrite (c_neg C) by apply R; exact E].
    + right. split; [exact E|]. intros r R. apply (compr_root C) in R. apply (H r R).
Qed.

Lemma NcOK_compr {a a' nc} : compr a a' -> NcOK a nc -> NcOK a' nc.
Proof.
  intros C (l & ND & Hl & E). exists l. split; [exact ND|]. split; [|exact E].
  intros r. rewrite Hl. symmetry. apply (compr_root C).
Qed.

(* join(c1, c2): the root c2 goes, the others stay *)
Lemma NcOK_join {a c1 c2 nc} : is_root a c1 -> is_root a c2 -> c1 <> c2 ->
  NcOK a nc -> NcOK (fst (join a c1 c2)) (nc - 1)%Z.
Proof.
  intros R1 R2 Ne (l & ND & Hl & ->).
  destruct (in_split c2 l (proj2 (Hl c2) R2)) as (l1 & l2 & ->).
  apply NoDup_remove in ND. destruct ND as [ND Nin]. rewrite in_app_iff in Nin.
  exists (l1 ++ l2). split; [exact ND|]. split.
  - intros r. rewrite (join_root R1 R2 Ne), <- Hl, !in_app_iff. cbn [In]. split.
    + intros H. split; [tauto|]. intros ->. exact (Nin H).
    + intros [[H|[E|H]] N]; [left; exact H | contradiction (N (eq_sym E)) | right; exact H].
  - rewrite !app_length. cbn [length]. lia.
Qed.

(* the size at c1 becomes the sum, which is the largest or not *)
Lemma GccOK_join {a c1 c2 g} : is_root a c1 -> is_root a c2 -> c1 <> c2 ->
  GccOK a g -> GccOK (fst (join a c1 c2)) (Z.max g (snd (join a c1 c2))).
Proof.
  intros R1 R2 Ne [H1 H2]. rewrite join_snd, (join_get_c1 R1 Ne).
  pose proof (proj2 R1) as N1. pose proof (proj2 R2) as N2.
  assert (R1' : is_root (fst (join a c1 c2)) c1) by (apply (join_root R1 R2 Ne); auto).
  split.
  - intros r R. apply (join_root R1 R2 Ne) in R. destruct R as [R Hr2].
    destruct (Nat.eq_dec r c1) as [->|Hr1].
    + rewrite (join_get_c1 R1 Ne). lia.
    + rewrite (join_get_other Ne) by auto. specialize (H1 _ R). lia.
  - left. destruct (Z.le_gt_cases g (- (get a c1 + get a c2))) as [Le|Gt].
    + exists c1. split; [exact R1'|]. rewrite (join_get_c1 R1 Ne). lia.
    + destruct H2 as [(r & R & E)|[E H]]; [|destruct (H c1 R1)].
      assert (r <> c1) by (intros ->; lia). assert (r <> c2) by (intros ->; lia).
      exists r. split; [apply (join_root R1 R2 Ne); auto|].
      rewrite (join_get_other Ne) by auto. lia.
Qed.

(* join(c1, c2) for an edge (n, m) between the trees of c1 and c2: the two classes become one *)
Lemma join_spec {a es g nc n m c1 c2 dn dm} :
  UF a es -> GccOK a g -> NcOK a nc -> path a n c1 dn -> path a m c2 dm -> c1 <> c2 ->
  forall a' cs, join a c1 c2 = (a', cs) ->
  UF a' ((n, m) :: es) /\ GccOK a' (Z.max g cs) /\ NcOK a' (nc - 1)
  /\ length a' = length a /\ (forall x, occ a' x <-> occ a x).
Proof.
  intros U G K Pn Pm Ne a' cs E. destruct (path_lt Pn) as [_ R1]. destruct (path_lt Pm) as [_ R2].
  replace a' with (fst (join a c1 c2)) by (rewrite E; reflexivity).
  replace cs with (snd (join a c1 c2)) by (rewrite E; reflexivity).
  split; [exact (UF_join R1 R2 Ne U Pn Pm)|]. split; [exact (GccOK_join R1 R2 Ne G)|].
  split; [exact (NcOK_join R1 R2 Ne K)|]. split; [exact (join_len Ne) | exact (join_occ R1 R2 Ne)].
Qed.

Lemma npair_eqb_eq e f : npair_eqb e f = true <-> e = f.
Proof.
  destruct e as [a b], f as [c d]. unfold npair_eqb. cbn [fst snd].
  rewrite andb_true_iff, !Nat.eqb_eq. split; [intros [-> ->]; reflexivity | intros H; inversion H; auto].
Qed.

Lemma same_nedge_true x y f : same_nedge (x, y) f = true <-> f = (x, y) \/ f = (y, x).
Proof.
  destruct f as [c d]. unfold same_nedge. cbn [fst snd]. rewrite orb_true_iff, !npair_eqb_eq.
  split; intros [H|H]; inversion H; subst; auto.
Qed.

Lemma add_edge_eeq e es : eeq (add_edge e es) (e :: es).
Proof.
  unfold add_edge. destruct (existsb (same_nedge e) es) eqn:X.
  - split; intros x y I; [left; right; exact I|]. destruct I as [->|I]; [|left; exact I].
    apply existsb_exists in X. destruct X as (f & If & Sf). apply same_nedge_true in Sf.
    destruct Sf as [->| ->]; auto.
  - split; intros x y I; left.
    + apply in_app_iff in I. destruct I as [I|[<-|[]]]; [right; exact I | left; reflexivity].
    + apply in_app_iff. destruct I as [<-|I]; [right; left; reflexivity | left; exact I].
Qed.

Lemma add_node_In n ns x : In x (add_node n ns) <-> x = n \/ In x ns.
Proof.
  unfold add_node. fold (memb Nat.eqb n ns). destruct (memb Nat.eqb n ns) eqn:X.
  - apply (memb_In Nat.eqb Nat.eqb_eq) in X. split; [auto|]. intros [->|H]; assumption.
  - rewrite in_app_iff. cbn. intuition.
Qed.

Lemma add_node_fresh n ns : ~ In n ns -> add_node n ns = ns ++ [n].
Proof.
  intros H. unfold add_node. fold (memb Nat.eqb n ns). destruct (memb Nat.eqb n ns) eqn:X; [|reflexivity].
  apply (memb_In Nat.eqb Nat.eqb_eq) in X. contradiction.
Qed.

Lemma eeq_cons e a b : eeq a b -> eeq (e :: a) (e :: b).
Proof.
  intros [H1 H2]. split; intros x y [E|I]; try (left; left; exact E).
  - destruct (H1 _ _ I); [left|right]; right; assumption.
  - destruct (H2 _ _ I); [left|right]; right; assumption.
Qed.

Record Inv (s : state) : Prop := {
  inv_uf : UF (comp s) (wedges s);
  inv_gcc : GccOK (comp s) (gcc s);
  inv_nc : NcOK (comp s) (ncomp s)
}.

(* s with the array a, as after queries that compress paths *)
Definition set_comp (s : state) (a : list Z) : state :=
  {| comp := a; gcc := gcc s; ncomp := ncomp s; wnodes := wnodes s; wedges := wedges s |}.

Lemma Inv_compr {s a'} : Inv s -> compr (comp s) a' -> Inv (set_comp s a').
Proof.
  intros [U G K] C. constructor; cbn [set_comp comp gcc ncomp wedges].
  - exact (UF_compr U C).
  - exact (GccOK_compr C G).
  - exact (NcOK_compr C K).
Qed.

Lemma UF_add_edge {a e es} : UF a (e :: es) -> UF a (add_edge e es).
Proof. apply UF_eeq, eeq_sym, add_edge_eeq. Qed.

(* _gcc is never lowered, whatever the state *)
Lemma occupy_bond_gcc s e : (gcc s <= gcc (occupy_bond s e))%Z.
Proof.
  destruct e as [n m]. unfold occupy_bond. destruct (root (comp s) n) as [a1 nr]. destruct (root a1 m) as [a2 mr].
  destruct (Nat.eqb mr nr); [apply Z.le_refl|]. destruct (join a2 nr mr). apply Z.le_max_l.
Qed.

Lemma occupy_bond_spec s n m : Inv s -> occ (comp s) n -> occ (comp s) m ->
  let s' := occupy_bond s (n, m) in
  Inv s' /\ length (comp s') = length (comp s) /\ (forall x, occ (comp s') x <-> occ (comp s) x)
  /\ eeq (wedges s') ((n, m) :: wedges s) /\ wnodes s' = wnodes s.
Proof.
  intros [U G K] On Om. cbv zeta. unfold occupy_bond.
  destruct (root_spec U On) as (a1 & nr & dn & E1 & Pn & C1). rewrite E1.
  destruct (root_spec (UF_compr U C1) (proj2 (compr_occ C1 m) Om)) as (a2 & mr & dm & E2 & Pm & C2). rewrite E2.
  pose proof (compr_trans C1 C2) as C.
  destruct (c_path C Pn) as (dn' & _ & Pn2). destruct (c_path C2 Pm) as (dm' & _ & Pm2).
  pose proof (UF_compr U C) as U2. pose proof (GccOK_compr C G) as G2. pose proof (NcOK_compr C K) as K2.
  destruct (Nat.eqb_spec mr nr) as [->|Ne].
  - split; [constructor; [exact (UF_add_edge (UF_same U2 Pn2 Pm2)) | exact G2 | exact K2]|].
    split; [exact (c_len C)|]. split; [exact (compr_occ C)|].
    split; [apply add_edge_eeq | reflexivity].
  - destruct (join a2 nr mr) as [a3 cs] eqn:EJ.
    destruct (join_spec U2 G2 K2 Pn2 Pm2 (not_eq_sym Ne) a3 cs EJ) as (U3 & G3 & K3 & L3 & O3).
    split; [constructor; [exact (UF_add_edge U3) | exact G3 | exact K3]|].
    split; [exact (eq_trans L3 (c_len C))|]. split; [intros x; cbn [comp]; rewrite O3; apply (compr_occ C)|].
    split; [apply add_edge_eeq | reflexivity].
Qed.

Section Fresh.
  Context {a : list Z} {nr : nat}.
  Hypothesis Lnr : nr < length a.
  Hypothesis Unr : get a nr = unocc a.
  Let a0 := set a nr (-1)%Z.

  Lemma fresh_get x : x <> nr -> get a0 x = get a x.
  Proof. intros H. apply get_set_other. auto. Qed.

  Lemma fresh_get_nr : get a0 nr = (-1)%Z.
  Proof. apply get_set_same. exact Lnr. Qed.

  (* an entry test that -1 passes and the marker fails: nr now passes, the others do as before *)
  Lemma fresh_entry (Q : Z -> Prop) x : Q (-1)%Z -> ~ Q (unocc a) ->
    (x < length a0 /\ Q (get a0 x)) <-> x = nr \/ (x < length a /\ Q (get a x)).
  Proof.
    intros Q1 Qu. unfold a0. rewrite set_length. destruct (Nat.eq_dec x nr) as [->|Ne].
    - rewrite get_set_same by exact Lnr. tauto.
    - rewrite get_set_other by auto. tauto.
  Qed.

  Lemma fresh_occ x : occ a0 x <-> x = nr \/ occ a x.
  Proof.
    unfold occ. replace (unocc a0) with (unocc a) by (symmetry; apply unocc_set).
    pose proof (unocc_pos a). apply (fresh_entry (fun v => v <> unocc a)); cbv beta; [lia | auto].
  Qed.

  Lemma fresh_root r : is_root a0 r <-> r = nr \/ is_root a r.
  Proof. pose proof (unocc_pos a). apply (fresh_entry (fun v => (v < 0)%Z)); cbv beta; lia. Qed.

  Lemma not_root_nr : ~ is_root a nr.
  Proof. intros [_ H]. pose proof (unocc_pos a). lia. Qed.

  Lemma path_fresh {x r d} : path a x r d -> path a0 x r d.
  Proof.
    assert (E : forall y s e, path a y s e -> get a0 y = get a y).
    { intros y s e Q. apply fresh_get. intros ->. destruct (path_occ Q) as [_ O]. contradiction. }
    induction 1 as [x H1 H2|x r d H1 H2 H3 IH].
    - constructor; [unfold a0; rewrite set_length; exact H1|]. rewrite (E x x 0) by (constructor; assumption). exact H2.
    - specialize (E _ _ _ (path_step _ _ _ _ H1 H2 H3)).
      apply path_step; [unfold a0; rewrite set_length; exact H1 | rewrite E; exact H2 | rewrite E; exact IH].
  Qed.

  Context {es : list nedge}.
  Hypothesis U : UF a es.

  (* a path of a0 from an old node is a path of a, which every occupied node has *)
  Lemma path_fresh_inv {x r d} : path a0 x r d -> (x = nr /\ r = nr) \/ path a x r d.
  Proof.
    intros P. destruct (proj1 (fresh_occ x) (path_occ P)) as [->|O].
    - left. destruct (path_root_inv (proj2 (fresh_root nr) (or_introl eq_refl)) P). auto.
    - right. destruct (uf_total U O) as (r0 & d0 & P0 & _).
      destruct (path_det P (path_fresh P0)) as [-> ->]. exact P0.
  Qed.

  Lemma fresh_UF : UF a0 es.
  Proof.
    constructor.
    - intros n O. apply fresh_occ in O. destruct (Nat.eq_dec n nr) as [->|Ne].
      + exists nr, 0. split; [apply path_of_root, fresh_root; auto | rewrite fresh_get_nr; lia].
      + destruct O as [->|O]; [contradiction|]. destruct (uf_total U O) as (r & d & P & Hd).
        exists r, d. split; [exact (path_fresh P)|]. rewrite fresh_get; [exact Hd|].
        intros ->. exact (not_root_nr (proj2 (path_lt P))).
    - intros x y I. destruct (uf_edge U I) as (r & d & e & P & Q). exists r, d, e. split; apply path_fresh; assumption.
    - intros x r d P. destruct (path_fresh_inv P) as [[-> ->]|Q]; [apply conn_refl | exact (uf_root_conn U Q)].
    - intros r R. apply fresh_root in R. destruct (Nat.eq_dec r nr) as [->|Ne].
      + exists [nr]. split; [repeat constructor; cbn; tauto|]. split; [|rewrite fresh_get_nr; reflexivity].
        intros x. cbn. split.
        * intros [<-|[]]. exists 0. apply path_of_root, fresh_root. auto.
        * intros (d & P). destruct (path_fresh_inv P) as [[-> _]|Q]; [auto|].
          destruct (not_root_nr (proj2 (path_lt Q))).
      + destruct R as [->|R]; [contradiction|]. destruct (uf_size U R) as (l & ND & Hl & E).
        exists l. split; [exact ND|]. split; [|rewrite fresh_get by auto; exact E].
        intros x. rewrite Hl. split; intros (d & P).
        * exists d. exact (path_fresh P).
        * destruct (path_fresh_inv P) as [[_ ->]|Q]; [contradiction | eauto].
  Qed.

  Lemma fresh_NcOK nc : NcOK a nc -> NcOK a0 (nc + 1)%Z.
  Proof.
    intros (l & ND & Hl & E). exists (nr :: l). split; [|split].
    - constructor; [|exact ND]. intros I. apply Hl in I. apply (not_root_nr I).
    - intros r. cbn. rewrite Hl, fresh_root. intuition.
    - cbn [length]. lia.
  Qed.

  (* the new component has size 1; every component there was has size 1 at least *)
  Lemma fresh_GccOK g : GccOK a g -> GccOK a0 (Z.max g 1).
  Proof.
    intros [H1 H2]. split.
    - intros r R. apply fresh_root in R. destruct (Nat.eq_dec r nr) as [->|Ne].
      + rewrite fresh_get_nr. lia.
      + destruct R as [->|R]; [contradiction|]. rewrite fresh_get by exact Ne. specialize (H1 _ R). lia.
    - left. destruct H2 as [(r & R & E)|[-> _]].
      + assert (Ne : r <> nr) by (intros ->; exact (not_root_nr R)).
        exists r. split; [apply fresh_root; auto|]. rewrite fresh_get by exact Ne. destruct R as [_ R]. lia.
      + exists nr. split; [apply fresh_root; auto | rewrite fresh_get_nr; reflexivity].
  Qed.
End Fresh.

Lemma add_edge_keeps e es f : In f es -> In f (add_edge e es).
Proof. unfold add_edge. destruct (existsb _ es); [auto | intros; apply in_app_iff; left; assumption]. Qed.

Lemma add_edge_inv e es f : In f (add_edge e es) -> f = e \/ In f es.
Proof.
  unfold add_edge. destruct (existsb _ es); [auto|]. intros I. apply in_app_iff in I.
  destruct I as [I|[<-|[]]]; auto.
Qed.

Lemma add_nbr_edges_keeps nr wn : forall nbrs we f, In f we -> In f (add_nbr_edges nr nbrs wn we).
Proof.
  induction nbrs as [|m rest IH]; intros we f I; cbn; [exact I|].
  apply IH. destruct (memb Nat.eqb m wn); [apply add_edge_keeps|]; exact I.
Qed.

Lemma add_nbr_edges_inv nr wn : forall nbrs we x y, In (x, y) (add_nbr_edges nr nbrs wn we) ->
  In (x, y) we \/ (x = nr /\ In y nbrs /\ In y wn).
Proof.
  induction nbrs as [|m rest IH]; intros we x y I; cbn in I; [left; exact I|].
  apply IH in I. destruct I as [I|(-> & I & W)]; [|right; repeat split; auto; right; exact I].
  destruct (memb Nat.eqb m wn) eqn:Mb; [|left; exact I].
  apply add_edge_inv in I. destruct I as [E|I]; [|left; exact I].
  injection E as -> ->. right. split; [reflexivity|]. split; [left; reflexivity | apply (memb_In Nat.eqb Nat.eqb_eq); exact Mb].
Qed.

Lemma add_nbr_edges_has nr wn : forall nbrs we y, In y nbrs -> In y wn ->
  In (nr, y) (add_nbr_edges nr nbrs wn we) \/ In (y, nr) (add_nbr_edges nr nbrs wn we).
Proof.
  induction nbrs as [|m rest IH]; intros we y I W; [contradiction|]. cbn.
  destruct I as [->|I]; [|apply IH; assumption].
  apply (memb_In Nat.eqb Nat.eqb_eq) in W. rewrite W.
  destruct (proj2 (add_edge_eeq (nr, y) we) nr y (or_introl eq_refl)) as [J|J]; [left|right]; apply add_nbr_edges_keeps; exact J.
Qed.

(* The second for-loop of SitePercolation.occupy, run beside the first (which adds the edges to the
   working network): nr is a root and csize the size stored there; the largest size is that or g, the
   largest there was before; the array has N slots, occupied at the nodes wn of the working network. *)
Section Link.
  Variables (nr : nat) (g : Z) (N : nat) (wn : list nat).

  Record Lk (a : list Z) (es : list nedge) (cs nc : Z) : Prop := {
    lk_uf : UF a es;
    lk_gcc : GccOK a (Z.max g cs);
    lk_nc : NcOK a nc;
    lk_root : is_root a nr;
    lk_cs : cs = (- get a nr)%Z;
    lk_len : length a = N;
    lk_occ : forall x, occ a x <-> In x wn
  }.
  Arguments lk_uf {a es cs nc} _.
  Arguments lk_len {a es cs nc} _.
  Arguments lk_occ {a es cs nc} _ x.

  Lemma Lk_compr {a a' es cs nc} : compr a a' -> Lk a es cs nc -> Lk a' es cs nc.
  Proof.
    intros C [U G K R E L O]. constructor.
    - exact (UF_compr U C).
    - exact (GccOK_compr C G).
    - exact (NcOK_compr C K).
    - apply (compr_root C), R.
    - rewrite (c_neg C) by apply R. exact E.
    - rewrite (c_len C). exact L.
    - intros x. rewrite (compr_occ C). apply O.
  Qed.

  Lemma Lk_add_edge {a e es cs nc} : Lk a (e :: es) cs nc -> Lk a (add_edge e es) cs nc.
  Proof. intros [U G K R E L O]. constructor; auto. exact (UF_add_edge U). Qed.

  (* the neighbour m is in nr's tree already *)
  Lemma Lk_same {a es cs nc m d} : Lk a es cs nc -> path a m nr d -> Lk a ((nr, m) :: es) cs nc.
  Proof. intros [U G K R E L O] P. constructor; auto. exact (UF_same U (path_of_root R) P). Qed.

  (* the neighbour m is in another tree, which join hangs under nr *)
  Lemma Lk_join {a es cs nc m mr d} : Lk a es cs nc -> path a m mr d -> mr <> nr ->
    forall a' cs', join a nr mr = (a', cs') -> Lk a' ((nr, m) :: es) cs' (nc - 1)%Z.
  Proof.
    intros [U G K R E L O] P Ne a' cs' EJ. destruct (path_lt P) as [_ Rm]. apply not_eq_sym in Ne.
    destruct (join_spec U G K (path_of_root R) P Ne a' cs' EJ) as (U' & G' & K' & L' & O').
    replace a' with (fst (join a nr mr)) in * by (rewrite EJ; reflexivity).
    replace cs' with (snd (join a nr mr)) in * by (rewrite EJ; reflexivity).
    constructor; try assumption.
    - (* mr is a root, so the joined size is more than cs, and the largest of g, cs and it is that of g and it *)
      replace (Z.max g (snd (join a nr mr))) with (Z.max (Z.max g cs) (snd (join a nr mr))); [exact G'|].
      rewrite join_snd, (join_get_c1 R Ne). destruct Rm as [_ Rm]. lia.
    - apply (join_root R Rm Ne). auto.
    - apply join_snd.
    - rewrite L'. exact L.
    - intros x. rewrite O'. apply O.
  Qed.

  Lemma link_nbrs_spec : forall nbrs a we cs nc, Lk a we cs nc -> (forall m, In m nbrs -> m < N) ->
    exists a' cs' nc', link_nbrs nr nbrs a cs nc = (a', cs', nc') /\ Lk a' (add_nbr_edges nr nbrs wn we) cs' nc'.
  Proof.
    induction nbrs as [|m rest IH]; intros a we cs nc L Hn; cbn [link_nbrs add_nbr_edges].
    - exists a, cs, nc. split; [reflexivity | exact L].
    - specialize (fun a we cs nc L => IH a we cs nc L (fun m I => Hn m (or_intror I))).
      destruct (Z.eqb_spec (get a m) (unocc a)) as [Eu|Nu].
      + (* an unoccupied neighbour is no node of the working network *)
        replace (memb Nat.eqb m wn) with false; [apply IH; exact L|].
        symmetry. apply not_true_iff_false. rewrite (memb_In Nat.eqb Nat.eqb_eq), <- (lk_occ L). intros [_ O]. exact (O Eu).
      + assert (Om : occ a m) by (split; [rewrite (lk_len L); apply Hn; left; reflexivity | exact Nu]).
        replace (memb Nat.eqb m wn) with true by (symmetry; apply (memb_In Nat.eqb Nat.eqb_eq), (lk_occ L), Om).
        destruct (root_spec (lk_uf L) Om) as (a1 & mr & dm & E1 & Pm & C1). rewrite E1.
        destruct (c_path C1 Pm) as (dm' & _ & Pm1). apply (Lk_compr C1) in L.
        destruct (Nat.eqb_spec mr nr) as [->|Ne].
        * apply IH, Lk_add_edge, (Lk_same L Pm1).
        * destruct (join a1 nr mr) as [a2 cs2] eqn:EJ. apply IH, Lk_add_edge, (Lk_join L Pm1 Ne _ _ EJ).
  Qed.
End Link.

(* the neighbour lists are those of an undirected network on the nodes 0..N-1 *)
Definition adj_ok (N : nat) (adj : nat -> list nat) : Prop :=
  forall x y, In y (adj x) -> y < N /\ In x (adj y).

(* site percolation: the occupied nodes are the nodes of the working network, whose edges are
   exactly the edges of the original network between occupied nodes *)
Record SInv (adj : nat -> list nat) (s : state) : Prop := {
  si_inv : Inv s;
  si_occ : forall n, occ (comp s) n <-> In n (wnodes s);
  si_sub1 : forall x y, In (x, y) (wedges s) -> In x (wnodes s) /\ In y (wnodes s) /\ In y (adj x);
  si_sub2 : forall x y, In x (wnodes s) -> In y (wnodes s) -> In y (adj x) -> In (x, y) (wedges s) \/ In (y, x) (wedges s)
}.

Lemma SInv_compr {adj s a'} : SInv adj s -> compr (comp s) a' -> SInv adj (set_comp s a').
Proof.
  intros [I So S1 S2] C. constructor; cbn [set_comp comp wnodes wedges]; try assumption.
  - exact (Inv_compr I C).
  - intros n. rewrite (compr_occ C). apply So.
Qed.

Lemma occupy_site_gcc adj s nr : (gcc s <= gcc (occupy_site adj s nr))%Z.
Proof. unfold occupy_site. destruct (link_nbrs _ _ _ _ _) as [[a cs] nc]. apply Z.le_max_l. Qed.

Lemma occupy_site_spec N adj s nr : adj_ok N adj -> SInv adj s -> length (comp s) = N -> nr < N -> ~ In nr (wnodes s) ->
  let s' := occupy_site adj s nr in
  SInv adj s' /\ length (comp s') = N /\ wnodes s' = wnodes s ++ [nr].
Proof.
  intros A [[U G K] So S1 S2] Len Lnr Fresh. cbv zeta. unfold occupy_site.
  rewrite (add_node_fresh _ _ Fresh). set (wn := wnodes s ++ [nr]).
  rewrite <- Len in Lnr.
  assert (Unr : get (comp s) nr = unocc (comp s)).
  { destruct (Z.eq_dec (get (comp s) nr) (unocc (comp s))) as [E|E]; [exact E|]. destruct Fresh. apply So. split; assumption. }
  assert (L0 : Lk nr (gcc s) N wn (set (comp s) nr (-1)%Z) (wedges s) 1%Z (ncomp s + 1)%Z).
  { constructor.
    - exact (fresh_UF Lnr Unr U).
    - exact (fresh_GccOK Lnr Unr _ G).
    - exact (fresh_NcOK Lnr Unr _ K).
    - apply (fresh_root Lnr). auto.
    - rewrite (fresh_get_nr Lnr). reflexivity.
    - rewrite set_length. exact Len.
    - intros x. rewrite (fresh_occ Lnr), So. unfold wn. rewrite in_app_iff. cbn. intuition. }
  destruct (link_nbrs_spec nr (gcc s) N wn (adj nr) _ _ _ _ L0 (fun m I => proj1 (A _ _ I)))
    as (a' & cs' & nc' & E & [U' G' K' _ _ Len' Oc]).
  rewrite E. split; [constructor; [constructor|..]; cbn [comp gcc ncomp wnodes wedges]|].
  - exact U'.
  - exact G'.
  - exact K'.
  - exact Oc.
  - (* the working network stays the sub-network induced by its nodes *)
    intros x y I. apply add_nbr_edges_inv in I. destruct I as [I|(-> & I & W)].
    + destruct (S1 _ _ I) as (Hx & Hy & Ha). unfold wn. rewrite !in_app_iff. auto.
    + repeat split; auto. unfold wn. apply in_app_iff. right. left. reflexivity.
  - intros x y Hx Hy Ha. apply in_app_iff in Hx. apply in_app_iff in Hy. cbn [In] in Hx, Hy.
    destruct Hx as [Hx|[<-|[]]]; [destruct Hy as [Hy|[<-|[]]]|].
    + destruct (S2 _ _ Hx Hy Ha); [left|right]; apply add_nbr_edges_keeps; assumption.
    + apply or_comm, add_nbr_edges_has; [apply (A _ _ Ha) | apply in_app_iff; left; exact Hx].
    + apply add_nbr_edges_has; [exact Ha | apply in_app_iff; exact Hy].
  - split; [exact Len' | reflexivity].
Qed.
