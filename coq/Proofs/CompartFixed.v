(* C07, fixed recovery: the queue invariant that ties the posted removals to the compartments.
   For tables in which no stochastic event moves a node out of a compartment from which a posted
   event function takes it ([fixed_ok]: trivially true when nothing is posted), along every run:
     FQ  a pending posted node event function HNode c' for node n  =>  n is in a compartment c
         with c -> c' a posted arrow of the diagram (it is one-shot);
     FU  no two pending posted node event functions are for the same node.
   Hence a posted event function, when it fires, moves its node along an arrow of the diagram
   (C07_diagram for posted events), and a node in such a compartment (I of the fixed-recovery
   variants) is moved by nothing but its own posted removal; a pending live entry stays in the
   queue until the very call that fires it (entry_fate).
   The first section is about the kernel, for every world type and table: a call is a move of the
   kernel's core (call_kmove), so queue ids stay distinct and below the next id along a run
   (wf_call, wf_steps), and an entry that has fired never fires again (posted_at_most_once). *)
From Coq Require Import List ZArith QArith Bool Arith Lia.
From EpyV Require Import Model.Kernel Model.Loci Model.Compart Proofs.KernelBase Proofs.KernelQueue Proofs.KernelFire
  Proofs.LociBase Proofs.CompartRun Proofs.CompartInv Proofs.CompartDiagram Proofs.ContactBase.
Import ListNotations.
Close Scope Q_scope.

Section KF.
Context {W : Type}.
Variable tb : table W.
Implicit Types s : st W.

(* a call as a move of the kernel's core (clock, next id, queue, output): Proofs/KernelBase.v *)
Lemma call_kmove c s : call_ok tb c s ->
  kmove (core_of s) (match c with CEv _ _ _ => [] | CPost h => [h] end) (core_of (after tb c s)).
Proof.
  destruct c as [x t e|h]; cbn [after]; [intros (_ & _ & Hc); exact (fire_event_kmove tb x t e s Hc)|].
  intros [Hh Hl]. exact (pend_step_kmove tb h s Hh Hl).
Qed.

Lemma wf_call c s : wf s -> call_ok tb c s -> wf (after tb c s).
Proof. intros Hw Hok. exact (wfk_kmove (call_kmove c s Hok) Hw). Qed.

Lemma wf_setup rs ls ds : wf (setup_state tb rs ls ds).
Proof.
  apply (wfk_kmoves (setup_kmoves tb rs ls ds)). split; constructor.
Qed.

(* an id that has fired is gone for good (C04), in terms of Steps *)
Lemma gone_sched i s s' : sched s s' -> gone_st i s -> gone_st i s'.
Proof. intros Hs G. unfold gone_st in *. rewrite (sched_nextid Hs). exact (gone_incl _ _ _ _ (sched_queue Hs) G). Qed.

Lemma gone_call i c s : call_ok tb c s -> gone_st i s -> gone_st i (after tb c s) /\ (forall h, c = CPost h -> e_id h <> i).
Proof.
  intros Hok G. destruct (gone_kmove i (call_kmove c s Hok) G) as [A B]. split; [exact A|].
  intros h -> E. apply B. left. exact E.
Qed.

Lemma fired_is_gone h s : wf s -> call_ok tb (CPost h) s -> gone_st (e_id h) (after tb (CPost h) s).
Proof.
  intros [Hnd Hlt] [Hh _]. cbn [after]. destruct (pend_step_shape tb h s) as (n2 & q2 & o2 & U & E).
  pose proof (gone_umoves (e_id h) U) as G.
  unfold core_of in E.
  pose proof (f_equal (fun k : core => snd (fst (fst k))) E) as E2. pose proof (f_equal (fun k : core => snd (fst k)) E) as E3.
  cbn [fst snd] in E2, E3. unfold gone_st. rewrite E2, E3. apply G. split.
  - rewrite Forall_forall in Hlt. apply Hlt, head_in, Hh.
  - apply find_live_none. intros x Hx Ex. exfalso. apply (remove_id_gone (e_id h) (queue s) Hnd). apply in_map_iff. exists x. split; [exact Ex | exact Hx].
Qed.

Lemma Steps_gone i sA cs s : Steps tb sA cs s -> gone_st i sA ->
  gone_st i s /\ forall s1 h, In (s1, CPost h) cs -> e_id h <> i.
Proof.
  intros H G. induction H as [|cs s s' H IH Hs|cs s c H IH Hok].
  - split; [exact G | intros ? ? []].
  - destruct IH as [A B]. split; [eapply gone_sched; eassumption | exact B].
  - destruct IH as [A B]. destruct (gone_call i c s Hok A) as [A' B']. split; [exact A'|].
    intros s1 h Hin. apply in_app_or in Hin. destruct Hin as [Hin|[E|[]]]; [exact (B s1 h Hin)|]. inversion E; subst. apply B'. reflexivity.
Qed.

Lemma wf_steps sA cs s : Steps tb sA cs s -> wf sA -> wf s /\ Forall (fun sc => wf (fst sc)) cs.
Proof.
  intros H Hw.
  exact (Steps_inv tb (@wf W) (fun s1 s2 H1 Hs => sched_wf Hs H1)
           (fun s1 c H1 Hok => wf_call c s1 H1 Hok) sA cs s Hw H).
Qed.

Theorem posted_at_most_once s0 cs s cs1 s1 h cs2 : Steps tb s0 cs s -> wf s0 -> cs = cs1 ++ (s1, CPost h) :: cs2 ->
  forall s2 h2, In (s2, CPost h2) (cs1 ++ cs2) -> e_id h2 <> e_id h.
Proof.
  assert (Later : forall cs cs1 s1 h cs2, Steps tb s0 cs s -> wf s0 -> cs = cs1 ++ (s1, CPost h) :: cs2 ->
            forall s2 h2, In (s2, CPost h2) cs2 -> e_id h2 <> e_id h).
  { clear. intros cs cs1 s1 h cs2 H Hw E. destruct (Steps_split tb s0 cs s H cs1 (s1, CPost h) cs2 E) as (A & B & C). cbn [fst snd] in A, B, C.
    exact (proj2 (Steps_gone (e_id h) _ cs2 s C (fired_is_gone h s1 (proj1 (wf_steps s0 cs1 s1 A Hw)) B))). }
  intros H Hw E s2 h2 Hin. apply in_app_or in Hin. destruct Hin as [Hin|Hin]; [|exact (Later cs cs1 s1 h cs2 H Hw E s2 h2 Hin)].
  destruct (in_split _ _ Hin) as [d1 [d2 Ed]]. intros Eid. rewrite Ed, <- app_assoc in E.
  exact (Later cs d1 s2 h2 (d2 ++ (s1, CPost h) :: cs2) H Hw E s1 h (in_elt _ _ _) (eq_sym Eid)).
Qed.
End KF.

(* the posting an event function with summary h makes when called on e *)
Definition posting (h : hkind) (e : Kernel.elem) : option (Z * Q * nat) :=
  match h, e with
  | HLeft _ _ (Some (T, k)), EE n m => Some (n, T, k)
  | _, _ => None
  end.

Lemma handler_quiet tbl off h t e kl w : posting h e = None -> Forall quiet (snd (handler tbl off h t e kl w)).
Proof.
  intros Hp. pose proof (sync_actions_quiet off kl) as S.
  destruct h as [c|c mark post| |], e as [n|n m]; cbn [handler snd]; try (constructor; fail); try apply S.
  - destruct post as [[T k]|]; [discriminate|]. rewrite app_nil_r. apply S.
  - constructor; [exact I | constructor].
  - constructor; [exact I | constructor].
Qed.

Lemma moved_node h n n1 c : moved h (EN n) = Some (n1, c) -> h = HNode c /\ n1 = n.
Proof. destruct h; cbn; intros E; inversion E; split; reflexivity. Qed.

(* no stochastic event moves a node out of a compartment that is the source of a posted arrow *)
Definition fixed_ok (cm : cmodel) : bool :=
  forallb (fun ev => forallb (fun a => negb (zmem (fst a) (map fst (posted_arrows cm)))) (event_arrow cm ev)) (cm_events cm).

Lemma fixed_ok_source cm cev l c : fixed_ok cm = true -> In cev (cm_events cm) -> In (l, c) (event_arrow cm cev) ->
  forall c', ~ In (l, c') (posted_arrows cm).
Proof.
  unfold fixed_ok. intros H Hin Ha c' Hp. rewrite forallb_forall in H. specialize (H cev Hin). rewrite forallb_forall in H.
  specialize (H _ Ha). cbn [fst] in H. apply negb_true_iff, zmem_false in H. apply H. apply in_map_iff. exists (l, c'). split; [reflexivity | exact Hp].
Qed.

Section CFx.
Variable cm : cmodel.
Variables (nodes : list Z) (edges : list (Z * Z)) (init : list (Z * Z)) (maxtime : Q) (monitor : option Q).
Let tb := mk_table cm nodes edges init maxtime monitor.
Let JJ := J cm nodes edges.

Definition pnode (k : nat) (c' : Z) : Prop := nth_error (cm_kinds cm) k = Some (HNode c').

(* FQ (what a queued removal says of its node) and FU (one queued removal per node): see the head *)
Definition FQ (s : st cworld) : Prop :=
  forall x c', In x (queue s) -> pnode (e_prog x) c' ->
  e_rep x = None /\ exists n c, e_elem x = EN n /\ getc (cw_st (world s)) n = Some c /\ In (c, c') (posted_arrows cm).

Definition FU (s : st cworld) : Prop :=
  forall x y cx cy, In x (queue s) -> In y (queue s) -> pnode (e_prog x) cx -> pnode (e_prog y) cy ->
  e_elem x = e_elem y -> x = y.

(* G: the run invariant with the queue clauses *)
Definition G (s : st cworld) : Prop := JJ s /\ QE s /\ wf s /\ FQ s /\ FU s.

Lemma G_J s : G s -> JJ s.
Proof. intros H. apply H. Qed.
Lemma G_QE s : G s -> QE s.
Proof. intros H. apply H. Qed.
Lemma G_wf s : G s -> wf s.
Proof. intros H. apply H. Qed.
Lemma G_FQ s : G s -> FQ s.
Proof. intros H. apply H. Qed.
Lemma G_FU s : G s -> FU s.
Proof. intros H. apply H. Qed.

Lemma prog_quiet k t e kl w : (forall h, nth_error (cm_kinds cm) k = Some h -> posting h e = None) ->
  Forall quiet (snd (prog_of tb k t e kl w)).
Proof.
  intros H. apply prog_of_Forall. intros h Eh. exact (handler_quiet _ 0 h t e kl w (H h Eh)).
Qed.

Lemma run_prog_quiet p k t e (s : st cworld) : (forall h, nth_error (cm_kinds cm) k = Some h -> posting h e = None) ->
  clock (run_prog tb p k t e s) = clock s /\ nextid (run_prog tb p k t e s) = nextid s /\ queue (run_prog tb p k t e s) = queue s.
Proof.
  intros H. unfold run_prog. pose proof (prog_quiet k t e (loci s) (world s) H) as Q.
  destruct (prog_of tb k t e (loci s) (world s)) as [w acts]. cbn [snd] in Q.
  exact (run_quiet p t e acts (set_world w s) Q).
Qed.

Lemma event_queue_quiet (s : st cworld) j cev t e : nth_error (cm_events cm) j = Some cev -> posting (ce_kind cev) e = None ->
  queue (after tb (CEv (mpi monitor, j, mk_ev j cev) t e) s) = queue s.
Proof.
  intros En Hp. rewrite after_ev. refine (proj2 (proj2 (run_prog_quiet _ j t e _ _))).
  intros h Hh. rewrite (event_kind cm j cev En) in Hh. inversion Hh; subst. exact Hp.
Qed.

Lemma posted_queue (s : st cworld) h : QE s -> call_ok tb (CPost h) s ->
  exists extra, queue (after tb (CPost h) s) = extra ++ remove_id (e_id h) (queue s)
    /\ (forall y, In y extra -> e_prog y = e_prog h /\ e_rep y <> None) /\ (e_rep h = None -> extra = []).
Proof.
  intros Hq [Hh _]. destruct (Hq h (head_in _ _ Hh)) as [n En].
  destruct (after_post tb h s) as (extra & Eq & _ & _ & Hex & Hnone). exists extra.
  split; [|split; [intros y Hy; exact (proj2 (Hex y Hy)) | exact Hnone]]. rewrite Eq. f_equal.
  refine (proj2 (proj2 (run_prog_quiet (e_proc h) (e_prog h) (e_time h) (e_elem h) (entered (CPost h) s) _))).
  intros k _. rewrite En. destruct k as [c|c mark [[T kk]|]| |]; reflexivity.
Qed.

(* FQ and FU read the queue only through its posted-removal entries, and the world only through
   the compartments of their nodes *)
Lemma FQU_frame (s s' : st cworld) :
  (forall x c', In x (queue s') -> pnode (e_prog x) c' ->
     In x (queue s) /\ forall n, e_elem x = EN n -> getc (cw_st (world s')) n = getc (cw_st (world s)) n) ->
  FQ s -> FU s -> FQ s' /\ FU s'.
Proof.
  intros H Hfq Hfu. split.
  - intros x c' Hx Hp. destruct (H x c' Hx Hp) as [Hx0 Hg]. destruct (Hfq x c' Hx0 Hp) as (Hr & n & c & En & Hc & Ha).
    split; [exact Hr|]. exists n, c. split; [exact En|]. split; [rewrite (Hg n En); exact Hc | exact Ha].
  - intros x y cx cy Hx Hy Px Py. exact (Hfu x y cx cy (proj1 (H x cx Hx Px)) (proj1 (H y cy Hy Py)) Px Py).
Qed.

(* a removal is posted for a node that has none pending *)
Lemma FQU_post (s s' : st cworld) y n :
  queue s' = y :: queue s -> e_elem y = EN n -> e_rep y = None ->
  (forall x c', In x (queue s) -> pnode (e_prog x) c' -> e_elem x <> EN n) ->
  (forall v, v <> n -> getc (cw_st (world s')) v = getc (cw_st (world s)) v) ->
  (forall c', pnode (e_prog y) c' -> exists c, getc (cw_st (world s')) n = Some c /\ In (c, c') (posted_arrows cm)) ->
  FQ s -> FU s -> FQ s' /\ FU s'.
Proof.
  intros Eq Ey Er Hno Hv Hy Hfq Hfu. unfold FQ, FU. rewrite Eq. split.
  - intros x c' [<-|Hx] Hp.
    + split; [exact Er|]. destruct (Hy c' Hp) as [c [Hc Ha]]. exists n, c. split; [exact Ey|]. split; assumption.
    + destruct (Hfq x c' Hx Hp) as (Hr & m & c & Em & Hc & Ha). split; [exact Hr|]. exists m, c. split; [exact Em|]. split; [|exact Ha].
      rewrite Hv; [exact Hc|]. intros ->. exact (Hno x c' Hx Hp Em).
  - intros x z cx cz [<-|Hx] [<-|Hz] Px Pz Exz; [reflexivity | | | exact (Hfu x z cx cz Hx Hz Px Pz Exz)]; exfalso.
    + apply (Hno z cz Hz Pz). rewrite <- Exz. exact Ey.
    + apply (Hno x cx Hx Px). rewrite Exz. exact Ey.
Qed.

Lemma G_sched s s' : G s -> sched s s' -> G s'.
Proof.
  intros (Hj & Hq & Hw & Hfq & Hfu) Hs.
  split; [eapply J_sched; eassumption|]. split; [eapply QE_sched; eassumption|]. split; [exact (sched_wf Hs Hw)|].
  apply (FQU_frame s); [|exact Hfq | exact Hfu]. intros x c' Hx _.
  split; [apply (sched_queue Hs), Hx | intros n _; rewrite (sched_world Hs); reflexivity].
Qed.

Lemma FQ_node (s : st cworld) x c' n : FQ s -> In x (queue s) -> pnode (e_prog x) c' -> e_elem x = EN n ->
  exists c, getc (cw_st (world s)) n = Some c /\ In (c, c') (posted_arrows cm).
Proof.
  intros Hfq Hx Hp En. destruct (Hfq x c' Hx Hp) as (_ & n' & c & En' & Hg & Hpa). rewrite En in En'. inversion En'; subst n'.
  exists c. split; assumption.
Qed.

(* a stochastic event never moves a node out of a posted-source compartment *)
Theorem stochastic_spares_sources (s : st cworld) x t e : wf_model cm = true -> fixed_ok cm = true -> JJ s ->
  call_ok tb (CEv x t e) s ->
  forall v l, getc (cw_st (world s)) v = Some l -> (exists c', In (l, c') (posted_arrows cm)) ->
  getc (cw_st (world (after tb (CEv x t e) s))) v = Some l.
Proof.
  intros Hwf Hfx Hj Hok v l Hv [c' Hpa].
  destruct (call_moves s x t e Hwf Hj Hok) as (j & cev & _ & _ & Hin & Ew & Hmv).
  fold tb in Ew. rewrite Ew, handler_getc. destruct (moved (ce_kind cev) e) as [[n c]|]; [|exact Hv].
  destruct (Hmv n c eq_refl) as (Hl & -> & Ha). destruct (Z.eqb_spec v n) as [->|_]; [exfalso | exact Hv].
  rewrite Hl in Hv. inversion Hv; subst l. exact (fixed_ok_source cm cev _ c Hfx Hin Ha c' Hpa).
Qed.

(* a posted event function changes the compartment of its own node at most *)
Lemma posted_getc (s : st cworld) h v : QE s -> call_ok tb (CPost h) s ->
  getc (cw_st (world (after tb (CPost h) s))) v = getc (cw_st (world s)) v
  \/ exists c, e_elem h = EN v /\ pnode (e_prog h) c /\ getc (cw_st (world (after tb (CPost h) s))) v = Some c.
Proof.
  intros Hq [Hh _]. unfold tb. rewrite after_world. unfold call_kind. cbn [call_args fst snd].
  destruct (Hq h (head_in _ _ Hh)) as [n En].
  destruct (nth_error (cm_kinds cm) (e_prog h)) as [k|] eqn:Ek; [|left; reflexivity].
  rewrite handler_getc, En. destruct (moved k (EN n)) as [[n1 c]|] eqn:M; [|left; reflexivity]. destruct (moved_node _ _ _ _ M) as [-> ->].
  destruct (getc_raises (cw_st (world s)) n); [left; reflexivity|].
  destruct (Z.eqb_spec v n) as [->|_]; [right | left; reflexivity]. exists c. split; [reflexivity|]. split; [exact Ek | reflexivity].
Qed.

Lemma G_call s c : wf_model cm = true -> fixed_ok cm = true -> G s -> call_ok tb c s -> G (after tb c s).
Proof.
  intros Hwf Hfx (Hj & Hq & Hw & Hfq & Hfu) Hok.
  split; [apply J_call; [apply wf_model_loci, Hwf | exact Hj]|]. split; [apply QE_call; assumption|].
  split; [apply wf_call; assumption|].
  destruct c as [x t e|h].
  - destruct (call_moves s x t e Hwf Hj Hok) as (j & cev & -> & En & Hin & Ew & Hmv). fold tb in Ew.
    destruct (posting (ce_kind cev) e) as [[[n T] k]|] eqn:Ep.
    + (* infection with a posted removal: the infected node has no removal pending *)
      destruct (ce_kind cev) as [c1|c1 mark [[T1 k1]|]| |] eqn:Ek; destruct e as [n1|n1 m1]; cbn in Ep; try discriminate.
      inversion Ep; subst n1 T1 k1.
      destruct (fixed_recovery_posts s t j cev c1 mark T k n m1 Hwf Hj Hok En Ek)
        as (_ & _ & Eq & _). cbv zeta in Eq. fold tb in Eq.
      destruct (Hmv n c1 eq_refl) as (Hl & Hr & Ha). cbv zeta in Hl, Ha.
      refine (FQU_post s _ _ n Eq eq_refl eq_refl _ _ _ Hfq Hfu).
      * intros y cy Hy Hp Ey. destruct (FQ_node s y cy n Hfq Hy Hp Ey) as (l & Hg & Hpa).
        rewrite Hl in Hg. inversion Hg; subst l. exact (fixed_ok_source cm cev _ c1 Hfx Hin Ha cy Hpa).
      * intros v Hv. rewrite Ew, handler_getc. cbn [moved]. rewrite Hr. destruct (Z.eqb_spec v n); [contradiction | reflexivity].
      * intros c' Hp. exists c1. cbn [e_prog] in Hp. split; [rewrite Ew, handler_getc; cbn [moved]; rewrite Hr, Z.eqb_refl; reflexivity|].
        apply in_app_iff. left. apply in_flat_map. exists cev. split; [exact Hin|]. rewrite Ek. unfold post_arrow. rewrite Hp. left. reflexivity.
    + (* no posting: the nodes with a removal pending are in posted-source compartments *)
      apply (FQU_frame s); [|exact Hfq | exact Hfu]. rewrite (event_queue_quiet s j cev t e En Ep). intros y cy Hy Hp.
      split; [exact Hy|]. intros n Ey. destruct (FQ_node s y cy n Hfq Hy Hp Ey) as (l & Hg & Hpa).
      rewrite Hg. exact (stochastic_spares_sources s _ t e Hwf Hfx Hj Hok n l Hg (ex_intro _ cy Hpa)).
  - (* a posted event function: only the removal itself moves a node, and it leaves the queue as it fires *)
    destruct (posted_queue s h Hq Hok) as (extra & Eq & Hex & Hnone). pose proof (head_in _ _ (proj1 Hok)) as Hhin.
    apply (FQU_frame s); [|exact Hfq | exact Hfu]. rewrite Eq. intros y cy Hy Hp.
    apply in_app_or in Hy. destruct Hy as [Hy|Hy].
    { exfalso. destruct (Hex y Hy) as [E1 _]. rewrite E1 in Hp. rewrite (Hnone (proj1 (Hfq h cy Hhin Hp))) in Hy. exact Hy. }
    pose proof (remove_id_incl _ _ _ Hy) as Hy0. split; [exact Hy0|]. intros n Ey.
    destruct (posted_getc s h n Hq Hok) as [E|(c1 & En & Ek & _)]; [exact E | exfalso].
    apply (remove_id_gone (e_id h) (queue s) (proj1 Hw)). apply in_map_iff. exists y. split; [|exact Hy].
    f_equal. apply (Hfu y h cy c1 Hy0 Hhin Hp Ek). rewrite Ey, En. reflexivity.
Qed.

Lemma setup_state_mk rs ls ds :
  setup_state tb rs ls ds =
  let s0 := {| clock := 0%Q; nextid := 0; queue := []; loci := init_loci tb; world := t_world tb; ids := []; out := [];
               rands := rs; lns := ls; draws := ds; stuck := false |} in
  match monitor with
  | Some delta => run_actions 1 0%Q (EN 0) (seed_actions cm nodes edges init)
                    (run_actions 0 0%Q (EN 0) [APostRep 0%Q delta (length (cm_events cm) + length (cm_extra cm))] s0)
  | None => run_actions 0 0%Q (EN 0) (seed_actions cm nodes edges init) s0
  end.
Proof. unfold setup_state, tb, mk_table, seed_actions. cbn [t_procs]. destruct monitor; reflexivity. Qed.

Lemma kobs_kind : nth_error (cm_kinds cm) (length (cm_events cm) + length (cm_extra cm)) = Some HObs.
Proof.
  unfold cm_kinds. rewrite nth_error_app2; rewrite map_length; [|lia].
  rewrite nth_error_app2; [|lia]. replace (length (cm_events cm) + length (cm_extra cm) - length (cm_events cm) - length (cm_extra cm)) with 0 by lia.
  reflexivity.
Qed.

(* the removals of the seeds in compartment c are posted one by one; ns = the seeds still to do *)
Lemma seeds_FQU p T k c : (forall c', pnode k c' -> In (c, c') (posted_arrows cm)) ->
  forall ns (s : st cworld), NoDup ns ->
  (forall n, In n ns -> getc (cw_st (world s)) n = Some c
     /\ forall x c', In x (queue s) -> pnode (e_prog x) c' -> e_elem x <> EN n) ->
  FQ s /\ FU s ->
  let s' := run_actions p 0%Q (EN 0) (map (fun n => APostOn (EN n) T k) ns) s in FQ s' /\ FU s'.
Proof.
  intros Hk. unfold run_actions. induction ns as [|n ns IH]; intros s Hnd Hns HF; cbn [map fold_left]; [exact HF|].
  inversion Hnd as [|? ? Hn Hnd']; subst. destruct (Hns n (or_introl eq_refl)) as [Hc Hno].
  assert (Keep : forall m, In m ns -> getc (cw_st (world s)) m = Some c
            /\ forall x c', In x (queue s) -> pnode (e_prog x) c' -> e_elem x <> EN m)
    by (intros m Hm; apply Hns; right; exact Hm).
  cbn [do_action]. unfold post. destruct (Qltb _ _); [exact (IH (emit OValueError s) Hnd' Keep HF)|].
  set (s1 := emit _ (push_id _ _)). apply (IH s1 Hnd').
  - intros m Hm. destruct (Keep m Hm) as [A B]. split; [exact A|].
    intros x c' [<-|Hx] Hp; [cbn [e_elem]; intros E; inversion E; subst m; exact (Hn Hm) | exact (B x c' Hx Hp)].
  - destruct HF as [Hfq Hfu]. refine (FQU_post s s1 _ n eq_refl eq_refl eq_refl Hno (fun v _ => eq_refl) _ Hfq Hfu).
    intros c' Hp. exists c. split; [exact Hc | exact (Hk c' Hp)].
Qed.

Lemma run_actions_world_eq {W} p t e acts (s : st W) : world (run_actions p t e acts s) = world s.
Proof. apply run_actions_world. Qed.

Lemma G_setup rs ls ds : wf_model cm = true -> graph_okb nodes edges = true -> init_ok cm nodes init = true -> NoDup nodes ->
  G (setup_state tb rs ls ds).
Proof.
  intros Hwf Hg Hi Hnd.
  pose proof (J_setup cm nodes edges init maxtime monitor rs ls ds (wf_model_loci cm Hwf) Hg Hi) as Hj. fold tb in Hj.
  split; [exact Hj|]. split; [apply QE_setup|]. split; [apply wf_setup|].
  assert (Hn0 : st_nodes (Loci.setup (cm_specs cm) nodes edges init) = nodes).
  { pose proof (J_nodes Hj) as H. unfold tb in H. rewrite setup_world in H. exact H. }
  rewrite setup_state_mk. cbv zeta.
  set (s0 := {| clock := 0%Q; nextid := 0; queue := []; loci := init_loci tb; world := t_world tb; ids := []; out := [];
                rands := rs; lns := ls; draws := ds; stuck := false |}).
  (* before the seeds: at most the Monitor's observation is queued *)
  assert (Pre : forall p (s1 : st cworld), world s1 = t_world tb -> (forall x c', In x (queue s1) -> ~ pnode (e_prog x) c') ->
            let s' := run_actions p 0%Q (EN 0) (seed_actions cm nodes edges init) s1 in FQ s' /\ FU s').
  { intros p s1 Ew Hq1.
    assert (F1 : FQ s1 /\ FU s1).
    { split; [intros x c' Hx Hp | intros x y cx cy Hx _ Px]; exfalso; eapply Hq1; eassumption. }
    unfold seed_actions. destruct (cm_seed_post cm) as [[[c T] k]|] eqn:Esp; [|exact F1].
    apply (seeds_FQU p T k c); [| | |exact F1].
    - intros c' Hp. apply in_app_iff. right. rewrite Esp. unfold post_arrow. rewrite Hp. left. reflexivity.
    - unfold nodes_in. rewrite Hn0. apply NoDup_filter, Hnd.
    - intros n Hin. split; [|intros x c' Hx Hp; exfalso; exact (Hq1 x c' Hx Hp)].
      rewrite Ew. unfold tb, mk_table. cbn [t_world cw_st]. apply filter_In in Hin. destruct Hin as [_ E].
      destruct (getc _ n) as [c0|]; [|discriminate]. apply Z.eqb_eq in E. subst c0. reflexivity. }
  destruct monitor as [delta|]; apply Pre; try reflexivity; [|intros x c' []].
  unfold run_actions. cbn [fold_left do_action]. unfold post. destruct (Qltb _ _); cbn [queue emit s0]; [intros x c' []|].
  intros x c' [<-|[]]. cbn [e_prog]. unfold pnode. rewrite kobs_kind. discriminate.
Qed.

Lemma G_at_call rs ls ds cs s s1 c : wf_model cm = true -> fixed_ok cm = true -> graph_okb nodes edges = true ->
  init_ok cm nodes init = true -> NoDup nodes -> Steps tb (setup_state tb rs ls ds) cs s -> In (s1, c) cs -> G s1 /\ call_ok tb c s1.
Proof.
  intros Hwf Hfx Hg Hi Hnd.
  exact (Steps_inv_call tb G G_sched (fun s c Hk Hok => G_call s c Hwf Hfx Hk Hok) _ cs s s1 c (G_setup rs ls ds Hwf Hg Hi Hnd)).
Qed.

(* a posted event function moves its node along a posted arrow of the diagram, and nothing else *)
Theorem posted_diagram (s : st cworld) h : G s -> call_ok tb (CPost h) s ->
  forall v, getc (cw_st (world (after tb (CPost h) s))) v <> getc (cw_st (world s)) v ->
  exists l c, getc (cw_st (world s)) v = Some l /\ getc (cw_st (world (after tb (CPost h) s))) v = Some c
    /\ In (l, c) (posted_arrows cm) /\ In (l, c) (diagram cm) /\ e_elem h = EN v /\ pnode (e_prog h) c.
Proof.
  intros (Hj & Hq & Hw & Hfq & Hfu) Hok v Hne.
  destruct (posted_getc s h v Hq Hok) as [E|(c' & En & Hp & Hc)]; [contradiction|].
  destruct (FQ_node s h c' v Hfq (head_in _ _ (proj1 Hok)) Hp En) as (c0 & Hg & Hpa).
  exists c0, c'. split; [exact Hg|]. split; [exact Hc|]. split; [exact Hpa|]. split; [|split; [exact En | exact Hp]].
  unfold diagram. apply pnodup_In, in_app_iff. right. exact Hpa.
Qed.

Lemma G_along sA cs s : wf_model cm = true -> fixed_ok cm = true -> G sA -> Steps tb sA cs s -> G s.
Proof. intros Hwf Hfx HG H. exact (proj1 (Steps_inv tb G G_sched (fun s c Hk Hok => G_call s c Hwf Hfx Hk Hok) _ cs s HG H)). Qed.

Lemma queue_after_call (s : st cworld) c y : wf_model cm = true -> G s -> call_ok tb c s -> In y (queue s) ->
  In y (queue (after tb c s)) \/ c = CPost y.
Proof.
  intros Hwf HG Hok Hy. pose proof (G_J s HG) as Hj. pose proof (G_QE s HG) as Hq. pose proof (G_wf s HG) as Hw.
  destruct c as [x t e|h].
  - left. destruct (call_moves s x t e Hwf Hj Hok) as (j & cev & -> & En & _).
    destruct (posting (ce_kind cev) e) as [[[n T] k]|] eqn:Ep; [|rewrite (event_queue_quiet s j cev t e En Ep); exact Hy].
    destruct (ce_kind cev) as [c1|c1 mark [[T1 k1]|]| |] eqn:Ek; destruct e as [n1|n1 m1]; cbn in Ep; try discriminate.
    destruct (fixed_recovery_posts s t j cev c1 mark T1 k1 n1 m1 Hwf Hj Hok En Ek)
      as (_ & _ & Eq & _). cbv zeta in Eq. fold tb in Eq. rewrite Eq. right. exact Hy.
  - destruct (posted_queue s h Hq Hok) as (extra & Eq & _). fold tb in Eq. rewrite Eq.
    destruct Hok as [Hh _]. destruct (Nat.eq_dec (e_id y) (e_id h)) as [E|E].
    + right. f_equal. symmetry. exact (NoDup_id_inj (queue s) y h (proj1 Hw) Hy (head_in _ _ Hh) E).
    + left. apply in_app_iff. right. apply remove_id_keeps; assumption.
Qed.

(* a pending live entry stays in the queue until the very call that fires it *)
Theorem entry_fate sA cs s y : wf_model cm = true -> fixed_ok cm = true -> Steps tb sA cs s -> G sA ->
  In y (queue sA) -> e_live y = true -> In y (queue s) \/ exists s1, In (s1, CPost y) cs.
Proof.
  intros Hwf Hfx H HG Hy Hl. induction H as [|cs s s' H IH Hs|cs s c H IH Hok].
  - left. exact Hy.
  - destruct IH as [IH|IH]; [|right; exact IH]. left.
    exact (sched_live Hs (G_wf s (G_along _ _ _ Hwf Hfx HG H)) y IH Hl).
  - destruct IH as [IH|[s1 IH]]; [|right; exists s1; apply in_app_iff; left; exact IH].
    destruct (queue_after_call s c y Hwf (G_along _ _ _ Hwf Hfx HG H) Hok IH) as [A| ->]; [left; exact A|].
    right. exists s. apply in_app_iff. right. left. reflexivity.
Qed.

End CFx.

Arguments G_J {cm nodes edges s}.
Arguments G_QE {cm nodes edges s}.
Arguments G_wf {cm nodes edges s}.
Arguments G_FQ {cm nodes edges s}.
Arguments G_FU {cm nodes edges s}.
Arguments G_at_call {cm nodes edges init maxtime monitor}.
Arguments posted_diagram {cm nodes edges init maxtime monitor}.
Arguments stochastic_spares_sources {cm nodes edges init maxtime monitor}.
Arguments entry_fate {cm nodes edges init maxtime monitor}.
Arguments G_along {cm nodes edges init maxtime monitor}.
Arguments G_call {cm nodes edges init maxtime monitor}.
