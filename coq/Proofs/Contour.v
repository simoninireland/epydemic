(* The exact algebra of the contour extraction: aliasing identity, the no-alias case, and what
   getCoefficient / evaluate return for a polynomial series.  MathComp style.
   The theorems are stated through [..._stmt] definitions so that the (standard-library style)
   file Properties/C17.v can name them without MathComp notations. *)
From mathcomp Require Import ssreflect ssrfun ssrbool eqtype ssrnat div seq fintype bigop binomial ssralg poly.
From EpyV Require Import Model.Contour.
Set Implicit Arguments.
Unset Strict Implicit.
Unset Printing Implicit Defensive.
Import GRing.Theory.
Local Open Scope ring_scope.

Definition contour_exact_stmt : Prop :=
  forall (F : fieldType) (m : nat) (z r : F) (a : nat -> F) (d n : nat),
  m.-primitive_root z -> m%:R != 0 :> F -> r != 0 ->
  contour_mean m z r (peval a d) n = \sum_(j < d | j == n %[mod m]) a j * r ^+ j / r ^+ n.

Definition contour_no_alias_stmt : Prop :=
  forall (F : fieldType) (m : nat) (z r : F) (a : nat -> F) (d n : nat),
  m.-primitive_root z -> m%:R != 0 :> F -> r != 0 -> (n < m)%N -> (d <= m + n)%N ->
  contour_mean m z r (peval a d) n = if (n < d)%N then a n else 0.

Definition contour_coeff_deriv_stmt : Prop :=
  forall (F : fieldType) (m : nat) (z : F) (p : {poly F}) (order i : nat),
  m.-primitive_root z -> m%:R != 0 :> F -> i`!%:R != 0 :> F -> (i + order < m)%N -> (size p <= m + (i + order))%N ->
  contour_coeff m z (horner p) order i = (p^`(order))`_i.

Definition contour_value_deriv_stmt : Prop :=
  forall (F : fieldType) (m : nat) (z : F) (p : {poly F}) (order : nat) (x0 : F),
  m.-primitive_root z -> m%:R != 0 :> F -> (order < m)%N -> (size p <= m + order)%N ->
  contour_value m z (horner p) order x0 = (p^`(order)).[x0].

Lemma sum_unity_root (F : fieldType) m (x : F) : x ^+ m = 1 -> \sum_(k < m) x ^+ k = if x == 1 then m%:R else 0.
Proof.
move=> xm1; case: eqP => [->|/eqP x_neq1].
  by rewrite (eq_bigr (fun=> 1)) ?sumr_const ?card_ord // => k _; rewrite expr1n.
have := subrX1 x m; rewrite xm1 subrr => /esym/eqP; rewrite mulf_eq0 subr_eq0 (negbTE x_neq1) /=.
by move/eqP.
Qed.

Lemma prim_root_neq0 (F : fieldType) m (z : F) : m.-primitive_root z -> z != 0.
Proof.
move=> prim_z; apply/eqP => z0; have := prim_expr_order prim_z.
rewrite z0 expr0n; case: m prim_z => [|m] prim_z /=; first by have := prim_order_gt0 prim_z.
by move/eqP; rewrite eq_sym oner_eq0.
Qed.

(* the mean over the m-th roots of unity picks out the coefficients in the residue class of n *)
Theorem contour_exact : contour_exact_stmt.
Proof.
move=> F m z r a d n prim_z m_neq0 r_neq0; rewrite /contour_mean /peval.
have z_neq0 := prim_root_neq0 prim_z.
have zn_neq0 : z ^+ n != 0 by rewrite expf_neq0.
transitivity (m%:R^-1 * \sum_(j < d) a j * r ^+ j / r ^+ n * \sum_(k < m) (z ^+ j / z ^+ n) ^+ k).
  congr (_ * _); rewrite (eq_bigr (fun k : 'I_m => \sum_(j < d) a j * r ^+ j / r ^+ n * (z ^+ j / z ^+ n) ^+ k)).
    by rewrite exchange_big /=; apply: eq_bigr => j _; rewrite big_distrr.
  move=> k _; rewrite big_distrl /=; apply: eq_bigr => j _.
  rewrite !exprMn !exprVn -!exprM invfM [(k * j)%N]mulnC [(k * n)%N]mulnC.
  by rewrite -!mulrA; congr (_ * (_ * _)); rewrite mulrCA.
rewrite (eq_bigr (fun j : 'I_d => if j == n %[mod m] then a j * r ^+ j / r ^+ n * m%:R else 0)); last first.
  move=> j _; rewrite sum_unity_root; last first.
    by rewrite expr_div_n -!exprM ![(_ * m)%N]mulnC !exprM (prim_expr_order prim_z) !expr1n divr1.
  rewrite -(inj_eq (mulIf zn_neq0)) divfK // mul1r (eq_prim_root_expr prim_z).
  by case: ifP => _; rewrite ?mulr0.
rewrite -big_mkcond /= big_distrr /=; apply: eq_bigr => j _.
by rewrite mulrC mulfK.
Qed.

(* with more points than n and fewer than m + n coefficients, only j = n is in the class *)
Lemma alias_class m d n (j : 'I_d) : (n < m)%N -> (d <= m + n)%N -> (j == n %[mod m]) = (j == n :> nat).
Proof.
move=> lt_nm le_d; apply/eqP/eqP => [|->//].
rewrite (modn_small lt_nm) => jn.
have lt_j : (j < m + n)%N by exact: leq_trans (ltn_ord j) le_d.
rewrite (divn_eq j m) jn in lt_j *.
by case: (j %/ m)%N lt_j => [|q]; rewrite ?mul0n // mulSn -addnA ltn_add2l ltnNge leq_addl.
Qed.

Theorem contour_no_alias : contour_no_alias_stmt.
Proof.
move=> F m z r a d n prim_z m_neq0 r_neq0 lt_nm le_d; rewrite contour_exact //.
rewrite (eq_bigl (fun j : 'I_d => j == n :> nat)); last by move=> j; rewrite alias_class.
case: ltnP => [lt_nd|le_dn].
  rewrite (big_pred1 (Ordinal lt_nd)) /=; first by rewrite mulfK // expf_neq0.
  by move=> j; rewrite /= -val_eqE.
by rewrite big_pred0 // => j; apply/negbTE; rewrite neq_ltn (leq_trans (ltn_ord j) le_dn).
Qed.

(* getCoefficient(i) of the order-th derivative object = coefficient i of the order-th derivative *)
Theorem contour_coeff_deriv : contour_coeff_deriv_stmt.
Proof.
move=> F m z p order i prim_z m_neq0 i_neq0 lt_nm le_p; rewrite /contour_coeff.
have -> : contour_mean m z 1 (horner p) (i + order) = contour_mean m z 1 (peval (fun j => p`_j) (size p)) (i + order).
  by rewrite /contour_mean; congr (_ * _); apply: eq_bigr => k _; rewrite horner_coef.
rewrite contour_no_alias ?oner_neq0 // coef_derivn [(order + i)%N]addnC.
case: ltnP => [_|le_pn]; last by rewrite nth_default // mulr0 mul0r mul0rn.
rewrite -(ffact_fact (leq_addl i order)) addnK natrM -mulr_natr mulrAC mulfK //.
by rewrite mul1r mulrC mulr_natr.
Qed.

(* evaluate(x0) of the order-th derivative object = value of the order-th derivative at x0 *)
Theorem contour_value_deriv : contour_value_deriv_stmt.
Proof.
move=> F m z p order x0 prim_z m_neq0 lt_nm le_p; rewrite /contour_value.
have -> : contour_mean m z 1 (fun w => p.[x0 + w]) order
        = contour_mean m z 1 (peval (fun j => p^`N(j).[x0]) (size p)) order.
  rewrite /contour_mean; congr (_ * _); apply: eq_bigr => k _.
  by rewrite nderiv_taylor //; apply: mulrC.
rewrite contour_no_alias ?oner_neq0 // nderivn_def hornerMn -mulr_natl.
case: ltnP => [_|le_pn]; first by rewrite mulr1 mulr_natl.
by rewrite nderivn_poly0 // horner0 mulr0 mul0rn.
Qed.
