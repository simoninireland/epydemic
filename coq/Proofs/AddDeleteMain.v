(* C19, part 4: the bookkeeping invariant through whole runs of Model/AddDelete.v's tables under
   both dynamics.  A run is a sequence of calls of event functions (Proofs/CompartRun.v); none of
   them posts anything, so every call is made on a member of the registered locus, and each of
   add, delete and the disease's event functions re-establishes the invariant. *)
From Coq Require Import List ZArith QArith Bool Arith Lia.
From EpyV Require Import Lib.Prelude Lib.Lists Model.Kernel Model.Loci Model.Compart Model.AddDelete
                         Proofs.KernelRelabel Proofs.KernelMember Proofs.LociBase Proofs.LociInv
                         Proofs.CompartRun Proofs.CompartSort Proofs.CompartInv Proofs.CompartDiagram Proofs.CompartFixed
                         Proofs.AddDelete Proofs.AddDeleteSteps Proofs.AddDeleteInv.
Import ListNotations.
Close Scope Q_scope.
Close Scope Z_scope.

(* Up to Section Inst nothing depends on the addition-deletion model: lists numbered by seq, tables
   whose event functions post nothing, the kernel's list of loci. *)
Lemma in_combine_seq : forall A (l : list A) k m a, In (m, a) (combine (seq k (length l)) l) ->
  exists j, m = k + j /\ nth_error l j = Some a.
Proof.
  intros A l. induction l as [|x l IH]; intros k m a H; cbn in H; [destruct H|].
  destruct H as [[= <- <-]|H]; [exists 0; split; [lia|reflexivity]|].
  destruct (IH (S k) m a H) as [j [-> Hj]]. exists (S j). split; [lia|exact Hj].
Qed.

Lemma nth_error_combine_seq : forall A (l : list A) k j a, nth_error l j = Some a ->
  nth_error (combine (seq k (length l)) l) j = Some (k + j, a).
Proof.
  intros A l. induction l as [|x l IH]; intros k [|j] a H; cbn in *; try discriminate.
  - inversion H. rewrite Nat.add_0_r. reflexivity.
  - rewrite (IH (S k) j a H). f_equal. f_equal. lia.
Qed.

Section Quiet.
Context {W : Type}.
Variable tb : table W.
Variable Good : list (list Kernel.elem) -> W -> Prop.   (* the invariant to be carried through a run *)

(* the invariant holds of loci and world, and nothing is posted *)
Definition quiet_state (s : st W) : Prop := queue s = [] /\ Good (loci s) (world s).

(* every registered event function, run on an element of its locus, is quiet and re-establishes Good *)
Definition prog_ok : Prop :=
  forall x t e lc w, In x (all_events tb) -> Good lc w -> In e (nth (ev_locus (snd x)) lc []) ->
    let r := prog_of tb (ev_prog (snd x)) t e lc w in
    Forall quiet (snd r) /\ Good (fold_left (act_loci e) (snd r) lc) (fst r).

Hypothesis Hprog : prog_ok.
Hypothesis Hsetup : forall p, In p (t_procs tb) -> p_setup p = [].
Hypothesis Hinit : Good (init_loci tb) (t_world tb).

(* with an empty queue a call can only be that of a stochastic event function *)
Lemma quiet_call : forall s c, quiet_state s -> call_ok tb c s -> quiet_state (after tb c s).
Proof.
  intros s c [Q HJ] Hc. destruct c as [[[pi j] ev] t e|h]; [|destruct Hc as [Hh _]; rewrite Q in Hh; discriminate].
  destruct Hc as [Hx [He _]]. apply mem_In in He.
  destruct (Hprog _ t e _ _ Hx HJ He) as [P1 P2]. cbn [snd] in P1, P2.
  pose proof (after_lw tb (CEv (pi, j, ev) t e) s) as L. cbn [call_args snd] in L. destruct L as [L Wd].
  split; [|rewrite L, Wd; exact P2].
  unfold after, fire_event, run_prog. cbn [queue emit loci world].
  destruct (prog_of tb (ev_prog ev) t e (loci s) (world s)) as [w acts]. rewrite (proj2 (proj2 (run_quiet _ t e acts _ P1))). exact Q.
Qed.

Lemma quiet_setup : forall rs ls ds, quiet_state (setup_state tb rs ls ds).
Proof.
  intros rs ls ds. unfold setup_state.
  set (s0 := {| clock := 0%Q; nextid := 0; queue := []; loci := init_loci tb; world := t_world tb; ids := []; out := [];
                rands := rs; lns := ls; draws := ds; stuck := false |}).
  assert (G : forall ps k s, (forall p, In p ps -> p_setup p = []) ->
              fst (fold_left (fun (acc : st W * nat) p => (run_actions (snd acc) 0%Q (EN 0) (p_setup p) (fst acc), S (snd acc))) ps (s, k)) = s).
  { induction ps as [|p ps IHp]; intros k s Hp; cbn [fold_left fst snd]; [reflexivity|].
    rewrite (Hp p (or_introl eq_refl)). cbn [run_actions fold_left]. apply IHp. intros q Hq. apply Hp. right. exact Hq. }
  rewrite (G (t_procs tb) 0 s0 Hsetup). split; [reflexivity | exact Hinit].
Qed.

Theorem quiet_runs : forall pf fuel rs ls ds,
  quiet_state (r_final (stoch_run tb pf fuel rs ls ds)) /\ quiet_state (r_final (sync_run tb pf fuel rs ds)).
Proof.
  assert (G : forall s0 cs s, quiet_state s0 -> Steps tb s0 cs s -> quiet_state s).
  { intros s0 cs s H0 H. refine (proj1 (Steps_inv tb quiet_state _ quiet_call s0 cs s H0 H)).
    intros a b [Q HJ] (L & Wd & _ & Qi & _). rewrite Q in Qi. split; [apply incl_l_nil, Qi | rewrite L, Wd; exact HJ]. }
  intros pf fuel rs ls ds. destruct (stoch_run_steps tb pf fuel rs ls ds) as [cs H]. destruct (sync_run_steps tb pf fuel rs ds) as [cs' H'].
  split; [exact (G _ _ _ (quiet_setup rs ls ds) H) | exact (G _ _ _ (quiet_setup rs [] ds) H')].
Qed.

End Quiet.

Lemma kupd_same : forall A i (f : A -> A) l d, i < length l -> nth i (Kernel.upd_nth i f l) d = f (nth i l d).
Proof. intros A i f l d. revert i. induction l as [|x l IH]; intros [|i] H; cbn in *; try lia; auto. apply IH. lia. Qed.

Lemma kupd_other : forall A i j (f : A -> A) l d, i <> j -> nth j (Kernel.upd_nth i f l) d = nth j l d.
Proof.
  intros A i j f l d. revert i j. induction l as [|x l IH]; intros [|i] [|j] H; cbn; auto; try congruence.
Qed.

Lemma acts_loci_length : forall e acts lc, length (fold_left (act_loci e) acts lc) = length lc.
Proof.
  intros e acts. induction acts as [|a acts IH]; intros lc; cbn [fold_left]; [reflexivity|].
  rewrite IH. destruct a; cbn [act_loci]; try reflexivity; apply KernelBase.upd_nth_length.
Qed.

(* the actions that bring loci i, i+1, ... up to date leave every other locus alone *)
Lemma sync_from_other : forall e li new i old lc, li < i \/ i + length new <= li ->
  nth li (fold_left (act_loci e) (sync_from i old new) lc) [] = nth li lc [].
Proof.
  intros e li. induction new as [|n new IH]; intros i old lc H; cbn [sync_from]; [reflexivity|]. cbn [length] in H.
  rewrite !fold_left_app, IH, fold_adds, fold_discards, !kupd_other by lia. reflexivity.
Qed.


(* the kernel's ordered locus of a set of nodes, built by the kernel's own insertions *)
Lemma fold_ins_EN : forall l acc, fold_left (fun a x => ins x a) (map EN l) (map EN acc) = map EN (fold_left (fun a x => zins x a) l acc).
Proof. induction l as [|x l IH]; intros acc; cbn [map fold_left]; [reflexivity|]. rewrite ins_map_EN. apply IH. Qed.

Lemma zsort_zdiscard_EN : forall x l, map EN (zsort (zdiscard x l)) = del (EN x) (map EN (zsort l)).
Proof.
  intros x l. unfold zsort. rewrite <- !(fold_ins_EN _ []).
  assert (S : forall l0, ssorted (fold_left (fun a y => ins y a) (map EN l0) (map EN []))) by (intro; apply fold_ins_ssorted; exact I).
  apply ssorted_ext; [apply S | apply del_ssorted, S |].
  intro y. rewrite (del_In _ _ _ (S l)), !fold_ins_In, !in_map_iff. split.
  - intros [[v [<- Hv]]|[? [_ []]]]. apply zdiscard_In in Hv. split; [left; exists v; tauto | intros [= E]; tauto].
  - intros [[[v [<- Hv]]|[? [_ []]]] Hne]. left. exists v. split; [reflexivity|]. apply zdiscard_In. split; [exact Hv|].
    intro E. apply Hne. rewrite E. reflexivity.
Qed.

Section Inst.
Variable cf : adcfg.
Variable n0 : nat.                 (* the order of the initial network *)
Let tbl := ac_tbl cf.
Let li := ac_li cf.
Let off := ac_off cf.

(* the all-nodes locus is not one of the disease's loci; a disease is there iff it has loci to speak of;
   where the disease hears of edges its table is one C01 covers; in the repaired sequence recipe
   (Process.removeNode on a node just put into REMOVED) no locus of the disease mentions REMOVED *)
Record cfg_ok : Prop := {
  co_apart : li < off \/ off + length tbl <= li;
  co_alone : with_disease cf = false -> tbl = [];
  co_c01 : tracked_edges cf = true -> wf_loci tbl = true /\ single_orientation tbl = true;
  co_seq : ac_combo cf = Sequence true -> forallb (fun sp => negb (mentions sp (ac_R cf))) tbl = true }.
Hypothesis Hcfg : cfg_ok.

Definition snap_ok (sn : snap) : Prop :=
  NoDup (sn_all sn) /\ (forall v, In v (sn_all sn) <-> In v (st_nodes (sn_st sn)))
  /\ (with_disease cf = true -> has_comp (sn_st sn))
  /\ (tracked_edges cf = true -> Inv tbl (sn_st sn))
  /\ match sn_kind sn with
     | KAdd i es => In i (st_nodes (sn_st sn)) /\ neighbours (sn_st sn) i = es /\ length es = ac_deg cf /\ NoDup es /\ ~ In i es
     | KDelete n => ~ In n (st_nodes (sn_st sn)) /\ untouched (st_edges (sn_st sn)) n
     | KDisease _ _ => True
     end.

(* what holds of the world after set-up and after every event *)
Record world_inv (w : adworld) : Prop := {
  wi_base : Base cf w;
  wi_loci : length (st_loci (aw_st w)) = length tbl;
  wi_raised : aw_raised w = false;
  wi_inv : tracked_edges cf = true -> Inv tbl (aw_st w);
  wi_order : aw_stuck w = false -> length (st_nodes (aw_st w)) + count_deletes (aw_log w) = n0 + count_adds (aw_log w);
  wi_log : Forall snap_ok (aw_log w) }.

(* ... and of the kernel's loci with it: the kernel's copy of the all-nodes locus is the ascending enumeration *)
Record run_inv (lc : list (list Kernel.elem)) (w : adworld) : Prop := {
  ri_len : li < length lc;
  ri_locus : nth li lc [] = map EN (zsort (aw_all w));
  ri_world : world_inv w }.

(* an event that logs a snapshot of kind k and changes the order as its kind says *)
Lemma world_inv_logged : forall w w' k, world_inv w -> Base cf w' ->
  length (st_loci (aw_st w')) = length (st_loci (aw_st w)) -> (tracked_edges cf = true -> Inv tbl (aw_st w')) ->
  aw_raised w' = aw_raised w -> aw_stuck w' = aw_stuck w ->
  aw_log w' = {| sn_kind := k; sn_all := aw_all w'; sn_st := aw_st w' |} :: aw_log w ->
  match k with
  | KAdd i es => length (st_nodes (aw_st w')) = S (length (st_nodes (aw_st w)))
                 /\ In i (st_nodes (aw_st w')) /\ neighbours (aw_st w') i = es /\ length es = ac_deg cf /\ NoDup es /\ ~ In i es
  | KDelete n => S (length (st_nodes (aw_st w'))) = length (st_nodes (aw_st w))
                 /\ ~ In n (st_nodes (aw_st w')) /\ untouched (st_edges (aw_st w')) n
  | KDisease _ _ => st_nodes (aw_st w') = st_nodes (aw_st w)
  end -> world_inv w'.
Proof.
  intros w w' k [_ HL HR _ HO HS] HB' EL HI' Er Es Elog Hk.
  constructor; [exact HB' | congruence | congruence | exact HI' | | ]; rewrite Elog.
  - intro Hf. rewrite Es in Hf. specialize (HO Hf). unfold count_adds, count_deletes in *. cbn [filter sn_kind].
    destruct k as [i es|n|j x]; cbn [length]; [destruct Hk as [E _] | destruct Hk as [E _] | rewrite Hk]; lia.
  - constructor; [|exact HS]. destruct HB' as [_ [HA' [HAN' HC']]].
    split; [exact HA'|]. split; [exact HAN'|]. split; [exact HC'|]. split; [exact HI'|]. cbn [sn_kind sn_st].
    destruct k as [i es|n|j x]; [exact (proj2 Hk) | exact (proj2 Hk) | exact I].
Qed.

(* an event function of the population process: its own update a of the all-nodes locus, then the
   actions that bring the disease's loci up to date *)
Lemma pop_event_ok : forall e lc a w', li < length lc -> world_inv w' -> quiet a ->
  nth li (act_loci e lc a) [] = map EN (zsort (aw_all w')) ->
  let acts := a :: sync_actions off lc (st_loci (aw_st w')) in
  Forall quiet acts /\ run_inv (fold_left (act_loci e) acts lc) w'.
Proof.
  intros e lc a w' Hli HR' Qa E. split; [constructor; [exact Qa | apply sync_actions_quiet]|].
  constructor; [rewrite acts_loci_length; exact Hli | | exact HR'].
  cbn [fold_left]. unfold sync_actions. rewrite sync_from_other by (rewrite (wi_loci w' HR'); exact (co_apart Hcfg)). exact E.
Qed.

Lemma add_world_inv : forall w, world_inv w -> world_inv (add_step cf w).
Proof.
  intros w HR. pose proof HR as [HB HL Hra HI _ HS].
  pose proof (add_step_base cf w HB) as HB'. destruct (add_state_net cf w HB) as [_ [En [_ [_ EL]]]].
  cbn [grown st_nodes st_loci] in En, EL. rewrite <- add_step_st in En, EL.
  assert (HI' : tracked_edges cf = true -> Inv tbl (aw_st (add_step cf w))).
  { intro T. destruct (co_c01 Hcfg T) as [Hwf Hso]. exact (add_step_inv cf Hwf Hso T w HB (HI T)). }
  pose proof (add_links_spec cf w HB) as [Sn [Si [_ Sl]]]. pose proof (add_neighbours cf w HB) as Nb.
  rewrite <- add_step_st in Nb. unfold add_links in *.
  rewrite (add_step_eq cf w HB) in *. destruct (add_picks cf w) as [[es ds]|].
  - (* the loop returned es: a snapshot is logged, flags as before *)
    apply (world_inv_logged w _ (KAdd (new_node_name (aw_st w)) es) HR HB' EL HI');
      [cbn [set_world_st aw_raised]; apply orb_false_r | cbn [set_world_st aw_stuck]; apply orb_false_r | reflexivity |].
    rewrite En, app_length, Nat.add_comm. split; [reflexivity|].
    split; [apply in_app_iff; right; left; reflexivity|]. split; [exact Nb|]. split; [apply (Sl ds); reflexivity|].
    split; [exact Sn | exact Si].
  - (* the ranks ran out: stuck from now on, nothing logged *)
    constructor; [exact HB' | congruence | cbn [set_world_st aw_raised]; rewrite Hra; reflexivity | exact HI' | | exact HS].
    cbn [set_world_st aw_stuck]. rewrite orb_true_r. discriminate.
Qed.

Lemma add_ok : forall t e lc w, run_inv lc w ->
  let r := ad_add cf t e lc w in Forall quiet (snd r) /\ run_inv (fold_left (act_loci e) (snd r) lc) (fst r).
Proof.
  intros t e lc w [Hli Hm HR]. unfold ad_add. cbn [fst snd].
  apply (pop_event_ok e lc (ALAdd li (EN (new_node_name (aw_st w)))) (add_step cf w) Hli (add_world_inv w HR) I).
  cbn [act_loci]. rewrite kupd_same by exact Hli.
  rewrite Hm, ins_map_EN, <- zsort_zadd, (add_step_all cf w (wi_base w HR)), zadd_fresh; [reflexivity|].
  intro H. apply (wi_base w HR) in H. exact (new_node_name_fresh _ H).
Qed.

Lemma delete_world_inv : forall w n, world_inv w -> In n (st_nodes (aw_st w)) -> world_inv (delete_step cf w n).
Proof.
  intros w n HR Hn. pose proof HR as [HB HL _ HI _ _].
  pose proof (delete_step_base cf w n HB Hn) as HB'.
  destruct (delete_state_net cf w n HB Hn) as [_ [_ [Wn EL]]]. destruct (without_node_In _ _ _ Wn) as [Hv He].
  assert (HI' : tracked_edges cf = true -> Inv tbl (aw_st (delete_step cf w n))).
  { intro T. destruct (co_c01 Hcfg T) as [Hwf Hso]. exact (delete_step_inv cf Hwf Hso T (co_seq Hcfg) w n HB Hn (HI T)). }
  rewrite (delete_step_eq cf w n HB Hn) in *.
  apply (world_inv_logged w _ (KDelete n) HR HB' EL HI');
    [cbn [set_world_st aw_raised]; apply orb_false_r | cbn [set_world_st aw_stuck]; apply orb_false_r | reflexivity |].
  rewrite set_world_st_st. split; [apply (without_node_length _ _ _ Wn); [apply HB | exact Hn]|].
  split; [intro H; apply Hv in H; tauto | intros x Hx; apply He in Hx; tauto].
Qed.

Lemma delete_ok : forall t e lc w, run_inv lc w -> In e (nth li lc []) ->
  let r := ad_delete cf t e lc w in Forall quiet (snd r) /\ run_inv (fold_left (act_loci e) (snd r) lc) (fst r).
Proof.
  intros t e lc w [Hli Hm HR] He. rewrite Hm in He.
  apply in_map_iff in He. destruct He as [n [<- Hn]]. apply zsort_In, (wi_base w HR) in Hn.
  unfold ad_delete. cbn [fst snd].
  apply (pop_event_ok (EN n) lc (ALDiscard li (EN n)) (delete_step cf w n) Hli (delete_world_inv w n HR Hn) I).
  cbn [act_loci]. rewrite kupd_same by exact Hli.
  rewrite Hm, (delete_step_eq cf w n (wi_base w HR) Hn), <- zsort_zdiscard_EN. reflexivity.
Qed.

Definition quiet_hk (h : hkind) : bool := match h with HLeft _ _ (Some _) => false | _ => true end.

Lemma quiet_hk_posting : forall h e, quiet_hk h = true -> posting h e = None.
Proof. intros h e. destruct h as [c|c mark [[T k]|]| |]; [reflexivity|discriminate|reflexivity..]. Qed.

Lemma disease_ok : forall k h t e lc w, quiet_hk h = true -> run_inv lc w ->
  let r := ad_disease cf k h t e lc w in Forall quiet (snd r) /\ run_inv (fold_left (act_loci e) (snd r) lc) (fst r).
Proof.
  intros k h t e lc w Hq [Hli Hm HR]. pose proof HR as [HB HL _ HI _ _]. unfold ad_disease. fold tbl off.
  pose proof (handler_quiet tbl off h t e lc (aw_c w) (quiet_hk_posting h e Hq)) as Q. pose proof (handler_st tbl off h t e lc (aw_c w)) as Hs.
  pose proof (handler_loci tbl off h t e lc (aw_c w)) as Hl. change (cw_st (aw_c w)) with (aw_st w) in Hs, Hl.
  destruct (handler tbl off h t e lc (aw_c w)) as [c' acts]. cbn [fst snd] in *. split; [exact Q|].
  (* the network after the call: untouched, or one changeCompartment *)
  assert (F : keeps (aw_st w) (cw_st c') /\ (tracked_edges cf = true -> Inv tbl (cw_st c'))
              /\ nth li (fold_left (act_loci e) acts lc) [] = nth li lc []).
  { rewrite Hl, Hs. destruct (moved h e) as [[n c]|]; [|split; [apply keeps_refl | split; [exact HI | reflexivity]]].
    pose proof (change_compartment_keeps tbl (aw_st w) n c) as K. split; [exact K|].
    split; [intro T; destruct (co_c01 Hcfg T) as [Hwf Hso]; exact (change_compartment_inv cf Hwf Hso _ n c (HI T))|].
    unfold sync_actions. apply sync_from_other. rewrite (proj1 (proj2 (proj2 K))), HL. exact (co_apart Hcfg). }
  destruct F as [K [HI' E]].
  constructor; [rewrite acts_loci_length; exact Hli | rewrite E; exact Hm |].
  apply (world_inv_logged w _ (KDisease k e) HR); try reflexivity; [| apply K | exact HI' | apply K].
  apply (Base_keeps cf w); [reflexivity | exact K | exact HB].
Qed.

Definition event_ok (a : adevent) : Prop :=
  match ae_kind a with
  | PAdd => True
  | PDelete => ae_locus a = li             (* delete is registered on the all-nodes locus *)
  | PDisease h => quiet_hk h = true        (* the disease's event functions post nothing (SIR, SIS, ...) *)
  end.

Lemma mk_procs_events : forall procs pi k x, In x (all_events_from pi (mk_procs k procs)) ->
  exists j a, nth_error (concat procs) j = Some a /\ ev_prog (snd x) = k + j /\ ev_locus (snd x) = ae_locus a.
Proof.
  induction procs as [|evs procs IH]; intros pi k [[pi' j'] ev] H; cbn [mk_procs all_events_from] in H; [destruct H|].
  apply in_app_or in H. destruct H as [H|H].
  - apply index_events_in in H. destruct H as (j0 & e & [= _ _ ->] & H). apply nth_error_In in H.
    cbn [p_events] in H. apply in_map_iff in H. destruct H as [[m a] [E Hin]].
    destruct (in_combine_seq _ _ _ _ _ Hin) as [j [-> Hj]]. exists j, a. cbn [concat]. split.
    + rewrite nth_error_app1; [exact Hj|]. apply nth_error_Some. congruence.
    + rewrite <- E. split; reflexivity.
  - destruct (IH (S pi) (k + length evs) _ H) as [j [a [Hj [Hp Hl]]]]. exists (length evs + j), a. cbn [concat]. split.
    + rewrite nth_error_app2 by lia. replace (length evs + j - length evs) with j by lia. exact Hj.
    + split; [lia | exact Hl].
Qed.

Lemma mk_procs_setup : forall procs k p, In p (mk_procs k procs) -> p_setup p = [].
Proof.
  induction procs as [|evs ps IH]; intros k p H; cbn [mk_procs] in H; [destruct H|].
  destruct H as [<-|H]; [reflexivity | apply (IH _ _ H)].
Qed.

Section Table.
Variable procs : list (list adevent).
Variable nloci : nat.
Variables (nodes : list Z) (edges : list (Z * Z)) (init : list (Z * Z)) (maxtime : Q) (adraws : list nat).
Let tb := ad_table cf procs nloci nodes edges init maxtime adraws.

Hypothesis Hev : forall a, In a (concat procs) -> event_ok a.

Lemma table_prog_ok : prog_ok tb run_inv.
Proof.
  intros x t e lc w Hx HJ He.
  destruct (mk_procs_events procs 0 0 x Hx) as [j [a [Hj [Hp Hl]]]]. cbn [Nat.add] in Hp.
  assert (Ep : prog_of tb (ev_prog (snd x)) = Model.AddDelete.prog_of_kind cf j (ae_kind a)).
  { unfold prog_of, tb, ad_table. cbn [t_progs]. rewrite Hp.
    apply nth_error_nth. rewrite (map_nth_error _ _ _ (nth_error_combine_seq _ _ 0 j a Hj)). reflexivity. }
  rewrite Ep. pose proof (Hev a (nth_error_In _ _ Hj)) as Hok. unfold event_ok in Hok.
  destruct (ae_kind a) as [| |h]; cbn [Model.AddDelete.prog_of_kind].
  - apply add_ok, HJ.
  - apply delete_ok; [exact HJ|]. rewrite <- Hok, <- Hl. exact He.
  - apply disease_ok; assumption.
Qed.

Record init_ok : Prop := {
  io_n0 : length nodes = n0;
  io_nodup : NoDup nodes;
  io_graph : graph_okb nodes edges = true;
  io_li : li < nloci;
  io_init : with_disease cf = true ->
            forallb (fun nc => zmem (fst nc) nodes) init = true /\ (forall v, In v nodes -> exists c, In (v, c) init) }.
Hypothesis Hinit : init_ok.

(* initialCompartments: a run of changeCompartment calls *)
Lemma init_fold_keeps : forall ini s, let s' := fold_left (step tbl) (init_ops ini) s in
  keeps s s'
  /\ (forall v c, In (v, c) ini -> getc_raises s v = false -> exists c0, st_attr s' v = Some (Some c0)).
Proof.
  induction ini as [|[n c0] ini IH]; intros s; cbn [init_ops map fold_left fst snd]; [split; [apply keeps_refl | intros v c []]|].
  change (step tbl s (ChangeC n c0)) with (fst (change_compartment tbl s n c0)).
  pose proof (change_compartment_keeps tbl s n c0) as K.
  destruct (IH (fst (change_compartment tbl s n c0))) as [K' P']. cbv zeta in *. fold (init_ops ini) in *.
  split; [exact (keeps_trans _ _ _ K K')|]. intros v c [[= -> ->]|H] Hr; [|apply (P' v c H), attr_present_step_change, Hr].
  apply K'. destruct (change_compartment_net tbl s v c) as [[_ [_ [X _]]] _]. rewrite Hr in X. rewrite X. cbn [with_attr st_attr]. rewrite Z.eqb_refl. eauto.
Qed.

Lemma init_state_ok :
  let s0 := init_state cf nodes edges init in
  st_nodes s0 = nodes /\ gok s0 /\ length (st_loci s0) = length tbl
  /\ (with_disease cf = true -> has_comp s0) /\ (tracked_edges cf = true -> Inv tbl s0).
Proof.
  destruct Hinit as [_ Hnd Hg _ Hi]. unfold init_state. fold tbl.
  assert (G0 : forall at0 L, (forall v, ~ In v nodes -> at0 v = None) -> gok (mkState nodes edges at0 L)).
  { intros at0 L Ha. split; [split; [|exact Ha]|exact Hnd]. cbn [st_nodes st_edges].
    intros a b Hab. unfold graph_okb in Hg. rewrite forallb_forall in Hg. specialize (Hg (a, b) Hab). cbn [fst snd] in Hg.
    apply andb_true_iff in Hg. destruct Hg as [H1 H2]. split; apply zmem_In; assumption. }
  assert (G1 : gok (state0 tbl nodes edges)).
  { apply G0. intros v Hv. apply zmem_false in Hv. rewrite Hv. reflexivity. }
  destruct (with_disease cf) eqn:D.
  - destruct (Hi eq_refl) as [Hi1 Hi2]. unfold setup.
    destruct (init_fold_keeps init (state0 tbl nodes edges)) as [K P]. cbv zeta in *. pose proof K as [A [_ [L _]]].
    split; [exact A|]. split; [exact (keeps_gok _ _ K G1)|]. split; [rewrite L; apply map_length|]. split.
    + intros _ v Hv. rewrite A in Hv. cbn [state0 st_nodes] in Hv. destruct (Hi2 v Hv) as [c Hc]. apply (P v c Hc).
      unfold getc_raises, has_node, state0. cbn [st_nodes st_attr]. apply zmem_In in Hv. rewrite Hv. reflexivity.
    + intro T. destruct (co_c01 Hcfg T) as [Hwf Hso].
      apply (inv_history tbl nodes edges init [] Hwf Hso Hg). rewrite app_nil_r. apply setup_valid, Hi1.
  - rewrite (co_alone Hcfg D). split; [reflexivity|]. split; [apply G0; reflexivity|]. split; [reflexivity|]. split; [discriminate|].
    intro T. pose proof (tracked_with_disease cf T). congruence.
Qed.

Lemma table_init : run_inv (init_loci tb) (t_world tb).
Proof.
  destruct init_state_ok as [A [G [L [C I0]]]]. cbv zeta in *.
  pose proof (io_li Hinit) as Hli.
  unfold tb, ad_table, init_loci, init_kloci. cbn [t_loci t_world]. rewrite map_map. cbn [snd].
  constructor; [rewrite map_length, seq_length; exact Hli | |].
  - rewrite nth_map_seq, (proj2 (Nat.ltb_lt _ _) Hli). fold li. rewrite Nat.eqb_refl.
    change (@nil Kernel.elem) with (map EN []). rewrite fold_ins_EN. reflexivity.
  - constructor; unfold Base, aw_st, init_world; cbn [aw_c cw_st aw_all aw_log aw_raised aw_stuck];
      [| exact L | reflexivity | exact I0 | | constructor].
    + split; [exact G|]. split; [exact (io_nodup Hinit)|]. split; [intro v; rewrite A; reflexivity | exact C].
    + intros _. rewrite A, (io_n0 Hinit). reflexivity.
Qed.

Theorem ad_run_inv : forall sync pf fuel rs ls ds,
  let r := ad_run cf procs nloci nodes edges init maxtime adraws sync pf fuel rs ls ds in
  run_inv (loci (r_final r)) (world (r_final r)).
Proof.
  intros sync pf fuel rs ls ds. unfold ad_run. fold tb.
  destruct (quiet_runs tb run_inv table_prog_ok (mk_procs_setup procs 0) table_init pf fuel rs ls ds) as [[_ A] [_ B]].
  destruct sync; assumption.
Qed.

Corollary ad_run_world : forall sync pf fuel rs ls ds,
  world_inv (world (r_final (ad_run cf procs nloci nodes edges init maxtime adraws sync pf fuel rs ls ds))).
Proof. intros. apply (ri_world _ _ (ad_run_inv sync pf fuel rs ls ds)). Qed.

End Table.
End Inst.
