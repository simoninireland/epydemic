(* C03 / C04 lifted to whole runs (stoch_run, sync_run) and restated on the observable fields of
   [result] (r_out is oldest first).  What the two kinds of run have in common is named [run_of];
   the facts that do not depend on how the clock moves are proved once from it.  Last,
   [pending_fired] names the entries one call of run_pending fires. *)
From Coq Require Import List ZArith QArith Qabs Bool Arith Lia Lqa Sorted.
From EpyV Require Import Model.Kernel Proofs.KernelBase Proofs.KernelLoops Proofs.KernelQueue
  Proofs.KernelFire Proofs.KernelTime.
Import ListNotations.
Open Scope Q_scope.

Lemma obs_times_rev o : obs_times (rev o) = rev (obs_times o).
Proof. unfold obs_times. rewrite filter_rev', map_rev. reflexivity. Qed.

Lemma desc_rev L l : desc (L :: l) -> StronglySorted Qle (rev l) /\ Forall (fun x => x <= L) l.
Proof.
  intros H. inversion H as [|? ? Hs Hf]; subst. split; [|exact Hf].
  apply (ss_rev (fun a b : Q => b <= a)) in Hs. exact Hs.
Qed.

Lemma ntaps_rev o : ntaps (rev o) = ntaps o.
Proof. unfold ntaps. rewrite filter_rev', rev_length. reflexivity. Qed.
Lemma nhandlers_rev o : nhandlers (rev o) = nhandlers o.
Proof. unfold nhandlers. rewrite filter_rev', rev_length. reflexivity. Qed.

Lemma ph_rev o lg : filter is_ph o = map hrec (rev lg) -> filter is_ph (rev o) = map hrec lg.
Proof. intros H. rewrite filter_rev', H, <- map_rev, rev_involutive. reflexivity. Qed.

Lemma paired_nhandlers o : paired (ht o) -> ntaps o = nhandlers o.
Proof.
  intros P. apply paired_counts in P. unfold ht in P. rewrite filter_ht_tap, filter_ht_handler in P. exact P.
Qed.

Lemma paired_fwd_handler l k targ clk e m : paired_fwd l -> In (OHandler k targ clk e m) l -> targ = clk.
Proof.
  induction 1 as [|k0 t0 e0 p0 l0 _ IH|k0 t0 e0 m0 p0 j0 l0 _ IH]; intros Hi; [destruct Hi|..];
    (destruct Hi as [E|[E|Hi]]; [injection E as _ <- <- _ _; reflexivity|discriminate|auto]).
Qed.

Lemma sorted_map_filter {A} (f : A -> Q) p l :
  StronglySorted Qle (map f l) -> StronglySorted Qle (map f (filter p l)).
Proof.
  induction l as [|x l IH]; cbn; intros H; [constructor|]. inversion H as [|? ? Hs Hf]; subst.
  destruct (p x); [|auto]. cbn. constructor; [auto|].
  rewrite Forall_forall in *. intros y Hy. apply Hf. apply in_map_iff in Hy. destruct Hy as [z [<- Hz]].
  apply in_map. apply filter_In in Hz. apply Hz.
Qed.

Lemma handler_times_sorted o : StronglySorted Qle (obs_times o) ->
  StronglySorted Qle (map time_of (filter is_handler o)) /\ StronglySorted Qle (map time_of (filter is_tap o)).
Proof.
  intros H. unfold obs_times in H. split.
  - rewrite <- filter_ht_handler. apply sorted_map_filter, H.
  - rewrite <- filter_ht_tap. apply sorted_map_filter, H.
Qed.

Lemma hrec_in_out o lg x : filter is_ph o = map hrec lg -> In x lg -> In (hrec x) o.
Proof.
  intros H Hx. assert (Hi : In (hrec x) (filter is_ph o)) by (rewrite H; apply in_map, Hx).
  apply filter_In in Hi. apply Hi.
Qed.

Section R.
Context {W : Type}.
Implicit Types s : st W.
Variable tb : table W.
Variable pf fuel : nat.

Lemma setup_ord rs ls ds : ord_st (setup_state tb rs ls ds) [].
Proof.
  destruct (setup_state_umoves tb rs ls ds) as [U _]. exact (ord_nil _ _ _ (wfk_umoves U (wfk_nil 0))).
Qed.

Lemma setup_tinv rs ls ds : tinv_st 0 (setup_state tb rs ls ds).
Proof.
  destruct (setup_state_umoves tb rs ls ds) as [U _].
  apply (tinv_umoves U). split; [repeat constructor|cbn; lra|intros ? []].
Qed.

Lemma setup_CI rs ls ds : CI 0 (setup_state tb rs ls ds).
Proof.
  destruct (setup_state_umoves tb rs ls ds) as [U _]. apply ht_umoves in U.
  unfold CI. rewrite ntaps_ht, U. split; [constructor|reflexivity].
Qed.

(* set-up code is user code: the ln stream and [stuck] are those of [init_state] *)
Lemma setup_oracle rs ls ds : lns (setup_state tb rs ls ds) = ls /\ stuck (setup_state tb rs ls ds) = false.
Proof. destruct (setup_state_umoves tb rs ls ds) as [_ [El Es]]. split; [exact El|exact Es]. Qed.

Section Stoch.
Variables (rs ls : list Q) (ds : list nat).
Let r := stoch_run tb pf fuel rs ls ds.
Let F := stoch_fired tb pf fuel rs ls ds.

Lemma stoch_fields : r_out r = rev (out (r_final r)) /\ r_stuck r = stuck (r_final r).
Proof.
  unfold r. rewrite stoch_run_eq. destruct (stoch_runL tb pf fuel rs ls ds) as [[[t ev] s] l]. split; reflexivity.
Qed.

Lemma stoch_count : CI (r_events r) (r_final r).
Proof. exact (stoch_loopL_count tb pf (setup_CI rs ls ds) (stoch_run_loopL tb pf fuel rs ls ds)). Qed.

Lemma stoch_lns_ok : Forall (Qle 0) ls -> lns_ok (setup_state tb rs ls ds).
Proof. unfold lns_ok. rewrite (proj1 (setup_oracle rs ls ds)). auto. Qed.

Lemma stoch_ord : nonneg_tb tb -> Forall (Qle 0) ls ->
  ord_st (r_final r) F /\ fired_le F (r_time r).
Proof.
  intros Hnn Hl.
  exact (stoch_loopL_ord tb pf Hnn (stoch_lns_ok Hl) (conj (setup_ord rs ls ds) (fired_le_nil _))
           (stoch_run_loopL tb pf fuel rs ls ds)).
Qed.

Lemma stoch_tinv : nonneg_tb tb -> Forall (Qle 0) ls -> r_stuck r = false -> tinv_st (r_time r) (r_final r).
Proof.
  intros Hnn Hl Hs. rewrite (proj2 stoch_fields) in Hs.
  exact (stoch_loopL_tinv tb pf Hnn (stoch_lns_ok Hl) (fun _ => setup_tinv rs ls ds)
           (stoch_run_loopL tb pf fuel rs ls ds) Hs).
Qed.

End Stoch.

Section Sync.
Variables (rs : list Q) (ds : list nat).
Let r := sync_run tb pf fuel rs ds.
Let F := sync_fired tb pf fuel rs ds.

Lemma sync_fields : r_out r = rev (out (r_final r)) /\ r_stuck r = stuck (r_final r).
Proof.
  unfold r. rewrite sync_run_eq. destruct (sync_runL tb pf fuel rs ds) as [[[[t ev] k] s] l]. split; reflexivity.
Qed.

Lemma sync_count : CI (r_events r) (r_final r).
Proof. exact (sync_loopL_count tb pf (setup_CI rs [] ds) (sync_run_loopL tb pf fuel rs ds)). Qed.

Lemma sync_ord : ord_st (r_final r) F /\ fired_le F (r_time r).
Proof.
  exact (sync_loopL_ord tb pf (conj (setup_ord rs [] ds) (fired_le_nil _))
           (sync_run_loopL tb pf fuel rs ds)).
Qed.

Lemma sync_tinv : r_stuck r = false -> exists L, L + 1 == r_time r /\ tinv_st L (r_final r).
Proof.
  intros Hs. rewrite (proj2 sync_fields) in Hs.
  refine (sync_loopL_tinv tb pf (fun _ => _) (sync_run_loopL tb pf fuel rs ds) Hs).
  exists 0. split; [lra|apply setup_tinv].
Qed.

Lemma sync_time : exists m : nat, r_time r == 1 + inject_Z (Z.of_nat m) /\
  (r_stuck r = false -> at_end tb (r_time r) (r_final r) = true) /\
  (forall j : nat, (j < m)%nat -> Qle_bool (t_maxtime tb) (1 + inject_Z (Z.of_nat j)) = false).
Proof. rewrite (proj2 sync_fields). exact (sync_loopL_time tb pf (sync_run_loopL tb pf fuel rs ds)). Qed.

End Sync.
End R.

(* what a stochastic and a synchronous run have in common: the result reports the final state,
   whose output it reverses and whose taps it has counted; the final state is reached from the
   empty core by moves that fire [F] *)
Record run_of {W : Type} (r : result W) (F : list entry) : Prop := {
  ro_out : r_out r = rev (out (r_final r));
  ro_moves : kmoves (0, 0%nat, [], []) F (core_of (r_final r));
  ro_count : CI (r_events r) (r_final r) }.
Arguments ro_out {W r F}.
Arguments ro_moves {W r F}.
Arguments ro_count {W r F}.

Lemma stoch_run_of {W : Type} (tb : table W) pf fuel rs ls ds :
  run_of (stoch_run tb pf fuel rs ls ds) (stoch_fired tb pf fuel rs ls ds).
Proof.
  split; [exact (proj1 (stoch_fields tb pf fuel rs ls ds))|apply stoch_run_kmoves|apply stoch_count].
Qed.

Lemma sync_run_of {W : Type} (tb : table W) pf fuel rs ds :
  run_of (sync_run tb pf fuel rs ds) (sync_fired tb pf fuel rs ds).
Proof.
  split; [exact (proj1 (sync_fields tb pf fuel rs ds))|apply sync_run_kmoves|apply sync_count].
Qed.

Section Run.
Context {W : Type}.
Variable r : result W.
Variable F : list entry.
Hypothesis R : run_of r F.

Lemma run_ginv : ginv_st (r_final r) F.
Proof. exact (ginv_kmoves [] (ro_moves R) (ginv_nil _ _ (wfk_nil 0))). Qed.

Lemma run_dinv x : In x (queue (r_final r)) -> e_live x = false -> In (unposted x) (r_out r).
Proof.
  intros Hx Hl. rewrite (ro_out R). apply -> in_rev.
  refine (dinv_kmoves (ro_moves R) (wfk_nil 0) _ x Hx Hl). intros ? [].
Qed.

Lemma run_agree : paired_fwd (ht (r_out r)).
Proof.
  rewrite (ro_out R). unfold ht. rewrite filter_rev'. apply paired_rev. exact (proj1 (ro_count R)).
Qed.

Lemma run_handler_clock k targ clk e m : In (OHandler k targ clk e m) (r_out r) -> targ = clk /\ targ == clk.
Proof.
  intros H. assert (E : targ = clk); [|split; [exact E|rewrite E; reflexivity]].
  apply (paired_fwd_handler _ k targ clk e m run_agree). apply filter_In. split; [exact H|reflexivity].
Qed.

Lemma run_count : r_events r = ntaps (r_out r) /\ ntaps (r_out r) = nhandlers (r_out r).
Proof.
  rewrite (ro_out R), ntaps_rev, nhandlers_rev.
  destruct (ro_count R) as [P C]. split; [exact C|exact (paired_nhandlers _ P)].
Qed.

Lemma run_times L : tinv_st L (r_final r) ->
  StronglySorted Qle (obs_times (r_out r)) /\ Forall (fun t => t <= L) (obs_times (r_out r)).
Proof.
  intros T. rewrite (ro_out R), obs_times_rev. destruct (desc_rev _ _ (t_desc T)) as [A B].
  split; [exact A|apply Forall_rev, B].
Qed.

Lemma run_monotone L : tinv_st L (r_final r) ->
  StronglySorted Qle (obs_times (r_out r)) /\
  StronglySorted Qle (map time_of (filter is_handler (r_out r))) /\
  StronglySorted Qle (map time_of (filter is_tap (r_out r))).
Proof. intros T. destruct (run_times L T) as [H _]. split; [exact H|exact (handler_times_sorted _ H)]. Qed.

Lemma run_records : filter is_ph (r_out r) = map hrec F.
Proof. rewrite (ro_out R). exact (ph_rev _ _ (g_hrec run_ginv)). Qed.

Lemma run_posted_fate i tt : In (OPosted i tt) (r_out r) ->
  exists x, e_id x = i /\ e_time x = tt /\ e_live x = true /\
    (In x F \/ In (OUnpost i (Some (Some tt))) (r_out r) \/ In x (queue (r_final r))).
Proof.
  rewrite (ro_out R). intros Hi. apply in_rev in Hi.
  destruct (g_posted run_ginv i tt Hi) as [x [A [B [C D]]]].
  exists x. split; [exact A|split; [exact B|split; [exact C|]]].
  destruct D as [D|[D|D]]; [right; right; exact D|left; exact D|].
  right. left. apply -> in_rev. unfold unposted in D. rewrite A, B in D. exact D.
Qed.

Lemma run_unposted i t0 : In (OUnpost i (Some (Some t0))) (r_out r) ->
  gone_st i (r_final r) /\ ~ In i (map e_id F).
Proof.
  rewrite (ro_out R). intros Hi. apply in_rev in Hi. destruct (g_unposted run_ginv i t0 Hi) as [A [B C]].
  split; [split; [exact A|apply find_live_none; exact B]|exact C].
Qed.

Lemma run_rep x ddt : In x F -> e_rep x = Some ddt -> 0 <= ddt ->
  exists y, succ_of x ddt y /\ (In y F \/ In y (queue (r_final r)) \/ In (unposted y) (r_out r)).
Proof.
  intros Hx Hr Hd. destruct (g_rep run_ginv x ddt Hx Hr Hd) as [y [A [B|[B|B]]]]; exists y; (split; [exact A|]); auto.
  right. right. rewrite (ro_out R). apply -> in_rev. exact B.
Qed.

Lemma run_posted_fired i tt x : In (OPosted i tt) (r_out r) -> In x F -> e_id x = i ->
  e_time x = tt /\ In (OHandler (e_prog x) tt tt (e_elem x) None) (r_out r).
Proof.
  intros Hp Hx Hi. pose proof run_ginv as G. destruct (run_posted_fate i tt Hp) as [y [A [B [C D]]]].
  assert (E : y = x).
  { destruct D as [D|[D|D]].
    - apply (NoDup_id_inj F _ _ (g_nodup G)); [exact D|exact Hx|congruence].
    - exfalso. apply (proj2 (run_unposted i tt D)). rewrite <- Hi. apply in_map, Hx.
    - exfalso. apply (proj1 (proj2 (g_fired G x Hx))). rewrite Hi, <- A. apply in_map, D. }
  subst y. split; [exact B|]. rewrite <- B. exact (hrec_in_out _ _ x run_records Hx).
Qed.

End Run.

Section RunPending.
Context {W : Type}.
Implicit Types s : st W.

Definition pending_fired (tb : table W) (fuel : nat) (t : Q) (n : nat) s : list entry :=
  snd (run_pendingL tb fuel t n s).

Lemma run_pending_L {tb fuel t n s n' s'} : run_pending tb fuel t n s = (n', s') ->
  run_pendingL tb fuel t n s = (n', s', pending_fired tb fuel t n s).
Proof.
  intros H. rewrite <- run_pendingL_fst in H. unfold pending_fired.
  destruct (run_pendingL tb fuel t n s) as [[a b] c]. cbn in *. congruence.
Qed.

Lemma run_pending_count tb fuel t n s n' s' : run_pending tb fuel t n s = (n', s') ->
  n' = (n + length (pending_fired tb fuel t n s))%nat.
Proof. intros H. exact (run_pendingL_length (run_pending_L H)). Qed.

End RunPending.
