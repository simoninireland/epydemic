(* C01: a call that raises leaves the invariant intact (it changes nothing, or - removeEdge of
   an edge that is not there - has only discarded pairs that were not stored). *)
From Coq Require Import List ZArith Bool Arith Lia.
From EpyV Require Import Model.Loci Proofs.LociBase Proofs.LociLocus Proofs.LociInv.
Import ListNotations.

Definition is_done (r : outcome) : bool := match r with Done => true | _ => false end.

(* a call is admissible if it satisfies its precondition or does not complete ([Raised] or [Outside]) *)
Definition okb (tbl : list spec) (s : state) (o : op) : bool :=
  preb s o || negb (is_done (snd (step_out tbl s o))).

Fixpoint admissibleb (tbl : list spec) (s : state) (ops : list op) : bool :=
  match ops with
  | [] => true
  | o :: r => okb tbl s o && admissibleb tbl (step tbl s o) r
  end.

Lemma set_compartment_not_done : forall tbl s n c, snd (set_compartment tbl s n c) <> Done ->
  fst (set_compartment tbl s n c) = s.
Proof.
  intros tbl s n c. unfold set_compartment. destruct (negb (has_node s n)); cbn [fst snd]; [reflexivity | congruence].
Qed.

Theorem winv_step_not_done : forall tbl s o, wf_loci tbl = true -> WInv tbl s ->
  snd (step_out tbl s o) <> Done -> WInv tbl (step tbl s o).
Proof.
  intros tbl s o Hwf W H. unfold step. destruct o as [n c|n c|n c|n|n m|n m]; cbn [step_out] in *.
  - rewrite set_compartment_not_done; assumption.
  - unfold change_compartment in *. destruct (getc_raises s n); cbn [fst snd] in *; [exact W | congruence].
  - unfold add_node in *. destruct c as [c|]; [|cbn [snd] in H; congruence].
    exfalso. apply H. unfold set_compartment.
    assert (Hn : has_node (if has_node s n then s else mkState (st_nodes s ++ [n]) (st_edges s) (st_attr s) (st_loci s)) n = true).
    { destruct (has_node s n) eqn:E; [exact E|]. unfold has_node. cbn [st_nodes]. apply zmem_In, in_app_iff. right. left. reflexivity. }
    rewrite Hn. reflexivity.
  - unfold remove_node in *. destruct (getc_raises s n); cbn [fst snd] in *; [exact W | congruence].
  - unfold add_edge in *. destruct (negb (has_node s n) || negb (has_node s m)); cbn [fst snd] in *; [exact W|].
    destruct (getc_raises s n || getc_raises s m); cbn [fst snd] in *; [exact W | congruence].
  - apply remove_edge_winv; assumption.
Qed.

Theorem winv_step_ok : forall tbl s o, wf_loci tbl = true -> WInv tbl s -> okb tbl s o = true -> WInv tbl (step tbl s o).
Proof.
  intros tbl s o Hwf W H. unfold okb in H. apply orb_true_iff in H. destruct H as [H|H].
  - apply winv_step; assumption.
  - apply winv_step_not_done; try assumption. intro E. rewrite E in H. discriminate.
Qed.

Lemma winv_admissible : forall tbl ops s, wf_loci tbl = true -> WInv tbl s -> admissibleb tbl s ops = true ->
  WInv tbl (fold_left (step tbl) ops s).
Proof.
  intros tbl ops s Hwf. apply (winv_along tbl (admissibleb tbl)). intros s0 o r W Hv.
  cbn [admissibleb] in Hv. apply andb_true_iff in Hv. split; [apply winv_step_ok; tauto | tauto].
Qed.

Lemma validb_admissibleb : forall tbl ops s, validb tbl s ops = true -> admissibleb tbl s ops = true.
Proof.
  intros tbl ops. induction ops as [|o r IH]; intros s H; [reflexivity|]. cbn [validb admissibleb] in *.
  apply andb_true_iff in H. destruct H as [H1 H2]. unfold okb. rewrite H1, (IH _ H2). reflexivity.
Qed.
