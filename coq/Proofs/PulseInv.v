(* The scheduling invariant of the pulse-coupled oscillator process over the kernel model: the user
   state's event map is exactly the set of live queue entries (C20_one_pending).  [link] relates an
   event map to a queue and is followed through the kernel actions a program issues (un-post, post,
   probe); [sync] is what holds between the actions of one handler, [PInv] what holds between events. *)
From Coq Require Import List ZArith QArith Qabs Bool Arith Lia Lqa.
From EpyV Require Import Lib.Prelude Model.Kernel Model.Pulse Proofs.KernelBase Proofs.PulseBase.
Import ListNotations.
Open Scope Q_scope.

Notation kst := (st pworld).
Notation evmap := (list (Z * (nat * Q))).

Definition is_tap (x : obs) : bool := match x with OTap _ _ _ _ => true | _ => false end.
Definition taps (o : list obs) : list obs := filter is_tap o.

(* the live queue entry of node n's firing at time T with id i *)
Definition fentry (T : Q) (i : nat) (n : Z) : entry := mk_entry T i 0 (EN n) prog_fired None.

(* nothing queued under id i can fire any more *)
Definition dead_id (s : kst) (i : nat) : Prop := forall x, In x (queue s) -> e_id x = i -> e_live x = false.

(* the firing the event map m records for n, if it records one, is queued *)
Definition pending (m : evmap) (s : kst) (n : Z) : Prop :=
  forall k T, ev_look m n = Some (k, T) -> In (fentry T (nth k (ids s) 0%nat) n) (queue s).

(* [link m np s]: the event map m (with np posts made) describes the live entries of the queue of s; the event
   it records for a node is either queued or dead (it has fired or been un-posted and is about to be replaced) *)
Record link (m : evmap) (np : nat) (s : kst) : Prop := {
  lk_len : length (ids s) = np;
  lk_nodup : NoDup (map e_id (queue s));
  lk_qlt : forall x, In x (queue s) -> (e_id x < nextid s)%nat;
  lk_ilt : forall i, In i (ids s) -> (i < nextid s)%nat;
  lk_fwd : forall n k T, ev_look m n = Some (k, T) ->
     (k < np)%nat /\ (In (fentry T (nth k (ids s) 0%nat) n) (queue s) \/ dead_id s (nth k (ids s) 0%nat));
  lk_bwd : forall x, In x (queue s) -> e_live x = true ->
     exists n k T, ev_look m n = Some (k, T) /\ x = fentry T (nth k (ids s) 0%nat) n }.
Arguments lk_len {m np s}. Arguments lk_nodup {m np s}. Arguments lk_qlt {m np s}. Arguments lk_ilt {m np s}.
Arguments lk_fwd {m np s}. Arguments lk_bwd {m np s}.

(* link and pending only look at the queue, the ids and the id counter *)
Lemma link_ext m np s s' : queue s' = queue s -> ids s' = ids s -> nextid s' = nextid s ->
  (link m np s -> link m np s') /\ forall n, pending m s n -> pending m s' n.
Proof.
  intros E1 E2 E3. split; [|intros n H; unfold pending; rewrite E1, E2; exact H].
  intros [A1 A2 A3 A4 A5 A6]. split; unfold dead_id in *; rewrite ?E1, ?E2, ?E3; assumption.
Qed.

(* when the queue loses only what it held under the id recorded for n, the firings of the other nodes stay queued:
   a queued firing does not share its id with the event recorded for another node *)
Lemma pending_keep m np s s' n k T : link m np s -> ev_look m n = Some (k, T) -> ids s' = ids s ->
  (forall x, In x (queue s) -> e_id x <> nth k (ids s) 0%nat -> In x (queue s')) ->
  forall n', n' <> n -> pending m s n' -> pending m s' n'.
Proof.
  intros L Hn Ei Hkeep n' Hne Hp k' T' Hn'. specialize (Hp k' T' Hn'). rewrite Ei. apply Hkeep; [exact Hp|].
  intros E. destruct (proj2 (lk_fwd L n k T Hn)) as [Hin|Hd].
  - pose proof (NoDup_id_inj (queue s) _ _ (lk_nodup L) Hp Hin E) as X.
    apply Hne. unfold fentry, mk_entry in X. congruence.
  - specialize (Hd _ Hp E). discriminate Hd.
Qed.

(* the queue loses what it held under id i: the entry is killed (un-post) or removed (it fires) *)
Lemma link_lose m np (s s' : kst) i : ids s' = ids s -> nextid s' = nextid s ->
  NoDup (map e_id (queue s')) -> incl (map e_id (queue s')) (map e_id (queue s)) ->
  (forall x, In x (queue s') -> e_live x = true -> In x (queue s) /\ e_id x <> i) ->
  (forall x, In x (queue s) -> e_id x <> i -> In x (queue s')) ->
  link m np s -> link m np s' /\ dead_id s' i.
Proof.
  intros Ei En Hnd Hinc Hlive Hkeep L.
  assert (Hd : dead_id s' i).
  { intros x Hx Ex. destruct (e_live x) eqn:El; [|reflexivity]. destruct (proj2 (Hlive x Hx El) Ex). }
  split; [|exact Hd]. split; rewrite ?Ei, ?En.
  - exact (lk_len L).
  - exact Hnd.
  - intros x Hx. destruct (proj1 (in_map_iff _ _ _) (Hinc _ (in_map e_id _ _ Hx))) as [z [Ez Hz]].
    rewrite <- Ez. exact (lk_qlt L z Hz).
  - exact (lk_ilt L).
  - intros n k T Hn. destruct (lk_fwd L n k T Hn) as [Hk [Hin|Hdd]]; (split; [exact Hk|]).
    + destruct (Nat.eq_dec (nth k (ids s) 0%nat) i) as [E|E]; [right; rewrite E; exact Hd|left; exact (Hkeep _ Hin E)].
    + right. intros x Hx Ex. destruct (e_live x) eqn:El; [|reflexivity].
      rewrite <- El. exact (Hdd x (proj1 (Hlive x Hx El)) Ex).
  - intros x Hx Hl. exact (lk_bwd L x (proj1 (Hlive x Hx Hl)) Hl).
Qed.

Lemma link_pop m np (s s' : kst) i : queue s' = remove_id i (queue s) -> ids s' = ids s -> nextid s' = nextid s ->
  link m np s -> link m np s' /\ dead_id s' i.
Proof.
  intros Eq Ei En L. pose proof (lk_nodup L) as Hnd.
  apply (link_lose m np s s' i Ei En); rewrite ?Eq; [| | | |exact L].
  - apply remove_id_NoDup, Hnd.
  - apply incl_map, remove_id_incl.
  - intros x Hx _. split; [exact (remove_id_incl _ _ _ Hx)|].
    intros E. apply (remove_id_gone i (queue s) Hnd). apply in_map_iff. exists x. split; [exact E|exact Hx].
  - intros x. apply remove_id_keeps.
Qed.

Lemma link_unpost m np s t e n k T : link m np s -> ev_look m n = Some (k, T) ->
  let s' := do_action 0 t e (AUnpost k false) s in
  link m np s' /\ dead_id s' (nth k (ids s) 0%nat) /\ ids s' = ids s
  /\ forall n', n' <> n -> pending m s n' -> pending m s' n'.
Proof.
  intros L Hn. cbn [do_action].
  assert (Hk : (k < length (ids s))%nat) by (rewrite (lk_len L); exact (proj1 (lk_fwd L n k T Hn))).
  destruct (ids s) as [|i0 l0] eqn:Eids; [cbn in Hk; lia|]. rewrite <- Eids in *.
  rewrite Nat.mod_small by exact Hk.
  set (i := nth k (ids s) 0%nat).
  destruct (find_live i (queue s)) as [x|] eqn:Ef.
  - destruct (link_lose m np s (emit (OUnpost i (Some (Some (e_time x)))) (set_queue (kill i (queue s)) s)) i) as [L' Hd];
      cbn [queue ids nextid emit set_queue]; rewrite ?kill_ids; try reflexivity.
    + exact (lk_nodup L).
    + apply incl_refl.
    + intros y. apply kill_live_in.
    + intros y. apply kill_keeps.
    + exact L.
    + split; [exact L'|]. split; [exact Hd|]. split; [reflexivity|].
      apply (pending_keep m np s _ n k T L Hn); [reflexivity|]. intros y. apply kill_keeps.
  - split; [exact (proj1 (link_ext m np s (emit _ s) eq_refl eq_refl eq_refl) L)|].
    split; [exact (proj1 (find_live_none i (queue s)) Ef)|]. split; [reflexivity|]. intros n' _ Hp. exact Hp.
Qed.

(* posting the next firing of a node whose recorded event, if any, is dead *)
Lemma link_post m np s t e n dt : link m np s ->
  (forall k T, ev_look m n = Some (k, T) -> dead_id s (nth k (ids s) 0%nat)) ->
  clock s <= Qred (t + dt) ->
  let s' := do_action 0 t e (APostOn (EN n) dt prog_fired) s in
  let m' := upd_ev n (np, Qred (t + dt)) m in
  link m' (S np) s' /\ pending m' s' n /\ forall n', n' <> n -> pending m s n' -> pending m' s' n'.
Proof.
  intros L Hst Hc. cbn [do_action]. unfold post.
  assert (E : Qltb (Qred (t + dt)) (clock s) = false) by (apply Qltb_false; exact Hc). rewrite E.
  destruct L as [A1 A2 A3 A4 A5 A6].
  assert (Hold : forall k, (k < np)%nat -> nth k (ids s ++ [nextid s]) 0%nat = nth k (ids s) 0%nat)
    by (intros k Hk; apply app_nth1; rewrite A1; exact Hk).
  assert (Hnew : nth np (ids s ++ [nextid s]) 0%nat = nextid s) by (rewrite <- A1; apply nth_middle).
  split; [split|split]; cbn [queue ids nextid emit push_id map e_id].
  - rewrite app_length, A1. cbn. lia.
  - constructor; [|exact A2]. intros Hin. apply in_map_iff in Hin. destruct Hin as [x [Ex Hx]].
    specialize (A3 x Hx). lia.
  - intros x [<-|Hx]; [cbn; lia|]. specialize (A3 x Hx). lia.
  - intros i Hi. apply in_app_or in Hi. destruct Hi as [Hi|[<-|[]]]; [specialize (A4 i Hi)|]; lia.
  - intros n' k' T' Hn'. destruct (Z.eq_dec n' n) as [->|Hne].
    + rewrite look_upd_same in Hn'. injection Hn' as <- <-. split; [lia|]. left. left. rewrite Hnew. reflexivity.
    + rewrite look_upd_other in Hn' by exact Hne.
      destruct (A5 n' k' T' Hn') as [Hk [Hin|Hd]]; (split; [lia|]); rewrite (Hold k' Hk); [left; right; exact Hin|right].
      intros x [<-|Hx] Ex; [|exact (Hd x Hx Ex)].
      cbn [e_id] in Ex. assert (Hi : In (nth k' (ids s) 0%nat) (ids s)) by (apply nth_In; rewrite A1; exact Hk).
      specialize (A4 _ Hi). lia.
  - intros x [<-|Hx] Hl.
    + exists n, np, (Qred (t + dt)). rewrite look_upd_same, Hnew. split; reflexivity.
    + destruct (A6 x Hx Hl) as [n' [k' [T' [A C]]]].
      assert (Hne : n' <> n).
      { intros ->. rewrite (Hst k' T' A x Hx) in Hl; [discriminate|]. rewrite C. reflexivity. }
      exists n', k', T'. rewrite look_upd_other by exact Hne. split; [exact A|].
      rewrite (Hold k' (proj1 (A5 n' k' T' A))). exact C.
  - intros k T Hn. cbn [queue ids emit push_id]. rewrite look_upd_same in Hn. injection Hn as <- <-.
    left. rewrite Hnew. reflexivity.
  - intros n' Hne Hp k' T' Hn'. cbn [queue ids emit push_id]. rewrite look_upd_other in Hn' by exact Hne.
    right. rewrite (Hold k' (proj1 (A5 n' k' T' Hn'))). exact (Hp k' T' Hn').
Qed.

(* Facts about the kernel alone (they hold for any user state): no action touches the clock, the user state
   or the taps; queries leave the queue alone. *)
Lemma umoves_taps {c n q o c' n' q' o'} : umoves (c, n, q, o) (c', n', q', o') -> taps o' = taps o.
Proof.
  intros U. refine (umoves_inv (fun _ _ _ o1 => taps o1 = taps o) _ U eq_refl).
  intros * H <-. elim H using umove_cases; try reflexivity.
  intros x Hx. destruct x; try discriminate Hx; reflexivity.
Qed.

Lemma run_actions_frame p t e acts (s : kst) :
  clock (run_actions p t e acts s) = clock s /\ world (run_actions p t e acts s) = world s
  /\ taps (out (run_actions p t e acts s)) = taps (out s).
Proof.
  pose proof (run_actions_umoves p t e acts s) as U.
  split; [exact (core_clock U)|]. split; [apply run_actions_world | exact (umoves_taps U)].
Qed.

Lemma run_queries p t e acts (s : kst) : Forall (fun a => exists k, a = AQuery k) acts ->
  let s' := run_actions p t e acts s in queue s' = queue s /\ ids s' = ids s /\ nextid s' = nextid s.
Proof.
  unfold run_actions. cbn zeta.
  revert s. induction acts as [|a acts IH]; intros s Hf; cbn [fold_left]; [repeat split; reflexivity|].
  inversion Hf as [|? ? [k ->] Hf']; subst.
  destruct (IH (do_action p t e (AQuery k) s) Hf') as [A1 [A2 A3]].
  rewrite A1, A2, A3. cbn [do_action]. destruct (ids s) eqn:E; cbn [queue ids nextid emit]; rewrite ?E; repeat split; reflexivity.
Qed.

(* setFiringTime on the queue: un-post the recorded event if there is one, then post *)
Lemma link_sft m np s t e n dt : link m np s -> clock s <= Qred (t + dt) ->
  let s' := run_actions 0 t e (match ev_look m n with Some (k, _) => [AUnpost k false] | None => [] end
                                ++ [APostOn (EN n) dt prog_fired]) s in
  let m' := upd_ev n (np, Qred (t + dt)) m in
  link m' (S np) s' /\ pending m' s' n /\ forall n', n' <> n -> pending m s n' -> pending m' s' n'.
Proof.
  intros L Hc. destruct (ev_look m n) as [[k T0]|] eqn:En; cbn [app run_actions fold_left].
  - destruct (link_unpost m np s t e n k T0 L En) as [L1 [D1 [I1 P1]]].
    destruct (link_post m np (do_action 0 t e (AUnpost k false) s) t e n dt L1) as [L2 [Pn P2]].
    { intros k' T' E'. rewrite En in E'. injection E' as <- <-. rewrite I1. exact D1. }
    { rewrite (core_clock (do_action_umoves 0 t e _ s)). exact Hc. }
    split; [exact L2|]. split; [exact Pn|]. intros n' Hne Hp. exact (P2 n' Hne (P1 n' Hne Hp)).
  - apply (link_post m np s t e n dt L); [|exact Hc]. intros k T E. rewrite En in E. discriminate E.
Qed.

(* what the proofs use of a monotone bound ub of the rounding and a period >= 0: a firing time at most one period
   ahead is bounded by the bound of one period ahead (a constant ub has this for any period) *)
Lemma ub_ahead_mono cfg (ub : Q -> Q) : (forall x y, x <= y -> ub x <= ub y) -> 0 <= pc_period cfg ->
  forall t c, c <= 1 -> ub (t + c * pc_period cfg) <= ub (t + pc_period cfg).
Proof.
  intros Hm Hp t c Hc. apply Hm.
  assert (c * pc_period cfg <= 1 * pc_period cfg) by (apply Qmult_le_compat_r; assumption). lra.
Qed.

Section Sim.
Variable cfg : pcfg.
Variable ub : Q -> Q.                      (* an upper bound of the rounding in setFiringTime *)
Hypothesis ub_mono : forall x y, x <= y -> ub x <= ub y.
Notation period := (pc_period cfg).
Hypothesis ub_ahead : forall t c, c <= 1 -> ub (t + c * period) <= ub (t + period).

(* requests for a posting time are answered with a time that is not in the caller's past, and at most ub of the argument *)
Definition req_lo (r : req) : Prop := rq_kind r = RT -> rq_t r <= rq_ans r.
Definition good_lo (l : list req) : Prop := forall r, In r l -> req_lo r.
Definition req_hi (r : req) : Prop := rq_kind r = RT -> rq_ans r <= ub (rq_arg r).
Definition good (l : list req) : Prop := forall r, In r l -> req_lo r /\ req_hi r.

Lemma good_incl l l' : incl l l' -> good l' -> good l.
Proof. intros Hi H r Hr. apply H, Hi, Hr. Qed.
Lemma good_good_lo l : good l -> good_lo l.
Proof. intros H r Hr. apply H, Hr. Qed.

(* times: not before the current event, at most one period ahead *)
Definition tmI (t : Q) (m : evmap) : Prop :=
  forall n k T, ev_look m n = Some (k, T) -> t <= T /\ T <= ub (t + period).

Section Handler.
Variables (t : Q) (e : elem) (s0 : kst).    (* the handler's time and element; the kernel state its actions start from *)
Hypothesis clock_s0 : clock s0 <= t.

(* [sync A st]: after the actions the program has issued so far the queue is linked to the program's event map,
   the firings of the nodes in A are queued, and the recorded times are within bounds *)
Record sync (A : Z -> Prop) (st : pstate) : Prop := {
  sy_link : link (pw_ev (fst st)) (pw_nposted (fst st)) (run_actions 0 t e (snd st) s0);
  sy_pend : forall n, A n -> pending (pw_ev (fst st)) (run_actions 0 t e (snd st) s0) n;
  sy_tm : tmI t (pw_ev (fst st)) }.

Lemma sync_weaken (A B : Z -> Prop) st : (forall n, A n -> B n) -> sync B st -> sync A st.
Proof. intros H [L Pn Tm]. split; [exact L| |exact Tm]. intros n Hn. apply Pn, H, Hn. Qed.

Lemma sync_ext A w w' a : pw_ev w' = pw_ev w -> pw_nposted w' = pw_nposted w -> sync A (w, a) -> sync A (w', a).
Proof. intros E1 E2 [L Pn Tm]. cbn [fst snd] in *. split; cbn [fst snd]; rewrite E1, ?E2; assumption. Qed.

Lemma sync_queries A w a qs : Forall (fun x => exists k, x = AQuery k) qs -> sync A (w, a) -> sync A (w, a ++ qs).
Proof.
  intros Hq [L Pn Tm]. cbn [fst snd] in *.
  destruct (run_queries 0 t e qs (run_actions 0 t e a s0) Hq) as [Q1 [Q2 Q3]].
  destruct (link_ext (pw_ev w) (pw_nposted w) _ _ Q1 Q2 Q3) as [XL XP].
  split; cbn [fst snd]; unfold run_actions; rewrite ?fold_left_app; [exact (XL L)|intros n Hn; exact (XP n (Pn n Hn))|exact Tm].
Qed.

(* setFiringTime(n, et) with et at most one period ahead: n's firing is queued afterwards, whatever it was before *)
Lemma sync_sft A w a n et : sync A (w, a) -> good (pw_reqs (fst (set_firing_time t n et (w, a)))) ->
  ub et <= ub (t + period) ->
  sync (fun m => m = n \/ A m) (set_firing_time t n et (w, a)).
Proof.
  intros [L Pn Tm] Hg Het. destruct (set_firing_time_spec t n et w a) as [T [w1 [E Es]]]. rewrite Es in *.
  pose proof (ask_wsame E) as Hs.
  destruct (Hg (mkreq RT t (Qred et) T)) as [Hlo Hhi]; [cbn [fst pw_reqs set_ev]; rewrite (ask_reqs E); left; reflexivity|].
  specialize (Hlo eq_refl). specialize (Hhi eq_refl). cbn [rq_t rq_ans rq_arg mkreq] in Hlo, Hhi.
  assert (HT : Qred (t + (T - t)) == T) by (rewrite Qred_correct; ring).
  cbn [fst snd] in L, Pn, Tm.
  destruct (link_sft (pw_ev w) (pw_nposted w) (run_actions 0 t e a s0) t e n (T - t) L) as [L2 [Pn2 P2]].
  { rewrite (proj1 (run_actions_frame 0 t e a s0)), HT. lra. }
  split; cbn [fst snd]; rewrite set_ev_ev; unfold run_actions, unpost_of; rewrite ?(fold_left_app _ a); cbn [pw_nposted set_ev];
    rewrite ?ev_of_look, (ws_ev Hs), ?(ws_np Hs).
  - exact L2.
  - intros n' [->|Hn']; [exact Pn2|]. destruct (Z.eq_dec n' n) as [->|Hne]; [exact Pn2|exact (P2 n' Hne (Pn n' Hn'))].
  - intros n' k' T' Hn'. destruct (Z.eq_dec n' n) as [->|Hne].
    + rewrite look_upd_same in Hn'. injection Hn' as _ <-. rewrite HT. split; [exact Hlo|].
      eapply Qle_trans; [exact Hhi|]. eapply Qle_trans; [|exact Het]. apply ub_mono. rewrite Qred_correct. lra.
    + rewrite look_upd_other in Hn' by exact Hne. exact (Tm n' k' T' Hn').
Qed.

Lemma sync_steps S P A st st' : steps cfg t S P st st' -> good (pw_reqs (fst st')) -> sync A st -> sync A st'.
Proof.
  induction 1 as [st|w w' a st' Hs _ IH|w a bg bd st' _ _ IH|w a n c st' _ Hc Hst IH]; intros Hg Hy.
  - exact Hy.
  - apply IH; [exact Hg|]. exact (sync_ext A w w' a (ws_ev Hs) (ws_np Hs) Hy).
  - apply IH; [exact Hg|]. exact (sync_ext A w (set_sets bg bd w) a eq_refl eq_refl Hy).
  - apply IH; [exact Hg|]. apply (sync_weaken A (fun m => m = n \/ A m)); [intros m Hm; right; exact Hm|].
    apply sync_sft; [exact Hy|exact (good_incl _ _ (kp_reqs (steps_kept Hst)) Hg)|exact (ub_ahead t c Hc)].
Qed.

Arguments sync_steps {S P A st st'}.

(* the event function fired(t, n), run when the firing of n has just left the queue and the others are queued *)
Lemma sync_fired l w n : sync (fun m => m <> n) (w, []) -> good (pw_reqs (fst (fired_prog cfg t (EN n) l w))) ->
  sync (fun _ => True) (fired_prog cfg t (EN n) l w).
Proof.
  intros Hy Hg. destruct (fired_prog_spec cfg t n l w) as [st4 [E [Hs _]]]. rewrite E in *. cbn [fst] in Hg.
  destruct (fire_node_spec cfg t n (set_sets [] [] w) []) as [r [w2 [E1 Ef]]]. rewrite Ef in Hs. cbn zeta in Hs.
  pose proof (kp_reqs (steps_kept Hs)) as Hi.
  assert (H2 : sync (fun m => m = n \/ m <> n) (set_firing_time t n (t + clamp01 r * period) (w2, []))).
  { apply sync_sft; [|exact (good_incl _ _ Hi Hg)|exact (ub_ahead t _ (proj2 (clamp01_range r)))].
    apply (sync_ext _ w); [exact (ws_ev (ask_wsame E1))|exact (ws_np (ask_wsame E1))|exact Hy]. }
  destruct (set_firing_time t n (t + clamp01 r * period) (w2, [])) as [w3 a3]. cbn [fst snd] in *.
  destruct st4 as [w4 a4]. cbn [fst snd] in *. apply sync_queries; [apply probe_queries|].
  apply (sync_steps Hs Hg). apply (sync_ext _ w3); [reflexivity|reflexivity|].
  apply (sync_weaken _ (fun m => m = n \/ m <> n)); [intros m _; apply Z.eq_decidable|exact H2].
Qed.

End Handler.

Definition lastT (w : pworld) : Q := match pw_ftimes w with [] => 0 | t :: _ => t end.

(* newest first: each time is at least the one before it *)
Fixpoint desc (l : list Q) : Prop :=
  match l with
  | [] => True
  | a :: l' => match l' with [] => True | b :: _ => b <= a end /\ desc l'
  end.

Definition tap_of (p : Q * Z) : obs := OTap (fst p) 0 (NPost prog_fired) (EN (snd p)).

(* [PInv s]: what holds of the kernel state s after set-up and between events: the queue is linked to the user
   state's event map with every recorded firing queued, every node of the network has an event, the recorded times
   are within bounds of the latest firing, and the firing log is ordered and is what the FIRED taps show *)
Record PInv (s : kst) : Prop := {
  pi_link : link (pw_ev (world s)) (pw_nposted (world s)) s;
  pi_pend : forall n, pending (pw_ev (world s)) s n;
  pi_dom : forall n, In n (pc_nodes cfg) -> ev_of (world s) n <> None;
  pi_tm : tmI (lastT (world s)) (pw_ev (world s));
  pi_sorted : desc (pw_ftimes (world s));
  pi_len : length (pw_ftimes (world s)) = length (pw_fnodes (world s));
  pi_taps : taps (out s) = map tap_of (combine (pw_ftimes (world s)) (pw_fnodes (world s))) }.
Arguments pi_link {s}. Arguments pi_pend {s}. Arguments pi_dom {s}. Arguments pi_tm {s}.
Arguments pi_sorted {s}. Arguments pi_len {s}. Arguments pi_taps {s}.

Lemma PInv_ext s s' : world s' = world s -> queue s' = queue s -> ids s' = ids s -> nextid s' = nextid s ->
  taps (out s') = taps (out s) -> PInv s -> PInv s'.
Proof.
  intros E1 E2 E3 E4 E5 [A1 A2 A3 A4 A5 A6 A7]. destruct (link_ext (pw_ev (world s)) (pw_nposted (world s)) s s' E2 E3 E4) as [XL XP].
  split; rewrite ?E1, ?E5; try assumption; [exact (XL A1)|intros n; exact (XP n (A2 n))].
Qed.

Lemma PInv_discard s : PInv s -> PInv (discard s).
Proof.
  intros [[B1 B2 B3 B4 B5 B6] A2 A3 A4 A5 A6 A7]. split; cbn [world discard set_queue out]; try assumption.
  - split; cbn [queue ids nextid set_queue]; try assumption.
    + apply discard_dead_NoDup, B2.
    + intros x Hx. apply B3. eapply discard_dead_incl; exact Hx.
    + intros n k T Hn. split; [exact (proj1 (B5 n k T Hn))|]. left.
      apply discard_dead_keeps_live; [exact B2|exact (A2 n k T Hn)|reflexivity].
    + intros x Hx Hl. apply B6; [eapply discard_dead_incl; exact Hx|exact Hl].
  - intros n k T Hn. apply discard_dead_keeps_live; [exact B2|exact (A2 n k T Hn)|reflexivity].
Qed.

Variable oracle : list (rkind * Q).
Variable orders : list (list Z).
Notation tb := (pulse_table cfg oracle orders).

Lemma prog_of_pulse k : prog_of tb k = match k with O => fired_prog cfg | _ => static [] end.
Proof. destruct k as [|[|k]]; reflexivity. Qed.

(* rewritten with before the program is applied: a conversion that has to unfold fired_prog on arguments is dear *)
Lemma prog_of_fired : prog_of tb prog_fired = fired_prog cfg.
Proof. reflexivity. Qed.

Lemma pend_step_world h (s0 : kst) :
  world (pend_step tb h s0) = fst (prog_of tb (e_prog h) (e_time h) (e_elem h) (loci s0) (world s0)).
Proof.
  unfold pend_step, fire, run_prog. cbn [world emit loci set_clock set_queue].
  destruct (prog_of tb (e_prog h) (e_time h) (e_elem h) (loci s0) (world s0)) as [w' acts].
  destruct (e_rep h) as [ddt|]; [unfold post; destruct (Qltb _ _)|]; cbn [world emit];
    apply run_actions_frame.
Qed.

Lemma pend_step_reqs h (s0 : kst) : incl (pw_reqs (world s0)) (pw_reqs (world (pend_step tb h s0))).
Proof.
  rewrite pend_step_world, prog_of_pulse. destruct (e_prog h); [apply fired_prog_reqs|apply incl_refl].
Qed.

(* the firing of n at T with id i, as the head of the queue, fires: fired(T, n) runs in the state without it *)
Lemma pend_step_fentry T i n (s0 : kst) :
  pend_step tb (fentry T i n) s0
  = emit (OTap T 0 (NPost prog_fired) (EN n))
      (run_actions 0 T (EN n) (snd (fired_prog cfg T (EN n) (loci s0) (world s0)))
         (set_world (fst (fired_prog cfg T (EN n) (loci s0) (world s0)))
            (emit (OHandler prog_fired T T (EN n) None) (set_clock T (set_queue (remove_id i (queue s0)) s0))))).
Proof.
  unfold pend_step, fire, run_prog, fentry, mk_entry, trec. cbn [e_time e_id e_proc e_elem e_prog e_rep loci world emit set_clock set_queue clock].
  rewrite prog_of_fired.
  destruct (fired_prog cfg T (EN n) (loci s0) (world s0)) as [w' acts]. reflexivity.
Qed.

(* [fired_at s0 s' n T]: what the firing of node n at time T does between the states s0 and s': (T, n) is logged,
   the clock is T, the newest record of the event stream is n's FIRED tap, and n is rescheduled *)
Record fired_at (s0 s' : kst) (n : Z) (T : Q) : Prop := {
  fa_ftimes : pw_ftimes (world s') = T :: pw_ftimes (world s0);
  fa_fnodes : pw_fnodes (world s') = n :: pw_fnodes (world s0);
  fa_clock : clock s' = T;
  fa_tap : out s' = OTap T 0 (NPost prog_fired) (EN n) :: tl (out s');
  (* the node is rescheduled at the oracle's rounding of T + clamp(round(1 - 0)) * period *)
  fa_refire : exists r Tn k, In (mkreq RN T (Qred (1 - 0)) r) (pw_reqs (world s'))
      /\ In (mkreq RT T (Qred (T + clamp01 r * period)) Tn) (pw_reqs (world s'))
      /\ ev_look (pw_ev (world s')) n = Some (k, Qred (T + (Tn - T))) }.

(* when the head of the queue fires, its time is the new reference of the time bounds *)
Lemma tm_advance (s0 : kst) h : PInv s0 -> head (queue s0) = Some h -> e_live h = true ->
  tmI (e_time h) (pw_ev (world s0)).
Proof.
  intros P Hh Hl n' k' T' Hn'.
  destruct (lk_bwd (pi_link P) h (head_in _ _ Hh) Hl) as [n [k [T [En ->]]]]. cbn [e_time fentry mk_entry].
  destruct (pi_tm P n k T En) as [H0 _]. destruct (pi_tm P n' k' T' Hn') as [_ Hhi].
  pose proof (notbefore_time_le _ _ (head_min _ _ Hh _ (pi_pend P n' k' T' Hn'))) as Hle. cbn [e_time fentry mk_entry] in Hle.
  split; [exact Hle|]. eapply Qle_trans; [exact Hhi|]. apply ub_mono. lra.
Qed.

Lemma pend_step_PInv (s0 : kst) h : PInv s0 -> head (queue s0) = Some h -> e_live h = true ->
  good (pw_reqs (world (pend_step tb h s0))) ->
  PInv (pend_step tb h s0) /\ exists n, e_elem h = EN n /\ fired_at s0 (pend_step tb h s0) n (e_time h).
Proof.
  intros P Hh Hl Hg. pose proof (tm_advance s0 h P Hh Hl) as Tm.
  destruct (lk_bwd (pi_link P) h (head_in _ _ Hh) Hl) as [n [k [T [En ->]]]].
  cbn [e_time e_elem fentry mk_entry] in Tm |- *. fold (fentry T (nth k (ids s0) 0%nat) n) in Hg |- *.
  rewrite pend_step_fentry in Hg |- *.
  (* everything about the event function, then the function itself out of sight *)
  destruct (fired_prog_world cfg T n (loci s0) (world s0)) as [_ [F [N D]]].
  pose proof (fired_prog_refire cfg T n (loci s0) (world s0)) as RF.
  pose proof (fun sA Hc => sync_fired T (EN n) sA Hc (loci s0) (world s0) n) as SF.
  destruct (fired_prog cfg T (EN n) (loci s0) (world s0)) as [w' acts]. cbn [fst snd] in *.
  set (i := nth k (ids s0) 0%nat) in *.
  set (sA := set_world w' (emit (OHandler prog_fired T T (EN n) None) (set_clock T (set_queue (remove_id i (queue s0)) s0)))) in *.
  destruct (run_actions_frame 0 T (EN n) acts sA) as [C2 [W2 O2]]. change (world sA) with w' in W2.
  cbn [world emit] in Hg. rewrite W2 in Hg.
  (* the state in which the event function runs: n's firing has left the queue, the others are queued *)
  destruct (link_pop _ _ s0 sA i eq_refl eq_refl eq_refl (pi_link P)) as [L1 _].
  destruct (SF sA (Qle_refl T)) as [L2 Pn2 Tm2]; [|exact Hg|].
  { split; [exact L1| |exact Tm]. intros n' Hne.
    apply (pending_keep _ _ s0 sA n k T (pi_link P) En eq_refl (remove_id_keeps i (queue s0)) n' Hne), (pi_pend P). }
  cbn [fst snd] in L2, Pn2, Tm2.
  set (sF := run_actions 0 T (EN n) acts sA) in *.
  destruct (link_ext (pw_ev w') (pw_nposted w') sF (emit (OTap T 0 (NPost prog_fired) (EN n)) sF) eq_refl eq_refl eq_refl) as [XL XP].
  split.
  - split; cbn [world emit out]; rewrite ?W2.
    + exact (XL L2).
    + intros m. exact (XP m (Pn2 m I)).
    + intros m Hm. apply D, (pi_dom P m Hm).
    + unfold lastT. rewrite F. exact Tm2.
    + rewrite F. split; [|exact (pi_sorted P)]. pose proof (proj1 (pi_tm P n k T En)) as H0.
      unfold lastT in H0. destruct (pw_ftimes (world s0)); [exact I|exact H0].
    + rewrite F, N. cbn [length]. f_equal. exact (pi_len P).
    + cbn [taps filter is_tap]. fold (taps (out sF)).
      rewrite O2, F, N. cbn [combine map]. f_equal. exact (pi_taps P).
  - exists n. split; [reflexivity|]. split; cbn [world emit out clock tl]; rewrite ?W2.
    + exact F.
    + exact N.
    + exact C2.
    + reflexivity.
    + exact RF.
Qed.

End Sim.
Arguments pi_link {cfg ub s}. Arguments pi_pend {cfg ub s}. Arguments pi_dom {cfg ub s}. Arguments pi_tm {cfg ub s}.
Arguments pi_sorted {cfg ub s}. Arguments pi_len {cfg ub s}. Arguments pi_taps {cfg ub s}.
Arguments sync_steps cfg ub ub_mono ub_ahead t e s0 clock_s0 {S P A st st'}.
