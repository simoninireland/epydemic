(* C08, strictness under Gillespie dynamics, the part about Model/Kernel.v's state that holds for
   every table and both kernels: the invariant [TS] of the loop head (the loop time never decreases,
   C03: Proofs/KernelTime.v, tinv; every stochastic event function called so far was called no later
   than the loop time, at strictly increasing times) and what runPendingEvents does to it.  The
   loops themselves are in Proofs/KernelDynTime.v. *)
From Coq Require Import List ZArith QArith Bool Arith Lqa Sorted.
From EpyV Require Import Model.Kernel Proofs.KernelBase Proofs.KernelLoops Proofs.KernelMember Proofs.KernelTime
  Proofs.KernelResults Proofs.CompartRun.
Import ListNotations.
Close Scope Q_scope.

Section KS.
Context {W : Type}.
Variable tb : table W.
Variable pf : nat.
Implicit Types s : st W.

(* runPendingEvents: the logarithms are untouched, an exhausted oracle or fuel stays noted, and no
   stochastic event function is called *)
Lemma run_pending_oracle fuel t n s n' s' : run_pending tb fuel t n s = (n', s') ->
  lns s' = lns s /\ (stuck s' = false -> stuck s = false) /\ htimes false (out s') = htimes false (out s).
Proof.
  intros E. pose proof (run_pending_L E) as Hrp.
  split; [eapply run_pendingL_omono; exact Hrp|]. split; [eapply run_pendingL_stuck; exact Hrp|].
  refine (run_pending_inv tb (fun s1 => htimes false (out s1) = htimes false (out s)) _ _ fuel t n s n' s' E eq_refl).
  - intros s1 s2 H1 Hs. rewrite (sched_out Hs). exact H1.
  - intros s1 h H1 _. rewrite after_htimes. exact H1.
Qed.

(* the time invariant of C03 (Proofs/KernelTime.v) across runPendingEvents, in terms of run_pending *)
Lemma tinv_run_pending L fuel t n s n' s' : tinv_st L s -> (L <= t)%Q -> run_pending tb fuel t n s = (n', s') ->
  stuck s' = false -> tinv_st t (set_clock t s').
Proof. intros T Ht E. exact (run_pendingL_tinv_to T Ht (run_pending_L E)). Qed.

Lemma tinv_jump L s h n s' : tinv_st L s -> head (queue (discard s)) = Some h ->
  run_pending tb pf (e_time h) 0 (discard s) = (n, s') -> stuck s' = false -> (L <= e_time h)%Q /\ tinv_st (e_time h) s'.
Proof.
  intros T Eh E Es. split; [|exact (run_pendingL_tinv_head T Eh (run_pending_L E) Es)].
  apply (t_live (tinv_st_discard _ _ T)); [apply head_in; exact Eh | exact (discard_head_live _ _ Eh)].
Qed.

(* the times of the stochastic calls so far: newest first, strictly decreasing, none after t *)
Definition fired_before (t : Q) (o : list obs) : Prop :=
  StronglySorted (fun a b => (b < a)%Q) (htimes false o) /\ Forall (fun u => (u <= t)%Q) (htimes false o).
(* TS t s: at loop time t the time invariant of C03 holds and the stochastic calls so far came at
   strictly increasing times, none after t - unless the run is stuck *)
Definition TS (t : Q) s : Prop :=
  Forall (Qlt 0) (lns s) /\ (stuck s = true \/ (tinv_st t s /\ fired_before t (out s))).

Lemma fired_before_mono t t' o : (t <= t')%Q -> fired_before t o -> fired_before t' o.
Proof. intros Ht [A B]. split; [exact A|]. eapply Forall_impl; [|exact B]. cbn. intros u Hu. lra. Qed.

Lemma setup_TS rs ls ds : Forall (Qlt 0) ls -> TS 0 (setup_state tb rs ls ds).
Proof.
  intros Hls. destruct (setup_state_umoves tb rs ls ds) as [_ [El Est]]. cbn [lns stuck init_state] in El, Est.
  split; [rewrite El; exact Hls|]. right. split.
  - apply setup_tinv.
  - unfold fired_before. rewrite (htimes_act _ _ (proj1 (setup_state_out tb rs ls ds))). split; constructor.
Qed.

End KS.
