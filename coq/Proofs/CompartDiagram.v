(* C07: well-formed shipped-model tables, their transition diagram, and what every call of an
   event function entered from the scheduler does to the compartments (partition, arrow of the
   diagram, infection through an infectious edge, posting of the fixed-delay removal,
   quiescence).  All per-call statements are about a call [CEv x t e] that satisfies
   [call_ok] on a state satisfying the run invariant [J] (Proofs/CompartInv.v); Proofs/
   CompartRun.v shows that every call of either scheduler is of that form. *)
From Coq Require Import List ZArith QArith Bool Arith Lia Lqa.
From EpyV Require Import Lib.Prelude Lib.Lists Lib.Dist Model.Kernel Model.Loci Model.Compart
  Proofs.KernelBase Proofs.KernelLoops Proofs.KernelRelabel Proofs.GillespieSelect Proofs.GillespieRates Proofs.KernelMember Proofs.LociBase Proofs.LociLocus
  Proofs.CompartRun Proofs.CompartSort Proofs.CompartInv.
Import ListNotations.
Close Scope Q_scope.

Definition locus_left (sp : spec) : Z :=
  match sp with NodeLocus c => c | EdgeLocus l _ => l | MultiEdgeLocus l _ => l end.

(* a node event function sits on a node locus, an edge event function on an edge locus *)
Definition kind_fits (sp : spec) (h : hkind) : bool :=
  match h, sp with
  | HNode _, NodeLocus _ => true
  | HLeft _ _ _, EdgeLocus _ _ => true
  | HLeft _ _ _, MultiEdgeLocus _ _ => true
  | HNop, _ => true
  | _, _ => false
  end.

Definition posted_node_prog (cm : cmodel) (k : nat) : bool :=
  match nth_error (cm_kinds cm) k with Some (HNode _) => true | _ => false end.

Definition wf_kind_post (cm : cmodel) (h : hkind) : bool :=
  match h with
  | HLeft _ _ (Some (T, k)) => Qle_bool 0 T && posted_node_prog cm k
  | _ => true
  end.

Definition wf_event (cm : cmodel) (ev : cevent) : bool :=
  (ce_locus ev <? length (cm_specs cm))
  && kind_fits (nth (ce_locus ev) (cm_specs cm) default_spec) (ce_kind ev)
  && wf_kind_post cm (ce_kind ev).

(* events refer to existing loci of the right sort; posted programs exist, are node event functions
   and are posted with a non-negative delay; the loci table is well formed (C01); the equilibrium
   test reads existing loci; every target compartment is a compartment of the model (the last
   holds by the definition of cm_comps) *)
Definition wf_model (cm : cmodel) : bool :=
  wf_loci (cm_specs cm)
  && forallb (wf_event cm) (cm_events cm)
  && forallb (fun h => match h with HNode _ => true | _ => false end) (cm_extra cm)
  && match cm_seed_post cm with
     | Some (c, T, k) => Qle_bool 0 T && posted_node_prog cm k && zmem c (cm_comps cm)
     | None => true
     end
  && forallb (fun i => i <? length (cm_specs cm)) (cm_equil cm)
  && forallb (fun h => forallb (fun c => zmem c (cm_comps cm)) (kind_target h)) (cm_kinds cm).

Lemma wf_model_loci cm : wf_model cm = true -> wf_loci (cm_specs cm) = true.
Proof. unfold wf_model. rewrite !andb_true_iff. tauto. Qed.

Lemma wf_model_event cm ev : wf_model cm = true -> In ev (cm_events cm) ->
  ce_locus ev < length (cm_specs cm)
  /\ kind_fits (nth (ce_locus ev) (cm_specs cm) default_spec) (ce_kind ev) = true
  /\ wf_kind_post cm (ce_kind ev) = true.
Proof.
  unfold wf_model. rewrite !andb_true_iff. intros [[[[[_ H] _] _] _] _] Hin.
  rewrite forallb_forall in H. specialize (H ev Hin). unfold wf_event in H. rewrite !andb_true_iff in H.
  destruct H as [[H1 H2] H3]. apply Nat.ltb_lt in H1. tauto.
Qed.

Fixpoint pnodup (l : list (Z * Z)) : list (Z * Z) :=
  match l with
  | [] => []
  | x :: t => if existsb (zpair_eqb x) t then pnodup t else x :: pnodup t
  end.

Lemma pnodup_In x l : In x (pnodup l) <-> In x l.
Proof.
  induction l as [|y t IH]; cbn [pnodup In]; [tauto|].
  destruct (existsb (zpair_eqb y) t) eqn:E.
  - rewrite IH. split; [tauto|]. intros [<-|H]; [|exact H].
    apply existsb_exists in E. destruct E as [z [Hz Ez]]. apply zpair_eqb_iff in Ez. subst z. exact Hz.
  - cbn [In]. rewrite IH. tauto.
Qed.

(* an HNode c event on NodeLocus l contributes l -> c; an HLeft c event on EdgeLocus l r or
   MultiEdgeLocus l rs contributes l -> c *)
Definition event_arrow (cm : cmodel) (ev : cevent) : list (Z * Z) :=
  let l := locus_left (nth (ce_locus ev) (cm_specs cm) default_spec) in
  match ce_kind ev with
  | HNode c => [(l, c)]
  | HLeft c _ _ => [(l, c)]
  | _ => []
  end.

(* a posted node event function HNode c' reached from an infection into c (or from the seeds in c) contributes c -> c' *)
Definition post_arrow (cm : cmodel) (c : Z) (k : nat) : list (Z * Z) :=
  match nth_error (cm_kinds cm) k with Some (HNode c') => [(c, c')] | _ => [] end.

Definition posted_arrows (cm : cmodel) : list (Z * Z) :=
  flat_map (fun ev => match ce_kind ev with HLeft c _ (Some (_, k)) => post_arrow cm c k | _ => [] end) (cm_events cm)
  ++ match cm_seed_post cm with Some (c, _, k) => post_arrow cm c k | None => [] end.

Definition diagram (cm : cmodel) : list (Z * Z) :=
  pnodup (flat_map (event_arrow cm) (cm_events cm) ++ posted_arrows cm).

Lemma znodup_NoDup l : NoDup (znodup l).
Proof.
  induction l as [|x t IH]; cbn [znodup]; [constructor|].
  destruct (zmem x t) eqn:E; [exact IH|]. constructor; [|exact IH].
  intros H. apply (proj1 (znodup_In x t)) in H. apply (proj2 (zmem_In x t)) in H. congruence.
Qed.

Fixpoint lsum (l : list nat) : nat := match l with [] => 0 | x :: t => x + lsum t end.

Lemma lsum_list_sum l : lsum l = list_sum l.
Proof. induction l as [|x l IH]; [reflexivity|]. cbn [lsum]. rewrite IH. reflexivity. Qed.

(* the sizes results() reports ([count_in], one per compartment) sum to the number of nodes *)
Lemma counts_sum s comps : NoDup comps ->
  (forall v, In v (st_nodes s) -> exists c, getc s v = Some c /\ In c comps) ->
  lsum (map (count_in s) comps) = length (st_nodes s).
Proof.
  intros Hnd. rewrite lsum_list_sum. unfold count_in, nodes_in. induction (st_nodes s) as [|v vs IH]; intros H.
  - cbn [filter length]. clear. induction comps as [|c comps IHc]; [reflexivity | exact IHc].
  - destruct (H v (or_introl eq_refl)) as [c0 [E Hc]].
    rewrite (map_ext _ (fun c => (if Z.eqb c0 c then 1 else 0)
               + length (filter (fun v0 => match getc s v0 with Some x => Z.eqb x c | None => false end) vs))).
    + rewrite list_sum_map_add, (list_sum_indicator c0 comps Hnd Hc), IH; [reflexivity|].
      intros u Hu. apply H. right. exact Hu.
    + intros c. cbn [filter]. rewrite E. destruct (Z.eqb c0 c); reflexivity.
Qed.

Definition mk_ev (j : nat) (cev : cevent) : event :=
  {| ev_elem := ce_elem cev; ev_locus := ce_locus cev; ev_p := ce_p cev; ev_prog := j |}.

Section CD.
Variable cm : cmodel.
Variables (nodes : list Z) (edges : list (Z * Z)) (init : list (Z * Z)) (maxtime : Q) (monitor : option Q).
Let tb := mk_table cm nodes edges init maxtime monitor.
Let JJ := J cm nodes edges.

Definition mpi : nat := match monitor with Some _ => 1 | None => 0 end.

Lemma all_events_mk pi j ev : In (pi, j, ev) (all_events tb) <->
  pi = mpi /\ exists cev, nth_error (cm_events cm) j = Some cev /\ ev = mk_ev j cev.
Proof.
  assert (E : all_events tb = index_events mpi 0 (map (fun x => mk_ev (fst x) (snd x)) (combine (seq 0 (length (cm_events cm))) (cm_events cm)))).
  { unfold all_events, tb, mk_table, mpi. cbn [t_procs]. destruct monitor; cbn [all_events_from p_events index_events app]; apply app_nil_r. }
  rewrite E, index_events_in. split.
  - intros (j0 & e & [= -> -> ->] & Ev). rewrite nth_error_indexed in Ev. split; [reflexivity|].
    destruct (nth_error (cm_events cm) j0) as [cev|]; [|discriminate]. injection Ev as <-. eauto.
  - intros (-> & cev & Ec & ->). exists j, (mk_ev j cev). split; [reflexivity|]. rewrite nth_error_indexed, Ec. reflexivity.
Qed.

Lemma event_kind j cev : nth_error (cm_events cm) j = Some cev -> nth_error (cm_kinds cm) j = Some (ce_kind cev).
Proof.
  intros E. unfold cm_kinds. rewrite nth_error_app1.
  - rewrite nth_error_map, E. reflexivity.
  - rewrite map_length. apply nth_error_Some. congruence.
Qed.

Lemma locus_ksort (s : st cworld) li : JJ s -> locus s li = ksort (nth li (st_loci (cw_st (world s))) []).
Proof.
  intros H. unfold locus. rewrite (J_loci H). change (@nil Kernel.elem) with (ksort []). apply map_nth.
Qed.

Lemma member_truth (s : st cworld) li e : JJ s -> li < length (cm_specs cm) -> mem e (locus s li) = true ->
  exists x, e = kelem x /\ truthP (nth li (cm_specs cm) default_spec) (cw_st (world s)) x.
Proof.
  intros H Hli Hm. rewrite (locus_ksort s li H) in Hm. apply mem_In, ksort_In, in_map_iff in Hm.
  destruct Hm as [x [<- Hx]]. exists x. split; [reflexivity|].
  destruct (J_locus H Hli) as [_ [Hs _]]. apply Hs, Hx.
Qed.

Lemma event_call (s : st cworld) x t e : wf_model cm = true -> JJ s -> call_ok tb (CEv x t e) s ->
  exists j cev le, x = (mpi, j, mk_ev j cev) /\ nth_error (cm_events cm) j = Some cev /\ In cev (cm_events cm)
    /\ e = kelem le /\ truthP (nth (ce_locus cev) (cm_specs cm) default_spec) (cw_st (world s)) le
    /\ clock s = t
    /\ world (after tb (CEv x t e) s) = fst (handler (cm_specs cm) 0 (ce_kind cev) t e (loci s) (world s)).
Proof.
  intros Hwf Hj (Hx & Hm & Hc). destruct x as [[pi j] ev]. apply all_events_mk in Hx.
  destruct Hx as [-> [cev [E ->]]]. pose proof (nth_error_In _ _ E) as Hin.
  destruct (wf_model_event cm cev Hwf Hin) as (Hli & _ & _).
  cbn [snd mk_ev ev_locus] in Hm. destruct (member_truth s _ e Hj Hli Hm) as [le [He Ht]].
  exists j, cev, le. repeat split; try assumption.
  pose proof (after_lw tb (CEv (mpi, j, mk_ev j cev) t e) s) as A. cbn [call_args snd mk_ev ev_prog] in A.
  destruct A as [_ A]. rewrite A. unfold tb. rewrite prog_of_kind, (event_kind j cev E). reflexivity.
Qed.

Definition right_ok (sp : spec) (s : Loci.state) (m : Z) : Prop :=
  match sp with
  | NodeLocus _ => False
  | EdgeLocus _ r => getc s m = Some r
  | MultiEdgeLocus _ rs => exists r, getc s m = Some r /\ In r rs
  end.

Lemma truthP_edge_facts sp s n m : truthP sp s (E n m) ->
  adj s n m /\ getc s n = Some (locus_left sp) /\ right_ok sp s m.
Proof.
  destruct sp as [c|l r|l rs]; cbn [truthP locus_left right_ok]; [intros []|rewrite qual_true; tauto..].
Qed.

Lemma truthP_node_facts sp s n : truthP sp s (N n) -> In n (st_nodes s) /\ getc s n = Some (locus_left sp).
Proof. destruct sp as [c|l r|l rs]; cbn [truthP locus_left]; [tauto | intros [] | intros []]. Qed.

(* at a call of an edge event function the element (n, m) is an edge of the network, n is in the
   left compartment and m in (one of) the right one(s), at that very moment *)
Theorem through_infectious_edge (s : st cworld) x t e : wf_model cm = true -> JJ s -> call_ok tb (CEv x t e) s ->
  forall j cev c mark post, x = (mpi, j, mk_ev j cev) -> nth_error (cm_events cm) j = Some cev ->
  ce_kind cev = HLeft c mark post ->
  let sp := nth (ce_locus cev) (cm_specs cm) default_spec in
  let st := cw_st (world s) in
  exists n m, e = EE n m /\ (In (n, m) edges \/ In (m, n) edges)
    /\ getc st n = Some (locus_left sp) /\ right_ok sp st m.
Proof.
  intros Hwf Hj Hok j cev c mark post Ex En Ek. cbv zeta.
  destruct (event_call s x t e Hwf Hj Hok) as (j' & cev' & le & Ex' & En' & Hin & He & Ht & _).
  rewrite Ex in Ex'. inversion Ex'; subst j'. rewrite En in En'. inversion En'; subst cev'.
  destruct (wf_model_event cm cev Hwf Hin) as (_ & Hfit & _). rewrite Ek in Hfit.
  destruct le as [v|n m].
  - exfalso. destruct (nth (ce_locus cev) (cm_specs cm) default_spec); cbn in Hfit, Ht; [discriminate | exact Ht | exact Ht].
  - exists n, m. split; [exact He|]. destruct (truthP_edge_facts _ _ n m Ht) as (Ha & Hl & Hr).
    split; [|split; assumption]. apply adjb_spec in Ha.
    rewrite (J_edges Hj) in Ha. exact Ha.
Qed.

Lemma call_moves (s : st cworld) x t e : wf_model cm = true -> JJ s -> call_ok tb (CEv x t e) s ->
  exists j cev, x = (mpi, j, mk_ev j cev) /\ nth_error (cm_events cm) j = Some cev /\ In cev (cm_events cm)
    /\ world (after tb (CEv x t e) s) = fst (handler (cm_specs cm) 0 (ce_kind cev) t e (loci s) (world s))
    /\ forall n c, moved (ce_kind cev) e = Some (n, c) ->
         let l := locus_left (nth (ce_locus cev) (cm_specs cm) default_spec) in
         getc (cw_st (world s)) n = Some l /\ getc_raises (cw_st (world s)) n = false /\ In (l, c) (event_arrow cm cev).
Proof.
  intros Hwf Hj Hok.
  destruct (event_call s x t e Hwf Hj Hok) as (j & cev & le & Ex & En & Hin & He & Ht & _ & Hw).
  exists j, cev. split; [exact Ex|]. split; [exact En|]. split; [exact Hin|]. split; [exact Hw|].
  intros n c M. cbv zeta.
  assert (Hgok : forall a b, adj (cw_st (world s)) a b -> In a (st_nodes (cw_st (world s)))).
  { intros a b Ha. apply adjb_spec in Ha. rewrite (J_edges Hj) in Ha. rewrite (J_nodes Hj).
    destruct Ha as [Ha|Ha]; apply (J_edge_nodes Hj) in Ha; tauto. }
  unfold event_arrow. destruct (ce_kind cev) as [c1|c1 mark post| |] eqn:Ek; destruct e as [n1|n1 m1]; cbn in M; try discriminate;
    inversion M; subst n1 c1.
  - destruct le as [u|u w]; cbn in He; inversion He; subst u. destruct (truthP_node_facts _ _ n Ht) as [A B].
    split; [exact B|]. split; [exact (getc_some_noraise _ _ _ A B) | left; reflexivity].
  - destruct le as [u|u w]; cbn in He; inversion He; subst u w. destruct (truthP_edge_facts _ _ n m1 Ht) as (A & B & _).
    split; [exact B|]. split; [exact (getc_some_noraise _ _ _ (Hgok _ _ A) B) | left; reflexivity].
Qed.

(* every compartment change made by the call is an arrow of the diagram; nothing else changes *)
Theorem call_diagram (s : st cworld) x t e : wf_model cm = true -> JJ s -> call_ok tb (CEv x t e) s ->
  forall v, getc (cw_st (world (after tb (CEv x t e) s))) v <> getc (cw_st (world s)) v ->
  exists l c, getc (cw_st (world s)) v = Some l /\ getc (cw_st (world (after tb (CEv x t e) s))) v = Some c
    /\ In (l, c) (diagram cm).
Proof.
  intros Hwf Hj Hok v. destruct (call_moves s x t e Hwf Hj Hok) as (j & cev & _ & _ & Hin & -> & Hmv).
  rewrite handler_getc. destruct (moved (ce_kind cev) e) as [[n c]|]; [|congruence].
  destruct (Hmv n c eq_refl) as (Hl & -> & Ha). destruct (Z.eqb_spec v n) as [->|_]; [intros _|congruence].
  eexists _, c. split; [exact Hl|]. split; [reflexivity|]. apply pnodup_In, in_app_iff. left. apply in_flat_map. exists cev. split; assumption.
Qed.

Definition loci_only (a : action) : Prop := match a with ALAdd _ _ | ALDiscard _ _ => True | _ => False end.

Lemma sync_from_loci_only i old new : Forall loci_only (sync_from i old new).
Proof.
  revert i old. induction new as [|n new IH]; intros i old; cbn [sync_from]; [constructor|].
  apply Forall_app. split; [|apply Forall_app; split; [|apply IH]];
    apply Forall_forall; intros a Ha; apply in_map_iff in Ha; destruct Ha as [y [<- _]]; exact I.
Qed.

(* actions that leave clock and queue alone *)
Definition quiet (a : action) : Prop := match a with ALAdd _ _ | ALDiscard _ _ | AObserve => True | _ => False end.

Lemma run_quiet {W} p t e acts (s : st W) : Forall quiet acts ->
  let s' := run_actions p t e acts s in clock s' = clock s /\ nextid s' = nextid s /\ queue s' = queue s.
Proof.
  intros H. refine (user_actions (fun _ s' => clock s' = clock s /\ nextid s' = nextid s /\ queue s' = queue s) quiet _ p t e acts s H
                      (conj eq_refl (conj eq_refl eq_refl))).
  intros q u e0 a s1 Ha (I1 & I2 & I3). rewrite <- I1, <- I2, <- I3. destruct a; cbn in Ha; try contradiction; repeat split.
Qed.

Lemma sync_actions_quiet off kl new : Forall quiet (sync_actions off kl new).
Proof.
  unfold sync_actions. eapply Forall_impl; [|apply sync_from_loci_only].
  intros a Ha. destruct a; cbn in Ha; try contradiction; exact I.
Qed.

(* an infection event function with fixed recovery, entered at time t on (n, m): right after it
   the queue holds a fresh live one-shot entry for node n, program k, due at t + T, and the
   posting is recorded in the output (so C04 applies to it) *)
Theorem fixed_recovery_posts (s : st cworld) t j cev c mark T k n m : let x := (mpi, j, mk_ev j cev) in let e := EE n m in
  wf_model cm = true -> JJ s -> call_ok tb (CEv x t e) s -> nth_error (cm_events cm) j = Some cev ->
  ce_kind cev = HLeft c mark (Some (T, k)) ->
  let s' := after tb (CEv x t e) s in
  let y := {| e_time := Qred (t + T); e_id := nextid s; e_live := true; e_proc := mpi; e_elem := EN n; e_prog := k; e_rep := None |} in
  (0 <= T)%Q /\ posted_node_prog cm k = true /\ queue s' = y :: queue s /\ nextid s' = S (nextid s)
  /\ exists l, out s' = OTap t mpi (NEv mpi j) e :: OPosted (nextid s) (Qred (t + T)) :: l ++ out s.
Proof.
  cbv zeta. intros Hwf Hj Hok En Ek.
  assert (Hin : In cev (cm_events cm)) by (eapply nth_error_In; exact En).
  destruct (wf_model_event cm cev Hwf Hin) as (_ & _ & Hp). rewrite Ek in Hp. cbn [wf_kind_post] in Hp.
  apply andb_true_iff in Hp. destruct Hp as [HT Hk]. apply Qle_bool_iff in HT.
  split; [exact HT|]. split; [exact Hk|].
  destruct Hok as (_ & _ & Hc). rewrite after_ev. unfold ran, run_prog. cbn [call_args call_proc entered fst snd mk_ev ev_prog ev_locus].
  unfold tb at 1 2 3. rewrite prog_of_kind, (event_kind j cev En), Ek.
  set (s1 := emit _ s). cbn [handler].
  set (s'' := fst (change_compartment (cm_specs cm) (cw_st (world s1)) n c)).
  set (w' := if mark then _ else _).
  unfold run_actions. rewrite fold_left_app. fold (run_actions mpi t (EE n m) (sync_actions 0 (loci s1) (st_loci s'')) (set_world w' s1)).
  destruct (run_quiet mpi t (EE n m) _ (set_world w' s1) (sync_actions_quiet 0 (loci s1) (st_loci s''))) as (R1 & R2 & R3).
  destruct (run_actions_spec mpi t (EE n m) (sync_actions 0 (loci s1) (st_loci s'')) (set_world w' s1)) as [_ [l [R4 _]]].
  set (s2 := run_actions _ _ _ _ _) in *. cbn [clock nextid queue out set_world] in R1, R2, R3, R4.
  cbn [fold_left do_action]. unfold post. rewrite R1.
  assert (Hq : Qltb (Qred (t + T)) (clock s1) = false).
  { apply Qltb_false. unfold s1. cbn [clock emit]. rewrite Hc, Qred_correct. lra. }
  rewrite Hq. cbn [emit push_id queue nextid out]. rewrite R2, R3, R4.
  split; [reflexivity|]. split; [reflexivity|]. exists (l ++ [OHandler j t (clock s) (EE n m) (Some (mem (EE n m) (locus s (ce_locus cev))))]).
  rewrite <- app_assoc. reflexivity.
Qed.

(* when the total rate is zero (the branch a = 0 of the Gillespie loop) every per-element event
   of positive probability has an empty locus, hence nothing qualifies for it *)
Theorem quiescent (s : st cworld) : wf_model cm = true -> JJ s ->
  (forall ev, In ev (cm_events cm) -> (0 <= ce_p ev)%Q) ->
  Qeq_bool (sum_rates s (transitions tb)) 0 = true ->
  forall cev, In cev (cm_events cm) -> ce_elem cev = true -> (0 < ce_p cev)%Q ->
  forall x, ~ truthP (nth (ce_locus cev) (cm_specs cm) default_spec) (cw_st (world s)) x.
Proof.
  intros Hwf Hj Hnn Hz cev Hin Hel Hp x Hx.
  apply Qeq_bool_iff in Hz. rewrite sum_rates_sumf in Hz.
  destruct (In_nth_error _ _ Hin) as [j Ej].
  assert (Hall : In (mpi, j, mk_ev j cev) (all_events tb)) by (apply all_events_mk; split; [reflexivity|]; exists cev; split; [exact Ej | reflexivity]).
  assert (Htr : In (mpi, j, mk_ev j cev) (transitions tb)).
  { unfold transitions. apply in_app_iff. left. unfold per_element. apply filter_In. split; [exact Hall | exact Hel]. }
  assert (Hr : (Kernel.rate s (mpi, j, mk_ev j cev) == 0)%Q).
  { apply (sumf_zero_inv (Kernel.rate s) (transitions tb)); [|exact Hz | exact Htr].
    intros y Hy. apply rate_nonneg. apply transitions_in in Hy. destruct y as [[pi' j'] ev']. apply all_events_mk in Hy.
    destruct Hy as [_ [cev' [E' ->]]]. cbn [snd mk_ev ev_p]. apply Hnn. eapply nth_error_In. exact E'. }
  pose proof (rate_zero_empty _ s (mpi, j, mk_ev j cev) Hel Hp Hr : locus s (ce_locus cev) = []) as Hl.
  destruct (wf_model_event cm cev Hwf Hin) as (Hli & _ & _).
  rewrite (locus_ksort s _ Hj) in Hl. apply ksort_nil_iff in Hl.
  destruct (J_locus Hj Hli) as (_ & _ & Hc). rewrite Hl in Hc.
  destruct (Hc x Hx) as [[]|[]].
Qed.

Theorem partition (s : st cworld) : JJ s ->
  let st := cw_st (world s) in
  st_nodes st = nodes /\ st_edges st = edges
  /\ (forall v, In v nodes -> exists c, getc st v = Some c /\ In c (cm_comps cm))
  /\ NoDup (cm_comps cm)
  /\ lsum (map (count_in st) (cm_comps cm)) = length nodes.
Proof.
  intros Hj. pose proof (J_nodes Hj) as Hn. pose proof (fun v => J_comp v Hj) as Hg. cbv zeta.
  split; [exact Hn|]. split; [exact (J_edges Hj)|]. split; [exact Hg|].
  split; [apply znodup_NoDup|]. rewrite <- Hn. apply counts_sum; [apply znodup_NoDup|]. rewrite Hn. exact Hg.
Qed.

End CD.

Arguments event_call {cm nodes edges init maxtime monitor}.
Arguments call_moves {cm nodes edges init maxtime monitor}.
Arguments call_diagram {cm nodes edges init maxtime monitor}.
Arguments fixed_recovery_posts {cm nodes edges init maxtime monitor}.
Arguments quiescent {cm nodes edges init maxtime monitor}.
