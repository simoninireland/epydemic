(* C04: the abstract queue.  [absq q] is the list of LIVE entries of the heap q sorted by
   (time, id); posting a live entry is sorted insertion, removing an id is filtering it out,
   discarding dead heads changes nothing; [live_kill] is what [kill] does to the live entries
   (un-post, head and pop are assembled from these in Properties/C04.v). *)
From Coq Require Import List ZArith QArith Qabs Bool Arith Lia Lqa Sorted Permutation.
From EpyV Require Import Lib.Lists Model.Kernel Proofs.KernelBase.
Import ListNotations.
Open Scope Q_scope.

Fixpoint insert (x : entry) (l : list entry) : list entry :=
  match l with
  | [] => [x]
  | y :: l' => if before x y then x :: l else y :: insert x l'
  end.
Definition isort (l : list entry) : list entry := fold_right insert [] l.
Definition absq (q : list entry) : list entry := isort (filter e_live q).

(* ascending: no later element is before an earlier one *)
Definition asc : list entry -> Prop := StronglySorted (fun a b => before b a = false).
Definition id_not (i : nat) (x : entry) : bool := negb (e_id x =? i)%nat.

Lemma insert_perm x l : Permutation (insert x l) (x :: l).
Proof.
  induction l as [|y l IH]; cbn; [apply Permutation_refl|].
  destruct (before x y); [apply Permutation_refl|].
  eapply perm_trans; [apply perm_skip, IH|apply perm_swap].
Qed.

Lemma isort_perm l : Permutation (isort l) l.
Proof.
  induction l as [|x l IH]; cbn; [constructor|].
  eapply perm_trans; [apply insert_perm|apply perm_skip, IH].
Qed.

Lemma absq_in q x : In x (absq q) <-> In x q /\ e_live x = true.
Proof.
  unfold absq. rewrite <- filter_In. split; apply Permutation_in; [|apply Permutation_sym]; apply isort_perm.
Qed.

Lemma insert_asc x l : asc l -> asc (insert x l).
Proof.
  induction 1 as [|y l Hs IH Hf]; cbn; [constructor; constructor|].
  destruct (before x y) eqn:E.
  - constructor; [constructor; assumption|]. constructor; [apply before_asym, E|].
    rewrite Forall_forall in *. intros z Hz. specialize (Hf z Hz).
    destruct (before z x) eqn:E2; [|reflexivity]. rewrite (before_trans _ _ _ E2 E) in Hf. discriminate.
  - constructor; [exact IH|]. rewrite Forall_forall in *. intros z Hz.
    apply (Permutation_in _ (insert_perm x l)) in Hz. destruct Hz as [<-|Hz]; [exact E|auto].
Qed.

Lemma isort_asc l : asc (isort l).
Proof. induction l as [|x l IH]; cbn; [constructor|apply insert_asc, IH]. Qed.

Lemma absq_asc q : asc (absq q).
Proof. apply isort_asc. Qed.

Lemma absq_ids_NoDup q : NoDup (map e_id q) -> NoDup (map e_id (absq q)).
Proof.
  intros H. unfold absq. eapply Permutation_NoDup; [apply Permutation_map, Permutation_sym, isort_perm|].
  induction q as [|x q IH]; cbn; [constructor|]. inversion H as [|? ? Hn Hd]; subst.
  destruct (e_live x); [|auto]. cbn. constructor; [|auto].
  intros Hi. apply Hn. apply in_map_iff in Hi. destruct Hi as [z [Hz Hi]]. apply filter_In in Hi.
  apply in_map_iff. exists z. split; [exact Hz|apply Hi].
Qed.

Lemma insert_head x l : (forall z, In z l -> before x z = true) -> insert x l = x :: l.
Proof. destruct l as [|y l]; cbn; [reflexivity|]. intros H. rewrite (H y (or_introl eq_refl)). reflexivity. Qed.

Lemma filter_insert p x l : asc l ->
  filter p (insert x l) = if p x then insert x (filter p l) else filter p l.
Proof.
  induction 1 as [|y l Hs IH Hf]; cbn; [destruct (p x); reflexivity|].
  destruct (before x y) eqn:E; cbn.
  - destruct (p x) eqn:Px; [|reflexivity]. symmetry. destruct (p y); [cbn; rewrite E; reflexivity|].
    apply insert_head. intros z Hz. apply filter_In in Hz. destruct Hz as [Hz _].
    rewrite Forall_forall in Hf. specialize (Hf z Hz).
    destruct (before x z) eqn:E2; [reflexivity|]. exfalso.
    (* z <= x < y and y <= z *) rewrite (before_negtrans _ _ _ E2 Hf) in E. discriminate.
  - rewrite IH. destruct (p x), (p y); cbn; try rewrite E; reflexivity.
Qed.

Lemma filter_isort p l : filter p (isort l) = isort (filter p l).
Proof.
  induction l as [|x l IH]; [reflexivity|]. change (isort (x :: l)) with (insert x (isort l)).
  rewrite filter_insert; [|apply isort_asc]. rewrite IH. cbn [filter]. destruct (p x); reflexivity.
Qed.

Lemma filter_comm {A} (p r : A -> bool) l : filter p (filter r l) = filter r (filter p l).
Proof. induction l as [|x l IH]; cbn; [reflexivity|]. destruct (p x) eqn:P, (r x) eqn:R; cbn; rewrite ?P, ?R, IH; reflexivity. Qed.

Lemma remove_id_filter i q : NoDup (map e_id q) -> remove_id i q = filter (id_not i) q.
Proof.
  induction q as [|x q IH]; cbn; intros H; [reflexivity|]. inversion H as [|? ? Hn Hd]; subst.
  unfold id_not at 1. destruct (Nat.eqb_spec (e_id x) i) as [E|E]; cbn.
  - symmetry. apply filter_all. intros y Hy. unfold id_not. destruct (Nat.eqb_spec (e_id y) i) as [E2|E2]; [|reflexivity].
    exfalso. apply Hn. rewrite E, <- E2. apply in_map, Hy.
  - rewrite IH; auto.
Qed.

Lemma live_kill i q : filter e_live (kill i q) = filter (id_not i) (filter e_live q).
Proof.
  induction q as [|x q IH]; [reflexivity|].
  change (kill i (x :: q)) with ((if (e_id x =? i)%nat then dead x else x) :: kill i q).
  cbn [filter]. destruct (Nat.eqb_spec (e_id x) i) as [E|E].
  - cbn [e_live dead]. rewrite IH. destruct (e_live x); [|reflexivity]. cbn [filter].
    unfold id_not at 2. rewrite E, Nat.eqb_refl. reflexivity.
  - rewrite IH. destruct (e_live x); [|reflexivity]. cbn [filter]. unfold id_not at 2.
    destruct (Nat.eqb_spec (e_id x) i); [contradiction|reflexivity].
Qed.

Lemma absq_post x q : e_live x = true -> absq (x :: q) = insert x (absq q).
Proof. intros H. unfold absq. cbn. rewrite H. reflexivity. Qed.

Lemma absq_remove i q : NoDup (map e_id q) -> absq (remove_id i q) = filter (id_not i) (absq q).
Proof. intros H. unfold absq. rewrite (remove_id_filter i q H), filter_comm, filter_isort. reflexivity. Qed.

Lemma absq_discard f q : NoDup (map e_id q) -> absq (discard_dead f q) = absq q.
Proof.
  intros H. refine (proj2 (discard_dead_ind (fun q' => NoDup (map e_id q') /\ absq q' = absq q) _ f q (conj H eq_refl))).
  intros q' h Hh Hd [Hn <-]. split; [apply remove_id_NoDup, Hn|].
  rewrite (absq_remove _ _ Hn). apply filter_all.
  intros x Hx. apply absq_in in Hx. destruct Hx as [Hx Hl]. unfold id_not.
  destruct (Nat.eqb_spec (e_id x) (e_id h)) as [E|E]; [|reflexivity]. exfalso.
  rewrite (NoDup_id_inj q' x h Hn Hx (head_in _ _ Hh) E) in Hl. congruence.
Qed.
