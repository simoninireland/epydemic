(* Facts about Model/Pulse.v that do not involve the kernel state: the event map, the oracle,
   the clamp of normalisePhase (C20_phase_range), and the shape of every program as a sequence
   of elementary steps (oracle requests, changes of the bumping/bumped sets, setFiringTime). *)
From Coq Require Import List ZArith QArith Qabs Bool Arith Lia Lqa.
From EpyV Require Import Lib.Prelude Model.Kernel Model.Pulse Proofs.KernelBase.
Import ListNotations.
Open Scope Q_scope.

Lemma clamp01_range r : 0 <= clamp01 r /\ clamp01 r <= 1.
Proof.
  unfold clamp01, pymax, pymin.
  destruct (Qltb 1 r) eqn:E1.
  - destruct (Qltb 1 0) eqn:E2; [apply Qltb_true in E2; lra|]. lra.
  - apply Qltb_false in E1. destruct (Qltb r 0) eqn:E2.
    + lra.
    + apply Qltb_false in E2. lra.
Qed.

Lemma clamp01_fix r : 0 <= r -> r <= 1 -> clamp01 r = r.
Proof.
  intros H0 H1. unfold clamp01, pymax, pymin.
  destruct (Qltb 1 r) eqn:E1; [apply Qltb_true in E1; lra|].
  destruct (Qltb r 0) eqn:E2; [apply Qltb_true in E2; lra|]. reflexivity.
Qed.

(* a phase that rounds to 1 is "already synchronised" *)
Lemma clamp01_one r : r == 1 -> is01 (clamp01 r) = true.
Proof.
  intros H. rewrite clamp01_fix by lra.
  unfold is01. apply orb_true_iff. left. apply Qeq_bool_iff. exact H.
Qed.

(* the event map on its own, so that statements can speak of it without a user state around it:
   [ev_of w] is [ev_look (pw_ev w)] and [set_ev] updates with [upd_ev] (ev_of_look, set_ev_ev) *)
Definition ev_look (m : list (Z * (nat * Q))) (n : Z) : option (nat * Q) :=
  match find (fun p => Z.eqb (fst p) n) m with Some p => Some (snd p) | None => None end.
Definition upd_ev (n : Z) (v : nat * Q) (m : list (Z * (nat * Q))) : list (Z * (nat * Q)) :=
  (n, v) :: filter (fun p => negb (Z.eqb (fst p) n)) m.

Lemma ev_of_look w n : ev_of w n = ev_look (pw_ev w) n.
Proof. reflexivity. Qed.
Lemma set_ev_ev n v w : pw_ev (set_ev n v w) = upd_ev n v (pw_ev w).
Proof. reflexivity. Qed.

Lemma look_upd_same n v m : ev_look (upd_ev n v m) n = Some v.
Proof. unfold ev_look, upd_ev. cbn. rewrite Z.eqb_refl. reflexivity. Qed.

Lemma look_upd_other n v m n' : n' <> n -> ev_look (upd_ev n v m) n' = ev_look m n'.
Proof.
  intros Hne. unfold ev_look, upd_ev. cbn [find fst].
  destruct (Z.eqb_spec n n') as [E|_]; [congruence|].
  induction m as [|p m IH]; cbn; [reflexivity|].
  destruct (Z.eqb_spec (fst p) n) as [E|E]; cbn.
  - destruct (Z.eqb_spec (fst p) n') as [E'|_]; [congruence|]. exact IH.
  - destruct (Z.eqb (fst p) n'); [reflexivity|exact IH].
Qed.

Lemma ev_of_set_ev_same n v w : ev_of (set_ev n v w) n = Some v.
Proof. apply look_upd_same. Qed.
Lemma ev_of_set_ev_other n v w m : m <> n -> ev_of (set_ev n v w) m = ev_of w m.
Proof. apply look_upd_other. Qed.

(* changes that leave the scheduling state alone *)
Record wsame (w w' : pworld) : Prop := {
  ws_ev : pw_ev w' = pw_ev w; ws_np : pw_nposted w' = pw_nposted w;
  ws_ft : pw_ftimes w' = pw_ftimes w; ws_fn : pw_fnodes w' = pw_fnodes w;
  ws_bg : pw_bumping w' = pw_bumping w; ws_bd : pw_bumped w' = pw_bumped w;
  ws_rq : exists l, pw_reqs w' = l ++ pw_reqs w }.
Arguments ws_ev {w w'}. Arguments ws_np {w w'}. Arguments ws_ft {w w'}. Arguments ws_fn {w w'}.
Arguments ws_bd {w w'}. Arguments ws_rq {w w'}.

Lemma wsame_refl w : wsame w w.
Proof. split; try reflexivity. exists []. reflexivity. Qed.
Lemma wsame_trans w1 w2 w3 : wsame w1 w2 -> wsame w2 w3 -> wsame w1 w3.
Proof.
  intros [A1 A2 A3 A4 A5 A6 [l1 A7]] [B1 B2 B3 B4 B5 B6 [l2 B7]]. split; try congruence.
  exists (l2 ++ l1). rewrite B7, A7, app_assoc. reflexivity.
Qed.
Lemma wsame_ev_of w w' m : wsame w w' -> ev_of w' m = ev_of w m.
Proof. intros H. unfold ev_of. rewrite (ws_ev H). reflexivity. Qed.
Lemma wsame_reqs w w' : wsame w w' -> incl (pw_reqs w) (pw_reqs w').
Proof. intros H. destruct (ws_rq H) as [l ->]. apply incl_appr, incl_refl. Qed.

Definition mkreq (k : rkind) (t a r : Q) : req := {| rq_kind := k; rq_t := t; rq_arg := a; rq_ans := r |}.

Lemma ask_reqs k t a w r w' : ask k t a w = (r, w') -> pw_reqs w' = mkreq k t a r :: pw_reqs w.
Proof. unfold ask. destruct (pw_oracle w) as [|[k' x] rest]; intros [= <- <-]; reflexivity. Qed.
Lemma ask_wsame k t a w r w' : ask k t a w = (r, w') -> wsame w w'.
Proof.
  unfold ask. destruct (pw_oracle w) as [|[k' x] rest]; intros [= <- <-]; (split; try reflexivity; eexists [_]; reflexivity).
Qed.
Arguments ask_reqs {k t a w r w'}. Arguments ask_wsame {k t a w r w'}.

Lemma set_bad_wsame w : wsame w (set_bad w).
Proof. split; try reflexivity. exists []. reflexivity. Qed.
Lemma set_orders_wsame o w : wsame w (set_orders o w).
Proof. split; try reflexivity. exists []. reflexivity. Qed.

(* a hypothesis on the oracle's answers, like [good] of Proofs/PulseInv.v: round(x, 5) of an argument that is exactly 1
   is 1 (decimal rounding is the identity on 1.0; Tie/C20.v checks it on every run) *)
Definition round_one (l : list req) : Prop := forall r, In r l -> rq_kind r = RN -> rq_arg r == 1 -> rq_ans r == 1.
Lemma round_one_incl l l' : incl l l' -> round_one l' -> round_one l.
Proof. intros Hi H r Hr. apply H, Hi, Hr. Qed.
Definition round_one_b (l : list req) : bool :=
  forallb (fun r => match rq_kind r with RN => negb (Qeq_bool (rq_arg r) 1) || Qeq_bool (rq_ans r) 1 | _ => true end) l.
Lemma round_one_b_ok l : round_one_b l = true -> round_one l.
Proof.
  unfold round_one_b. rewrite forallb_forall. intros H r Hr Hk Ha. specialize (H r Hr). rewrite Hk in H.
  apply orb_true_iff in H. destruct H as [H|H].
  - apply negb_true_iff in H. apply Qeq_bool_iff in Ha. congruence.
  - apply Qeq_bool_iff, H.
Qed.

Lemma memz_In x l : memz x l = true <-> In x l.
Proof.
  unfold memz. rewrite existsb_exists. split.
  - intros [y [Hy E]]. apply Z.eqb_eq in E. subst. exact Hy.
  - intros H. exists x. split; [exact H|apply Z.eqb_refl].
Qed.
Lemma addz_In x y l : In y (addz x l) <-> y = x \/ In y l.
Proof.
  unfold addz. destruct (memz x l) eqn:E.
  - apply memz_In in E. split; [intros H; right; exact H|intros [->|H]; assumption].
  - rewrite in_app_iff. cbn. split; [intros [H|[H|[]]]; [right; exact H|left; symmetry; exact H]|intros [->|H]; [right; left; reflexivity|left; exact H]].
Qed.

(* [kept S P w w']: what a program leaves of the user state w in w' when it only makes oracle requests, calls
   setFiringTime on nodes in P and, if S holds, changes the bumping and bumped sets *)
Record kept (S : Prop) (P : Z -> Prop) (w w' : pworld) : Prop := {
  kp_ft : pw_ftimes w' = pw_ftimes w;
  kp_fn : pw_fnodes w' = pw_fnodes w;
  kp_reqs : incl (pw_reqs w) (pw_reqs w');
  kp_bumped : ~ S -> pw_bumped w' = pw_bumped w;
  kp_look : forall m, ~ P m -> ev_of w' m = ev_of w m;
  kp_dom : forall m, ev_of w m <> None -> ev_of w' m <> None }.
Arguments kp_ft {S P w w'}. Arguments kp_fn {S P w w'}. Arguments kp_reqs {S P w w'}.
Arguments kp_bumped {S P w w'}. Arguments kp_look {S P w w'}. Arguments kp_dom {S P w w'}.

Lemma kept_refl S P w : kept S P w w.
Proof. split; try reflexivity; [apply incl_refl|intros m H; exact H]. Qed.
Lemma kept_trans S P w1 w2 w3 : kept S P w1 w2 -> kept S P w2 w3 -> kept S P w1 w3.
Proof.
  intros [A1 A2 A3 A4 A5 A6] [B1 B2 B3 B4 B5 B6]. split; try congruence.
  - eapply incl_tran; eassumption.
  - intros H. rewrite (B4 H). exact (A4 H).
  - intros m Hm. rewrite (B5 m Hm). exact (A5 m Hm).
  - intros m Hm. exact (B6 m (A6 m Hm)).
Qed.
Arguments kept_trans {S P w1 w2 w3}.
Lemma wsame_kept S P w w' : wsame w w' -> kept S P w w'.
Proof.
  intros H. split; [exact (ws_ft H)|exact (ws_fn H)|exact (wsame_reqs _ _ H)|intros _; exact (ws_bd H)| |].
  - intros m _. exact (wsame_ev_of _ _ m H).
  - intros m Hm. rewrite (wsame_ev_of _ _ m H). exact Hm.
Qed.
Lemma set_sets_kept (S : Prop) P bg bd w : S -> kept S P w (set_sets bg bd w).
Proof. intros HS. split; try reflexivity; [apply incl_refl|intros H; destruct (H HS)|intros m H; exact H]. Qed.
Lemma set_ev_kept S (P : Z -> Prop) n v w : P n -> kept S P w (set_ev n v w).
Proof.
  intros HP. split; try reflexivity; [apply incl_refl| |].
  - intros m Hm. apply ev_of_set_ev_other. intros ->. exact (Hm HP).
  - intros m Hm. destruct (Z.eq_dec m n) as [->|Hne]; [rewrite ev_of_set_ev_same; discriminate|].
    rewrite ev_of_set_ev_other by exact Hne. exact Hm.
Qed.

Section Steps.
Variable cfg : pcfg.
Notation period := (pc_period cfg).

Lemma normalise_phase_spec t x w c w' : normalise_phase t x w = (c, w') ->
  wsame w w' /\ 0 <= c /\ c <= 1 /\ exists r, c = clamp01 r /\ pw_reqs w' = mkreq RN t (Qred x) r :: pw_reqs w.
Proof.
  unfold normalise_phase. destruct (ask RN t (Qred x) w) as [r w1] eqn:E. intros [= <- <-].
  split; [exact (ask_wsame E)|]. destruct (clamp01_range r). repeat split; try assumption.
  exists r. split; [reflexivity|exact (ask_reqs E)].
Qed.

Lemma get_phase_spec t n w c w' : get_phase cfg t n w = (c, w') -> wsame w w' /\ 0 <= c /\ c <= 1.
Proof.
  unfold get_phase. destruct (ev_of w n) as [[k old]|].
  - intros E. apply normalise_phase_spec in E. tauto.
  - intros [= <- <-]. split; [apply set_bad_wsame|lra].
Qed.
Arguments normalise_phase_spec {t x w c w'}. Arguments get_phase_spec {t n w c w'}.

(* the un-post that setFiringTime(n) issues in the user state w, named so that set_firing_time_spec can state it *)
Definition unpost_of (w : pworld) (n : Z) : list action :=
  match ev_of w n with Some (k, _) => [AUnpost k false] | None => [] end.

Lemma set_firing_time_spec t n et w a : exists T w1, ask RT t (Qred et) w = (T, w1) /\
  set_firing_time t n et (w, a)
  = (set_ev n (pw_nposted w1, Qred (t + (T - t))) w1, a ++ unpost_of w1 n ++ [APostOn (EN n) (T - t) prog_fired]).
Proof.
  unfold set_firing_time, unpost_of. cbn [fst snd]. destruct (ask RT t (Qred et) w) as [T w1].
  exists T, w1. split; reflexivity.
Qed.

Lemma set_firing_time_kept t S (P : Z -> Prop) n et w a : P n -> kept S P w (fst (set_firing_time t n et (w, a))).
Proof.
  intros HP. destruct (set_firing_time_spec t n et w a) as [T [w1 [E ->]]].
  exact (kept_trans (wsame_kept S P _ _ (ask_wsame E)) (set_ev_kept S P n _ w1 HP)).
Qed.

(* [steps t S P st st']: at handler time t the program state st' is reached from st by oracle requests (and other
   changes that leave the scheduling state alone), calls setFiringTime(n, t + c * period) with c <= 1 on nodes n
   in P and, if S holds, changes of the bumping and bumped sets *)
Inductive steps (t : Q) (S : Prop) (P : Z -> Prop) : pstate -> pstate -> Prop :=
| st_nil st : steps t S P st st
| st_same w w' a st' : wsame w w' -> steps t S P (w', a) st' -> steps t S P (w, a) st'
| st_sets w a bg bd st' : S -> steps t S P (set_sets bg bd w, a) st' -> steps t S P (w, a) st'
| st_sft w a n c st' : P n -> c <= 1 ->
    steps t S P (set_firing_time t n (t + c * period) (w, a)) st' -> steps t S P (w, a) st'.

Lemma steps_trans t S P a b c : steps t S P a b -> steps t S P b c -> steps t S P a c.
Proof.
  intros H H2. induction H as [st|w w' a st' Hs _ IH|w a bg bd st' HS _ IH|w a n c0 st' HP Hc _ IH].
  - exact H2.
  - eapply st_same; [exact Hs|apply IH, H2].
  - eapply st_sets; [exact HS|apply IH, H2].
  - eapply st_sft; [exact HP|exact Hc|apply IH, H2].
Qed.

Arguments steps_trans {t S P a b c}.

Lemma steps_kept t S P st st' : steps t S P st st' -> kept S P (fst st) (fst st').
Proof.
  induction 1 as [st|w w' a st' Hs _ IH|w a bg bd st' HS _ IH|w a n c st' HP _ _ IH]; cbn [fst] in *.
  - apply kept_refl.
  - exact (kept_trans (wsame_kept S P w w' Hs) IH).
  - exact (kept_trans (set_sets_kept S P bg bd w HS) IH).
  - exact (kept_trans (set_firing_time_kept t S P n _ w a HP) IH).
Qed.
Arguments steps_kept {t S P st st'}.

Lemma set_phase_steps t S (P : Z -> Prop) n phi w a : P n -> steps t S P (w, a) (set_phase cfg t n phi (w, a)).
Proof.
  intros HP. unfold set_phase. cbn [fst snd]. destruct (normalise_phase t (1 - phi) w) as [c w1] eqn:E.
  destruct (normalise_phase_spec E) as [Hs [_ [H1 _]]].
  apply st_same with w1; [exact Hs|]. eapply st_sft; [exact HP|exact H1|apply st_nil].
Qed.

(* cascade from the point where the phase of m has been read *)
Lemma cascade_steps_from t S (P : Z -> Prop) n m w a : P m ->
  steps t S P (snd (get_phase cfg t m w), a) (cascade cfg t n m (w, a)).
Proof.
  intros HP. unfold cascade. cbn [fst snd].
  destruct (get_phase cfg t m w) as [phi w1]. cbn [snd].
  destruct (is01 phi); [apply st_nil|].
  destruct (ask RS t phi w1) as [s2 w4] eqn:E4. apply st_same with w4; [exact (ask_wsame E4)|].
  destruct (ask RG t (Qred (pc_coupling cfg + s2)) w4) as [g w5] eqn:E5. apply st_same with w5; [exact (ask_wsame E5)|].
  destruct (normalise_phase t g w5) as [newPhase w6] eqn:E6. apply st_same with w6; [apply (normalise_phase_spec E6)|].
  apply (steps_trans (b := set_phase cfg t m newPhase (w6, a))); [apply set_phase_steps, HP|].
  destruct (set_phase cfg t m newPhase (w6, a)) as [w7 a7]. cbn [fst snd].
  destruct (get_phase cfg t m w7) as [newState w8] eqn:E8. apply st_same with w8; [apply (get_phase_spec E8)|].
  destruct (is01 newState); [apply set_phase_steps, HP|apply st_nil].
Qed.

Lemma cascade_steps t S (P : Z -> Prop) n m w a : P m -> steps t S P (w, a) (cascade cfg t n m (w, a)).
Proof.
  intros HP. pose proof (cascade_steps_from t S P n m w a HP) as H.
  destruct (get_phase cfg t m w) as [phi w1] eqn:E1.
  apply st_same with w1; [apply (get_phase_spec E1)|exact H].
Qed.

(* a node that is due now (its firing is pending at the handler's time t) is passed over: its phase is
   normalisePhase(1 - (t - t) / period), the rounding of exactly 1 *)
Lemma cascade_due_kept t n m w a k :
  ev_of w m = Some (k, t) -> round_one (pw_reqs (fst (cascade cfg t n m (w, a)))) ->
  wsame w (fst (cascade cfg t n m (w, a))).
Proof.
  intros Hev Hr.
  pose proof (kp_reqs (steps_kept (cascade_steps_from t False (fun _ => True) n m w a I))) as Hl. cbn [fst] in Hl.
  revert Hr Hl. unfold cascade, get_phase. cbn [fst snd]. rewrite Hev.
  destruct (normalise_phase t (1 - (t - t) / period) w) as [phi w1] eqn:E.
  destruct (normalise_phase_spec E) as [Hs [_ [_ [r [-> Hrq]]]]]. cbn [snd].
  intros Hr Hl.
  assert (H1 : r == 1).
  { apply (Hr (mkreq RN t (Qred (1 - (t - t) / period)) r)).
    - apply Hl. rewrite Hrq. left. reflexivity.
    - reflexivity.
    - cbn [rq_arg mkreq]. rewrite Qred_correct. unfold Qdiv. ring. }
  rewrite (clamp01_one r H1). exact Hs.
Qed.

(* fire(t, n): mark the neighbours, setPhase(t, n, 0.0), add n to bumped *)
Lemma fire_node_spec t n w a : exists r w2,
  ask RN t (Qred (1 - 0)) (set_sets (fold_left (fun acc m => addz m acc) (neighbours cfg n) (pw_bumping w)) (pw_bumped w) w) = (r, w2)
  /\ fire_node cfg t n (w, a)
     = (let st2 := set_firing_time t n (t + clamp01 r * period) (w2, a) in
        (set_sets (pw_bumping (fst st2)) (addz n (pw_bumped (fst st2))) (fst st2), snd st2)).
Proof.
  unfold fire_node, set_phase, normalise_phase. cbn [fst snd].
  destruct (ask RN t (Qred (1 - 0)) _) as [r w2]. exists r, w2. split; reflexivity.
Qed.

Lemma fire_node_steps t n w a : steps t True (eq n) (w, a) (fire_node cfg t n (w, a)).
Proof.
  destruct (fire_node_spec t n w a) as [r [w2 [E ->]]].
  eapply st_sets; [exact I|]. apply st_same with w2; [exact (ask_wsame E)|].
  apply st_sft with (n := n) (c := clamp01 r); [reflexivity|apply clamp01_range|]. cbn zeta.
  destruct (set_firing_time t n (t + clamp01 r * period) (w2, a)) as [w3 a3]. eapply st_sets; [exact I|apply st_nil].
Qed.

(* the body of cascade_loop, named so that it can be analysed once (pop_one_spec) *)
Definition pop_one (t : Q) (n m : Z) (st : pstate) : pstate :=
  let w := set_sets (remz m (pw_bumping (fst st))) (pw_bumped (fst st)) (fst st) in
  if memz m (pw_bumped w) then (w, snd st)
  else let st2 := cascade cfg t n m (w, snd st) in
       (set_sets (pw_bumping (fst st2)) (addz m (pw_bumped (fst st2))) (fst st2), snd st2).

Lemma cascade_loop_cons t n m ms st : cascade_loop cfg t n (m :: ms) st = cascade_loop cfg t n ms (pop_one t n m st).
Proof. reflexivity. Qed.

(* the firing node n is in bumped and stays there, so no cascade is on n; a node that is due now keeps its entry *)
Lemma pop_one_spec t n m w a : In n (pw_bumped w) ->
  In n (pw_bumped (fst (pop_one t n m (w, a))))
  /\ (forall P : Z -> Prop, (m <> n -> P m) -> steps t True P (w, a) (pop_one t n m (w, a)))
  /\ (forall k, ev_of w m = Some (k, t) -> round_one (pw_reqs (fst (pop_one t n m (w, a)))) ->
        ev_of (fst (pop_one t n m (w, a))) m = Some (k, t)).
Proof.
  intros Hn. unfold pop_one. cbn [fst snd]. set (w0 := set_sets (remz m (pw_bumping w)) (pw_bumped w) w).
  change (pw_bumped w0) with (pw_bumped w).
  destruct (memz m (pw_bumped w)) eqn:Em.
  - split; [exact Hn|]. split; [intros P _; eapply st_sets; [exact I|apply st_nil]|intros k Hk _; exact Hk].
  - assert (Hmn : m <> n) by (intros ->; apply memz_In in Hn; congruence).
    pose proof (kp_bumped (steps_kept (cascade_steps t False (fun _ => True) n m w0 a I)) (fun f => f)) as Hb.
    pose proof (cascade_due_kept t n m w0 a) as Hk.
    split; [|split].
    + apply addz_In. right. rewrite Hb. exact Hn.
    + intros P HP. apply st_sets with (pw_bumping w0) (pw_bumped w0); [exact I|].
      apply (steps_trans (b := cascade cfg t n m (w0, a))); [apply cascade_steps, HP, Hmn|].
      destruct (cascade cfg t n m (w0, a)) as [w2 a2]. eapply st_sets; [exact I|apply st_nil].
    + intros k Hev Hr. rewrite <- Hev. exact (wsame_ev_of _ _ m (Hk k Hev Hr)).
Qed.

Lemma cascade_loop_steps t n ms : forall w a, In n (pw_bumped w) ->
  steps t True (fun m => m <> n) (w, a) (cascade_loop cfg t n ms (w, a)).
Proof.
  induction ms as [|m ms IH]; intros w a Hn; [apply st_nil|]. rewrite cascade_loop_cons.
  destruct (pop_one_spec t n m w a Hn) as [Hn' [Hs _]].
  destruct (pop_one t n m (w, a)) as [w' a'].
  eapply steps_trans; [apply Hs; auto|apply IH, Hn'].
Qed.

Lemma cascade_loop_due_kept t n d k ms : forall w a, In n (pw_bumped w) ->
  ev_of w d = Some (k, t) -> round_one (pw_reqs (fst (cascade_loop cfg t n ms (w, a)))) ->
  ev_of (fst (cascade_loop cfg t n ms (w, a))) d = Some (k, t).
Proof.
  induction ms as [|m ms IH]; intros w a Hn Hd; [intros _; exact Hd|]. rewrite cascade_loop_cons.
  destruct (pop_one_spec t n m w a Hn) as [Hn' [Hs Hk]].
  destruct (pop_one t n m (w, a)) as [w' a']. cbn [fst] in *. intros Hr.
  apply IH; [exact Hn'| |exact Hr].
  destruct (Z.eq_dec m d) as [->|Hne].
  - apply Hk; [exact Hd|]. eapply round_one_incl; [|exact Hr].
    exact (kp_reqs (steps_kept (cascade_loop_steps t n ms w' a' Hn'))).
  - rewrite <- Hd. exact (kp_look (steps_kept (Hs (eq m) (fun _ => eq_refl))) d Hne).
Qed.

Lemma pop_order_wsame w ms w' : pop_order w = (ms, w') -> wsame w w'.
Proof.
  unfold pop_order. destruct (pw_orders w) as [|o rest].
  - intros [= <- <-]. apply set_bad_wsame.
  - destruct (nodupz o && forallb _ o); intros [= <- <-].
    + apply set_orders_wsame.
    + eapply wsame_trans; [apply set_orders_wsame|apply set_bad_wsame].
Qed.

Lemma probe_queries w : Forall (fun a => exists k, a = AQuery k) (probe cfg w).
Proof.
  unfold probe. destruct (pc_observe cfg); [|constructor].
  apply Forall_forall. intros a Ha. apply in_map_iff in Ha. destruct Ha as [n [<- _]]. eexists. reflexivity.
Qed.

(* the event function: reset the sets, fire the node (setFiringTime on n first), log, cascade (never on n), probe *)
Lemma fired_prog_spec t n l w : exists st4,
  fired_prog cfg t (EN n) l w = (fst st4, snd st4 ++ probe cfg (fst st4))
  /\ (let st1 := fire_node cfg t n (set_sets [] [] w, []) in
      steps t True (fun m => m <> n) (add_log t n (fst st1), snd st1) st4)
  /\ (forall d k, d <> n -> ev_of w d = Some (k, t) -> round_one (pw_reqs (fst st4)) -> ev_of (fst st4) d = Some (k, t)).
Proof.
  unfold fired_prog.
  pose proof (steps_kept (fire_node_steps t n (set_sets [] [] w) [])) as K1.
  assert (Hb : In n (pw_bumped (fst (fire_node cfg t n (set_sets [] [] w, []))))).
  { unfold fire_node. cbn [fst snd]. apply addz_In. left. reflexivity. }
  destruct (fire_node cfg t n (set_sets [] [] w, [])) as [w1 a1]. cbn [fst snd] in *.
  destruct (pop_order (add_log t n w1)) as [ms w3] eqn:E3. apply pop_order_wsame in E3.
  assert (Hb3 : In n (pw_bumped w3)) by (rewrite (ws_bd E3); exact Hb).
  exists (cascade_loop cfg t n ms (w3, a1)). split; [reflexivity|]. split.
  - apply st_same with w3; [exact E3|apply cascade_loop_steps, Hb3].
  - intros d k Hd Hev. apply cascade_loop_due_kept; [exact Hb3|].
    rewrite (wsame_ev_of _ _ d E3). change (ev_of (add_log t n w1) d) with (ev_of w1 d).
    rewrite <- Hev. apply (kp_look K1 d). intros E. apply Hd. symmetry. exact E.
Qed.

Lemma fired_prog_world t n l w :
  incl (pw_reqs w) (pw_reqs (fst (fired_prog cfg t (EN n) l w)))
  /\ pw_ftimes (fst (fired_prog cfg t (EN n) l w)) = t :: pw_ftimes w
  /\ pw_fnodes (fst (fired_prog cfg t (EN n) l w)) = n :: pw_fnodes w
  /\ forall m, ev_of w m <> None -> ev_of (fst (fired_prog cfg t (EN n) l w)) m <> None.
Proof.
  destruct (fired_prog_spec t n l w) as [st4 [-> [Hs _]]]. cbn [fst].
  pose proof (steps_kept (fire_node_steps t n (set_sets [] [] w) [])) as K1. pose proof (steps_kept Hs) as K2.
  destruct (fire_node cfg t n (set_sets [] [] w, [])) as [w1 a1]. cbn [fst snd] in K1, K2.
  split; [exact (incl_tran (kp_reqs K1) (kp_reqs K2))|].
  split; [rewrite (kp_ft K2); cbn [pw_ftimes add_log]; rewrite (kp_ft K1); reflexivity|].
  split; [rewrite (kp_fn K2); cbn [pw_fnodes add_log]; rewrite (kp_fn K1); reflexivity|].
  intros m Hm. exact (kp_dom K2 m (kp_dom K1 m Hm)).
Qed.

Lemma fired_prog_reqs t e l w : incl (pw_reqs w) (pw_reqs (fst (fired_prog cfg t e l w))).
Proof. destruct e as [n|? ?]; [apply fired_prog_world|apply incl_refl]. Qed.

(* the last clause of [fired_at] (Proofs/PulseInv.v), on the user state: no cascade touches n after fire *)
Lemma fired_prog_refire t n l w : exists r Tn k,
  In (mkreq RN t (Qred (1 - 0)) r) (pw_reqs (fst (fired_prog cfg t (EN n) l w)))
  /\ In (mkreq RT t (Qred (t + clamp01 r * period)) Tn) (pw_reqs (fst (fired_prog cfg t (EN n) l w)))
  /\ ev_look (pw_ev (fst (fired_prog cfg t (EN n) l w))) n = Some (k, Qred (t + (Tn - t))).
Proof.
  destruct (fired_prog_spec t n l w) as [st4 [-> [Hs _]]]. cbn [fst].
  destruct (fire_node_spec t n (set_sets [] [] w) []) as [r [w2 [E1 Ef]]]. rewrite Ef in Hs.
  destruct (set_firing_time_spec t n (t + clamp01 r * period) w2 []) as [Tn [w3 [E2 Es]]]. rewrite Es in Hs.
  cbn [fst snd] in Hs. pose proof (steps_kept Hs) as K. cbn [fst] in K.
  pose proof (kp_reqs K) as Hi. cbn [pw_reqs add_log set_sets set_ev] in Hi.
  exists r, Tn, (pw_nposted w3). split; [|split].
  - apply Hi. rewrite (ask_reqs E2). right. rewrite (ask_reqs E1). left. reflexivity.
  - apply Hi. rewrite (ask_reqs E2). left. reflexivity.
  - rewrite <- ev_of_look, (kp_look K n) by (intros H; exact (H eq_refl)). apply look_upd_same.
Qed.

Lemma init_node_steps S (P : Z -> Prop) w a n : P n -> steps 0 S P (w, a) (init_node cfg (w, a) n).
Proof.
  intros HP. unfold init_node. cbn [fst snd].
  destruct (ask RR 0 0 w) as [state w1] eqn:E1. apply st_same with w1; [exact (ask_wsame E1)|].
  destruct (ask RG 0 state w1) as [phase w2] eqn:E2. apply st_same with w2; [exact (ask_wsame E2)|].
  apply set_phase_steps, HP.
Qed.

Lemma init_node_dom st n : ev_of (fst (init_node cfg st n)) n <> None.
Proof.
  unfold init_node, set_phase. destruct (ask RR 0 0 _) as [state w1]. destruct (ask RG 0 state w1) as [phase w2].
  cbn [fst snd]. destruct (normalise_phase 0 (1 - phase) w2) as [c w3].
  destruct (set_firing_time_spec 0 n (0 + c * period) w3 (snd st)) as [T [w4 [_ ->]]].
  cbn [fst]. rewrite ev_of_set_ev_same. discriminate.
Qed.

(* initialisePhases: steps at time 0, after which every node of the network has an event *)
Lemma init_fold_spec nodes : forall st,
  steps 0 False (fun _ => True) st (fold_left (init_node cfg) nodes st)
  /\ forall n, In n nodes \/ ev_of (fst st) n <> None -> ev_of (fst (fold_left (init_node cfg) nodes st)) n <> None.
Proof.
  induction nodes as [|n0 nodes IH]; intros [w a]; cbn [fold_left].
  - split; [apply st_nil|]. intros n [[]|H]. exact H.
  - destruct (IH (init_node cfg (w, a) n0)) as [Hs Hd].
    pose proof (init_node_steps False (fun _ => True) w a n0 I) as H0. split; [exact (steps_trans H0 Hs)|].
    intros n H. apply Hd. destruct H as [[<-|H]|H]; [right; apply init_node_dom|left; exact H|right].
    exact (kp_dom (steps_kept H0) n H).
Qed.

Lemma init_phases_spec oracle orders :
  steps 0 False (fun _ => True) (init_world oracle orders, []) (init_phases cfg oracle orders)
  /\ forall n, In n (pc_nodes cfg) -> ev_of (fst (init_phases cfg oracle orders)) n <> None.
Proof.
  destruct (init_fold_spec (pc_nodes cfg) (init_world oracle orders, [])) as [Hs Hd].
  split; [exact Hs|]. intros n Hn. apply Hd. left. exact Hn.
Qed.

End Steps.
Arguments steps_kept {cfg t S P st st'}.
