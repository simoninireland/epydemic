(* C13: the whole run.  The invariants of Proofs/NewmanZiffOcc.v hold in every state reached by
   percolate(), and the sampling rule of Proofs/NewmanZiffSampling.v says which state each sample sees. *)
From Coq Require Import List ZArith QArith Bool Arith Lia Permutation Sorted.
From EpyV Require Import Lib.Prelude Model.Percolate Model.NewmanZiff.
From EpyV Require Import Proofs.NewmanZiffUF Proofs.NewmanZiffOcc Proofs.NewmanZiffQuery Proofs.NewmanZiffSampling.
Import ListNotations.
Local Open Scope nat_scope.

Definition is_perm (perm : list nat) (n : nat) : Prop := Permutation perm (seq 0 n).

Lemma is_perm_by_In perm n : NoDup perm -> (forall x, In x perm <-> x < n) -> is_perm perm n.
Proof.
  intros ND H. apply NoDup_Permutation; [exact ND | apply seq_NoDup|]. intros x. rewrite H, in_seq. lia.
Qed.

Lemma Forall2_weaken {A B} (P Q : A -> B -> Prop) l1 l2 : (forall x y, P x y -> Q x y) -> Forall2 P l1 l2 -> Forall2 Q l1 l2.
Proof. intros H F. induction F; constructor; auto. Qed.

Lemma init_bond_UF N : UF (repeat (-1)%Z N) [].
Proof.
  assert (Rt : forall x, x < N -> is_root (repeat (-1)%Z N) x) by (intros x H; apply repeat_root; lia).
  assert (Pt : forall x r d, path (repeat (-1)%Z N) x r d -> r = x).
  { intros x r d P. destruct (path_lt P) as [H _]. rewrite repeat_length in H. apply (path_root_inv (Rt _ H) P). }
  constructor.
  - intros n O. destruct (proj1 (repeat_occ _ _ _) O) as [H _]. exists n, 0. split; [apply path_of_root, Rt, H|]. rewrite get_repeat by exact H. lia.
  - intros x y [].
  - intros x r d P. rewrite (Pt _ _ _ P). apply conn_refl.
  - intros r R. exists [r]. split; [repeat constructor; cbn; tauto|]. split.
    + intros x. cbn. split.
      * intros [<-|[]]. exists 0. apply path_of_root, R.
      * intros (d & P). left. exact (Pt _ _ _ P).
    + destruct (proj1 (repeat_root _ _ _) R) as [H _]. rewrite get_repeat by exact H. reflexivity.
Qed.

Lemma init_bond_Inv nodes : 1 <= length nodes -> Inv (init_bond nodes).
Proof.
  intros HN. set (N := length nodes).
  constructor; cbn [init_bond comp gcc ncomp wedges]; fold N.
  - apply init_bond_UF.
  - split.
    + intros r R. destruct (proj1 (repeat_root _ _ _) R) as [H _]. rewrite get_repeat by exact H. lia.
    + left. exists 0. split; [apply repeat_root; lia | rewrite get_repeat by exact HN; reflexivity].
  - exists (seq 0 N). split; [apply seq_NoDup|]. split; [|rewrite seq_length; reflexivity].
    intros r. rewrite in_seq, repeat_root. lia.
Qed.

Lemma init_site_SInv adj nodes : SInv adj (init_site nodes).
Proof.
  set (N := length nodes).
  assert (NO : forall x, ~ occ (repeat (Z.of_nat N + 1)%Z N) x) by (intros x O; destruct (proj1 (repeat_occ _ _ _) O); auto).
  assert (NR : forall r, ~ is_root (repeat (Z.of_nat N + 1)%Z N) r) by (intros r R; destruct (proj1 (repeat_root _ _ _) R); lia).
  constructor; [constructor|..]; cbn [init_site comp gcc ncomp wnodes wedges]; fold N.
  - constructor.
    + intros n O. destruct (NO _ O).
    + intros x y [].
    + intros x r d P. destruct (NO _ (path_occ P)).
    + intros r R. destruct (NR _ R).
  - split; [intros r R; destruct (NR _ R) | right; auto].
  - exists []. split; [constructor|]. split; [|reflexivity]. intros r. cbn. split; [tauto | apply NR].
  - intros n. cbn. split; [apply NO | tauto].
  - intros x y [].
  - intros x y [].
Qed.

Lemma series_labels os ps (P : Q -> obs -> Prop) : (forall p o, P p o -> o_p o = p) -> Forall2 P ps os -> map fst (series os) = ps.
Proof. intros H F. induction F as [|p o ps os Hpo F IH]; [reflexivity|]. cbn. rewrite (H _ _ Hpo). f_equal. exact IH. Qed.

(* for bond and site percolation alike: [shows pre o] is what a sample o shows of a state in which exactly pre
   has been occupied *)
Section Run.
  Context {El : Type} (occupy : state -> El -> state) (cs : list Z -> nat -> list Z * Z) (N : nat) (all : list El).
  Variables (R : list El -> state -> Prop) (shows : list El -> obs -> Prop).
  Hypothesis R_occupy : forall pre e post s, all = pre ++ e :: post -> R pre s -> R (pre ++ [e]) (occupy s e).
  Hypothesis R_sample : forall pre p s, R pre s ->
    R pre (fst (sample_with cs N p s)) /\ shows pre (snd (sample_with cs N p s)).

  Lemma run_samples ps s0 : 1 <= length all -> R [] s0 -> StronglySorted Qlt ps -> Forall (fun p => (0 <= p)%Q /\ (p <= 1)%Q) ps ->
    exists s' os n, percolate occupy (sample_with cs N) all ps s0 = (s', os, n)
      /\ Forall2 (fun p o => o_p o = p /\ exists k, least_reach k (length all) p /\ shows (firstn k all) o) ps os.
  Proof.
    intros HM R0 Srt Rng.
    destruct (percolate_spec occupy (sample_with cs N) all R R_occupy (fun pre p s Rs => proj1 (R_sample pre p s Rs))
                HM ps s0 R0 Srt Rng) as (s' & os & n & E & F & _).
    exists s', os, n. split; [exact E|]. eapply Forall2_weaken; [|exact F].
    intros p o (k & s & Lk & Rs & ->). split; [rewrite sample_with_eq; reflexivity|].
    exists k. split; [exact Lk | apply R_sample, Rs].
  Qed.
End Run.

(* the GCC series never decreases (no side conditions) *)
Lemma run_monotone {El} {occupy : state -> El -> state} {cs N es ps s0 s' os n} :
  (forall s e, (gcc s <= gcc (occupy s e))%Z) ->
  percolate occupy (sample_with cs N) es ps s0 = (s', os, n) -> StronglySorted Z.le (map snd (series os)).
Proof.
  intros Ho E. unfold series. rewrite map_map. cbn [snd].
  apply (percolate_mono occupy (sample_with cs N) gcc o_gcc Ho) in E; [exact E| |];
    intros p s; rewrite sample_with_eq; reflexivity.
Qed.

Definition valid_edge (N : nat) (e : nedge) : Prop := fst e < N /\ snd e < N.

(* nodes labelled 0..N-1 *)
Definition nodes_ok (nodes : list nat) : Prop := forall n, In n nodes <-> n < length nodes.

(* [RB nodes pre s]: a state of bond percolation in which exactly the edges pre have been occupied *)
Record RB (nodes : list nat) (pre : list nedge) (s : state) : Prop := {
  rb_inv : Inv s;
  rb_len : length (comp s) = length nodes;
  rb_occ : forall x, occ (comp s) x <-> x < length nodes;
  rb_nodes : wnodes s = nodes;
  rb_edges : eeq (wedges s) pre
}.

Lemma eeq_snoc e a b : eeq a (e :: b) -> eeq a (b ++ [e]).
Proof.
  intros H. eapply eeq_trans; [exact H|]. split; intros x y I; left.
  - apply in_app_iff. destruct I as [<-|I]; [right; left; reflexivity | left; exact I].
  - apply in_app_iff in I. destruct I as [I|[<-|[]]]; [right; exact I | left; reflexivity].
Qed.

Lemma RB_init nodes : 1 <= length nodes -> RB nodes [] (init_bond nodes).
Proof.
  intros HN. constructor.
  - apply init_bond_Inv, HN.
  - apply repeat_length.
  - intros x. cbn [init_bond comp]. rewrite repeat_occ. lia.
  - reflexivity.
  - apply eeq_refl.
Qed.

Lemma RB_occupy nodes pre e s : valid_edge (length nodes) e -> RB nodes pre s -> RB nodes (pre ++ [e]) (occupy_bond s e).
Proof.
  intros [V1 V2] [I L O Nd Ed]. destruct e as [n m]. cbn [fst snd] in V1, V2.
  destruct (occupy_bond_spec s n m I (proj2 (O n) V1) (proj2 (O m) V2)) as (I' & L' & O' & Ed' & Nd').
  constructor.
  - exact I'.
  - rewrite L'. exact L.
  - intros x. rewrite O'. apply O.
  - rewrite Nd'. exact Nd.
  - apply eeq_snoc. eapply eeq_trans; [exact Ed'|]. apply eeq_cons. exact Ed.
Qed.

(* what a sample shows of a bond percolation state in which exactly the edges pre have been occupied *)
Definition bond_shows (nodes : list nat) (pre : list nedge) (o : obs) : Prop :=
  o_wnodes o = nodes /\ eeq (o_wedges o) pre /\ reports_true (length nodes) o.

Lemma RB_sample nodes : nodes_ok nodes -> forall pre p s, RB nodes pre s ->
  RB nodes pre (fst (sample_with componentSize_bond (length nodes) p s))
  /\ bond_shows nodes pre (snd (sample_with componentSize_bond (length nodes) p s)).
Proof.
  intros NO pre p s [I L O Nd Ed].
  destruct (sample_with_spec componentSize_bond occ) with (N := length nodes) (p := p) (s := s) as [C Rt].
  - intros a a' n C. apply (compr_occ C).
  - intros a es V n U HV On. destruct (componentSize_bond_spec a es V n U HV On) as (a' & c & E & C & S).
    exists a', c. split; [exact E|]. split; [exact C | left; exact S].
  - exact I.
  - intros x. rewrite Nd, O. apply NO.
  - intros n H. apply O, H.
  - rewrite sample_with_eq in *. cbn [fst snd comp set_comp] in *. split.
    + constructor; cbn [set_comp comp wnodes wedges]; try assumption.
      * exact (Inv_compr I C).
      * rewrite (c_len C). exact L.
      * intros x. rewrite (compr_occ C). apply O.
    + split; [exact Nd | split; [exact Ed | exact Rt]].
Qed.

(* what the property says about one sample of a bond percolation run *)
Definition bond_sample_ok (nodes : list nat) (es : list nedge) (p : Q) (o : obs) : Prop :=
  o_p o = p /\ exists k, least_reach k (length es) p /\ o_wnodes o = nodes /\ eeq (o_wedges o) (firstn k es)
  /\ reports_true (length nodes) o.

(* percolate() on the edges es, in whatever order they come *)
Theorem bond_samples nodes es ps :
  nodes_ok nodes -> 1 <= length nodes -> Forall (valid_edge (length nodes)) es -> 1 <= length es ->
  StronglySorted Qlt ps -> Forall (fun p => (0 <= p)%Q /\ (p <= 1)%Q) ps ->
  exists s' os n, percolate occupy_bond (sample_with componentSize_bond (length nodes)) es ps (init_bond nodes) = (s', os, n)
    /\ Forall2 (bond_sample_ok nodes es) ps os.
Proof.
  intros NO HN VE HM Srt Rng.
  apply (run_samples occupy_bond componentSize_bond (length nodes) es (RB nodes) (bond_shows nodes)).
  - intros pre e post s Ea. apply RB_occupy. rewrite Forall_forall in VE. apply VE. rewrite Ea. apply in_elt.
  - apply RB_sample, NO.
  - exact HM.
  - apply RB_init, HN.
  - exact Srt.
  - exact Rng.
Qed.

(* [RS adj N pre s]: a state of site percolation in which exactly the nodes pre have been occupied *)
Record RS (adj : nat -> list nat) (N : nat) (pre : list nat) (s : state) : Prop := {
  rs_inv : SInv adj s;
  rs_len : length (comp s) = N;
  rs_nodes : wnodes s = pre
}.

Lemma RS_init adj nodes : RS adj (length nodes) [] (init_site nodes).
Proof. constructor; [apply init_site_SInv | apply repeat_length | reflexivity]. Qed.

Lemma RS_occupy adj N pre nr s : adj_ok N adj -> nr < N -> ~ In nr pre -> RS adj N pre s -> RS adj N (pre ++ [nr]) (occupy_site adj s nr).
Proof.
  intros A Lnr Fr [I L Nd]. rewrite <- Nd in Fr.
  destruct (occupy_site_spec N adj s nr A I L Lnr Fr) as (I' & L' & Nd').
  constructor; [exact I' | exact L' | rewrite Nd', Nd; reflexivity].
Qed.

Definition induced (adj : nat -> list nat) (W : list nat) (E : list nedge) : Prop :=
  (forall x y, In (x, y) E -> In x W /\ In y W /\ In y (adj x)) /\
  (forall x y, In x W -> In y W -> In y (adj x) -> In (x, y) E \/ In (y, x) E).

(* what a sample shows of a site percolation state in which exactly the nodes pre have been occupied *)
Definition site_shows (adj : nat -> list nat) (N : nat) (pre : list nat) (o : obs) : Prop :=
  o_wnodes o = pre /\ induced adj (o_wnodes o) (o_wedges o) /\ reports_true N o.

Lemma RS_sample adj N pre p s : RS adj N pre s ->
  RS adj N pre (fst (sample_with componentSize_site N p s))
  /\ site_shows adj N pre (snd (sample_with componentSize_site N p s)).
Proof.
  intros [I L Nd].
  destruct (sample_with_spec componentSize_site (fun a n => n < length a)) with (N := N) (p := p) (s := s) as [C Rt].
  - intros a a' n C H. rewrite (c_len C). exact H.
  - exact componentSize_site_spec.
  - exact (si_inv _ _ I).
  - intros x. symmetry. apply (si_occ _ _ I).
  - intros n H. rewrite L. exact H.
  - rewrite sample_with_eq in *. cbn [fst snd comp set_comp] in *. split.
    + constructor; cbn [set_comp comp wnodes]; [exact (SInv_compr I C) | rewrite (c_len C); exact L | exact Nd].
    + split; [exact Nd|]. split; [split; [apply (si_sub1 _ _ I) | apply (si_sub2 _ _ I)] | exact Rt].
Qed.

(* what the property says about one sample of a site percolation run *)
Definition site_sample_ok (adj : nat -> list nat) (N : nat) (ns : list nat) (p : Q) (o : obs) : Prop :=
  o_p o = p /\ exists k, least_reach k (length ns) p /\ o_wnodes o = firstn k ns
  /\ induced adj (o_wnodes o) (o_wedges o) /\ reports_true N o.

(* percolate() on the distinct nodes ns, in whatever order they come *)
Theorem site_samples adj nodes ns ps :
  adj_ok (length nodes) adj -> NoDup ns -> Forall (fun n => n < length nodes) ns -> 1 <= length ns ->
  StronglySorted Qlt ps -> Forall (fun p => (0 <= p)%Q /\ (p <= 1)%Q) ps ->
  exists s' os n, percolate (occupy_site adj) (sample_with componentSize_site (length nodes)) ns ps (init_site nodes) = (s', os, n)
    /\ Forall2 (site_sample_ok adj (length nodes) ns) ps os.
Proof.
  intros A ND VN HM Srt Rng.
  apply (run_samples (occupy_site adj) componentSize_site (length nodes) ns (RS adj (length nodes)) (site_shows adj (length nodes))).
  - intros pre e post s Ea. rewrite Ea in ND, VN. apply RS_occupy; [exact A | |].
    + rewrite Forall_forall in VN. apply VN, in_elt.
    + apply NoDup_remove_2 in ND. intros I. apply ND, in_app_iff. left. exact I.
  - apply RS_sample.
  - exact HM.
  - apply RS_init.
  - exact Srt.
  - exact Rng.
Qed.
