(* C08, base.  For every world type: actions that post only on node elements ([okact]) keep
   "every queued entry sits on a node" ([QE]).  For Model/Compart.v: what the event function
   with summary h does to the occupied-edge and hitting-time records (handler_occ, handler_hit,
   [marks]), the world after a call (after_world, [call_kind]), QE along calls and set-up; so a
   posted event function never marks. *)
From Coq Require Import List ZArith QArith Bool Arith.
From EpyV Require Import Model.Kernel Model.Compart Proofs.KernelBase Proofs.CompartRun Proofs.CompartInv
  Proofs.CompartDiagram.
Import ListNotations.
Close Scope Q_scope.

(* the pair an event function with summary h marks when called on element e *)
Definition marks (h : hkind) (e : Kernel.elem) : option (Z * Z) :=
  match h, e with
  | HLeft _ true _, EE n m => Some (n, m)
  | _, _ => None
  end.

Lemma handler_occ tbl off h t e kl w :
  cw_occ (fst (handler tbl off h t e kl w)) =
  match marks h e with Some nm => mark_occupied nm t (cw_occ w) | None => cw_occ w end.
Proof. destruct h as [c|c [|] post| |], e as [n|n m]; reflexivity. Qed.

Lemma handler_hit tbl off h t e kl w :
  cw_hit (fst (handler tbl off h t e kl w)) =
  match marks h e with Some nm => mark_hit (fst nm) t (cw_hit w) | None => cw_hit w end.
Proof. destruct h as [c|c [|] post| |], e as [n|n m]; reflexivity. Qed.

Lemma marks_moved h e n m : marks h e = Some (n, m) -> exists c, moved h e = Some (n, c).
Proof. destruct h as [c|c [|] post| |], e as [a|a b]; cbn; intros E; inversion E; subst. exists c. reflexivity. Qed.

Definition okact (e : Kernel.elem) (a : action) : Prop :=
  match a with
  | ALAdd _ _ | ALDiscard _ _ | AObserve => True
  | APostOn (EN _) _ _ => True
  | APostRep _ _ _ | APost _ _ => exists n, e = EN n
  | _ => False
  end.

(* QE: every queued entry sits on a node element *)
Definition QE {W} (s : st W) : Prop := forall x, In x (queue s) -> exists n, e_elem x = EN n.

Lemma do_action_QE {W} p t e a (s : st W) : okact e a -> QE s -> QE (do_action p t e a s).
Proof.
  intros Ha Hq. destruct a; cbn in Ha; try contradiction; cbn [do_action]; unfold post.
  - destruct (Qltb _ _); [exact Hq|]. intros y [<-|Hy]; [exact Ha | apply Hq, Hy].
  - destruct x as [n|n m]; [|contradiction]. destruct (Qltb _ _); [exact Hq|].
    intros y [<-|Hy]; [exists n; reflexivity | apply Hq, Hy].
  - destruct (Qltb _ _); [exact Hq|]. intros y [<-|Hy]; [exact Ha | apply Hq, Hy].
  - exact Hq.
  - exact Hq.
  - exact Hq.
Qed.

Lemma run_actions_QE {W} p t e acts (s : st W) : Forall (okact e) acts -> QE s -> QE (run_actions p t e acts s).
Proof.
  unfold run_actions. revert s. induction acts as [|a acts IH]; intros s H Hq; cbn [fold_left]; [exact Hq|].
  inversion H as [|? ? Ha H']; subst. apply IH; [exact H' | apply do_action_QE; assumption].
Qed.

Lemma handler_okact tbl off h t e kl w : Forall (okact e) (snd (handler tbl off h t e kl w)).
Proof.
  assert (S : forall l, Forall (okact e) (sync_actions off kl l)).
  { intros l. eapply Forall_impl; [|apply sync_actions_quiet]. intros a Ha. destruct a; cbn in Ha; try contradiction; exact I. }
  destruct h as [c|c mark post| |], e as [n|n m]; cbn [handler snd]; try (constructor; fail); try apply S.
  - apply Forall_app. split; [apply S|]. destruct post as [[T k]|]; [|constructor]. constructor; [exact I | constructor].
  - constructor; [exact I | constructor].
  - constructor; [exact I | constructor].
Qed.

Section CB.
Variable cm : cmodel.
Variables (nodes : list Z) (edges : list (Z * Z)) (init : list (Z * Z)) (maxtime : Q) (monitor : option Q).
Let tb := mk_table cm nodes edges init maxtime monitor.

(* the summary of the event function entered by a call *)
Definition call_kind (c : call) : option hkind := nth_error (cm_kinds cm) (fst (fst (call_args c))).

Lemma after_world c (s : st cworld) :
  world (after tb c s) =
  match call_kind c with
  | Some h => fst (handler (cm_specs cm) 0 h (snd (fst (call_args c))) (snd (call_args c)) (loci s) (world s))
  | None => world s
  end.
Proof.
  pose proof (after_lw tb c s) as A. unfold call_kind. destruct (call_args c) as [[k t] e]. cbn [fst snd].
  destruct A as [_ A]. rewrite A. unfold tb. rewrite prog_of_kind. destruct (nth_error (cm_kinds cm) k); reflexivity.
Qed.

Lemma prog_okact k t e kl w : Forall (okact e) (snd (prog_of tb k t e kl w)).
Proof.
  apply prog_of_Forall. intros h _. apply handler_okact.
Qed.

Lemma run_prog_QE p k t e (s : st cworld) : QE s -> QE (run_prog tb p k t e s).
Proof.
  intros Hq. unfold run_prog. pose proof (prog_okact k t e (loci s) (world s)) as A.
  destruct (prog_of tb k t e (loci s) (world s)) as [w acts]. cbn [snd] in A.
  apply run_actions_QE; [exact A | exact Hq].
Qed.

Lemma QE_sched (s s' : st cworld) : QE s -> sched s s' -> QE s'.
Proof. intros Hq Hs x Hx. apply Hq, (sched_queue Hs), Hx. Qed.

Lemma QE_call (s : st cworld) c : QE s -> call_ok tb c s -> QE (after tb c s).
Proof.
  intros Hq Hok.
  assert (Q1 : QE (entered c s)).
  { intros y Hy. apply Hq. destruct c as [x t e|h]; [exact Hy | exact (remove_id_incl _ _ _ Hy)]. }
  pose proof (run_prog_QE _ _ _ _ _ Q1 : QE (ran tb c s)) as Q2.
  destruct c as [x t e|h]; [rewrite after_ev; exact Q2|].
  destruct (after_post tb h s) as (extra & Eq & _ & _ & Hex & _). intros y Hy. rewrite Eq in Hy.
  apply in_app_or in Hy. destruct Hy as [Hy|Hy]; [|exact (Q2 y Hy)].
  destruct Hok as [Hh _]. destruct (Hq h (head_in _ _ Hh)) as [n En]. exists n. rewrite (proj1 (Hex y Hy)). exact En.
Qed.

Lemma QE_setup rs ls ds : QE (setup_state tb rs ls ds).
Proof.
  apply (setup_state_inv tb QE); [|intros x []]. intros p k s Hp. apply run_actions_QE.
  exact (mk_table_setups cm nodes edges init maxtime monitor (okact (EN 0)) (fun _ _ => ex_intro _ 0%Z eq_refl) (fun _ _ _ => I) p Hp).
Qed.

Lemma posted_no_marks (s : st cworld) h k : QE s -> call_ok tb (CPost h) s -> marks k (e_elem h) = None.
Proof.
  intros Hq [Hh _]. apply head_in in Hh. destruct (Hq h Hh) as [n ->]. destruct k as [c|c [|] post| |]; reflexivity.
Qed.

End CB.
