(* Proofs about Model/Shuffle.v (C18), part 2: one loop iteration and the whole loop. *)
From Coq Require Import List ZArith QArith Qround Bool Arith Lia.
From EpyV Require Import Lib.Prelude Model.Shuffle Proofs.Shuffle.
Import ListNotations.
Local Open Scope nat_scope.

Lemma zmem_false x l : zmem x l = false -> forall y, In y l -> x <> y.
Proof.
  unfold zmem. intros H y Hy ->. apply not_true_iff_false in H. apply H, existsb_exists.
  exists y. split; [exact Hy | apply Z.eqb_refl].
Qed.

Lemma orient_cases nodes g0 a0 b0 ka0 kb0 a b ka kb :
  orient nodes g0 a0 b0 ka0 kb0 = Some (Some (a, b, ka, kb)) ->
  (a = a0 /\ b = b0 /\ ka = ka0 /\ kb = kb0) \/ (a = b0 /\ b = a0 /\ ka = kb0 /\ kb = ka0).
Proof.
  unfold orient. destruct (length (bin nodes g0 ka0)) as [|[|n]]; [discriminate| |].
  - destruct (length (bin nodes g0 kb0)) as [|[|m]]; try discriminate. intros [= -> -> -> ->]. right. repeat split.
  - intros [= -> -> -> ->]. left. repeat split.
Qed.

Lemma draw_c_spec bn a b evs c r : draw_c bn a b evs = Some (c, r) -> In c bn /\ c <> a /\ c <> b.
Proof.
  revert c r. induction evs as [|e evs IH]; intros c r; cbn [draw_c]; [discriminate|].
  destruct e as [l|i n]; [discriminate|].
  destruct (Nat.eqb n (length bn) && Nat.ltb i n) eqn:Hv; [|discriminate].
  apply andb_true_iff in Hv. destruct Hv as [Hn Hi]. apply Nat.eqb_eq in Hn. apply Nat.ltb_lt in Hi.
  destruct (zmem (nth i bn 0%Z) [a; b]) eqn:Hm; [apply IH|].
  intros [= <- <-]. split; [apply nth_In; lia | split; apply (zmem_false _ _ Hm); cbn; auto].
Qed.

Lemma eligible_spec nodes g a b c d : In d (eligible nodes g a b c) ->
  In d nodes /\ has_edge g c d = true /\ d <> a /\ d <> b /\ d <> c.
Proof.
  unfold eligible. intros H. apply filter_In in H. destruct H as [H1 H2].
  apply andb_true_iff in H2. destruct H2 as [H2 H3]. apply negb_true_iff in H3.
  repeat split; try assumption; apply (zmem_false _ _ H3); cbn; auto.
Qed.

Lemma bin_In nodes g0 k c : In c (bin nodes g0 k) -> In c nodes /\ deg g0 c = k.
Proof. unfold bin. intros H. apply filter_In in H. destruct H as [H1 H2]. apply Nat.eqb_eq in H2. auto. Qed.

(* what one iteration can do: nothing to the network, or exactly one guarded swap *)
Definition swapped (nodes : list Z) (g0 : list edge) (s s' : state) (a b c d : Z) : Prop :=
  swap_ok (st_g s) a b c d /\ In c nodes /\ In d nodes /\ deg g0 c = deg (st_g s) a /\
  st_g s' = swap (st_g s) a b c d /\ st_cnt s' = S (st_cnt s) /\ st_swaps s' = (a, b, c, d) :: st_swaps s.

Definition unchanged (s s' : state) : Prop :=
  st_g s' = st_g s /\ st_cnt s' = st_cnt s /\ st_swaps s' = st_swaps s.

Lemma swap_step_cases nodes g0 s s' : swap_step nodes g0 s = Next s' ->
  unchanged s s' \/ exists a b c d, swapped nodes g0 s s' a b c d.
Proof.
  unfold swap_step.
  destruct (refill s) as [[es1 evs1]|]; [|discriminate].
  destruct es1 as [|[a0 b0] es2]; [discriminate|].
  destruct (has_edge (st_g s) a0 b0) eqn:Hab0; cbn [negb];
    [|intros [= <-]; left; repeat split].
  destruct (orient nodes g0 a0 b0 (deg (st_g s) a0) (deg (st_g s) b0)) as [[[[[a b] ka] kb]|]|] eqn:Ho;
    [|intros [= <-]; left; repeat split|discriminate].
  assert (Hab : has_edge (st_g s) a b = true /\ ka = deg (st_g s) a).
  { apply orient_cases in Ho. destruct Ho as [[-> [-> [-> _]]]|[-> [-> [-> _]]]]; [auto|]. rewrite has_edge_sym. auto. }
  destruct Hab as [Hab Hka]. clear Ho Hab0.
  destruct (Nat.eqb (length (bin nodes g0 ka)) 2 && Nat.eqb ka kb);
    [intros [= <-]; left; repeat split|].
  destruct (draw_c (bin nodes g0 ka) a b evs1) as [[c evs2]|] eqn:Hc; [|discriminate].
  apply draw_c_spec in Hc. destruct Hc as [Hcb [Hca Hcb']]. apply bin_In in Hcb. destruct Hcb as [Hcn Hck].
  destruct (eligible nodes (st_g s) a b c) as [|d0 ds] eqn:Hds;
    [intros [= <-]; left; repeat split|].
  rewrite <- Hds. clear d0 ds Hds.
  destruct evs2 as [|[l|j n] evs3]; [discriminate|discriminate|].
  destruct (Nat.eqb n (length (eligible nodes (st_g s) a b c)) && Nat.ltb j n) eqn:Hv; [|discriminate].
  apply andb_true_iff in Hv. destruct Hv as [Hn Hj]. apply Nat.eqb_eq in Hn. apply Nat.ltb_lt in Hj.
  assert (Hd : In (nth j (eligible nodes (st_g s) a b c) 0%Z) (eligible nodes (st_g s) a b c)) by (apply nth_In; lia).
  set (d := nth j (eligible nodes (st_g s) a b c) 0%Z) in *.
  apply eligible_spec in Hd. destruct Hd as [Hdn [Hcd [Hda [Hdb Hdc]]]].
  destruct (has_edge (st_g s) a d || has_edge (st_g s) c b) eqn:Hp;
    [intros [= <-]; left; repeat split|].
  apply orb_false_iff in Hp. destruct Hp as [Had Hcbe].
  intros [= <-]. right. exists a, b, c, d. unfold swapped. cbn.
  split; [constructor; assumption|]. repeat split; try assumption. congruence.
Qed.

Lemma step_graph (R : list edge -> list edge -> Prop) nodes g0 s s' :
  R (st_g s) (st_g s) -> (forall a b c d, swap_ok (st_g s) a b c d -> R (st_g s) (swap (st_g s) a b c d)) ->
  swap_step nodes g0 s = Next s' -> R (st_g s) (st_g s').
Proof.
  intros Hr Hsw H. apply swap_step_cases in H.
  destruct H as [[-> _]|(a & b & c & d & Hok & _ & _ & _ & -> & _)]; auto.
Qed.

Definition closed (nodes : list Z) (g : list edge) : Prop :=
  forall e, In e g -> In (fst e) nodes /\ In (snd e) nodes.

Lemma In_add_edge g a b e : In e (add_edge g a b) -> In e g \/ e = (a, b).
Proof.
  unfold add_edge. destruct (has_edge g a b); [auto|]. intros H. apply in_app_or in H.
  destruct H as [H|[H|[]]]; auto.
Qed.

Lemma In_swap g a b c d e : In e (swap g a b c d) -> In e g \/ e = (a, d) \/ e = (c, b).
Proof.
  unfold swap. intros H. apply In_add_edge in H. destruct H as [H|H]; [|auto].
  apply In_add_edge in H. destruct H as [H|H]; [|auto].
  unfold remove_edge in H. apply filter_In in H. destruct H as [H _]. apply filter_In in H. tauto.
Qed.

Lemma closed_has_edge nodes g a b : closed nodes g -> has_edge g a b = true -> In a nodes /\ In b nodes.
Proof.
  intros Hc H. apply has_edge_In in H. destruct H as [[x y] [Hi Hs]]. apply same_edge_iff in Hs.
  destruct (Hc _ Hi) as [Hx Hy]. cbn in Hx, Hy. destruct Hs as [[-> ->]|[-> ->]]; auto.
Qed.

Lemma swap_closed nodes g a b c d : closed nodes g -> swap_ok g a b c d -> closed nodes (swap g a b c d).
Proof.
  intros Hc [Eab Ecd _ _ _ _ _ _ _] e He.
  destruct (closed_has_edge nodes g a b Hc Eab) as [Ha Hb].
  destruct (closed_has_edge nodes g c d Hc Ecd) as [Hc' Hd].
  apply In_swap in He. destruct He as [He|[-> | ->]]; cbn [fst snd]; auto.
Qed.

Lemma run_graph (P : list edge -> Prop) nodes g0 imax :
  (forall g a b c d, P g -> swap_ok g a b c d -> P (swap g a b c d)) ->
  forall fuel s, P (st_g s) -> P (st_g (state_of (run fuel imax nodes g0 s))).
Proof.
  intros Hsw. induction fuel as [|k IH]; intros s Hp; cbn [run]; destruct (Nat.ltb (st_cnt s) imax); try exact Hp.
  destruct (swap_step nodes g0 s) as [s'|] eqn:Hst; [|exact Hp].
  apply IH. revert Hst. apply (step_graph (fun _ g' => P g')); [exact Hp | intros a b c d; apply Hsw, Hp].
Qed.

Set Implicit Arguments.
Record inv (g0 : list edge) (imax : nat) (s : state) : Prop := {
  inv_simple : simple (st_g s);
  inv_deg : forall n, deg (st_g s) n = deg g0 n;
  inv_len : length (st_g s) = length g0;
  inv_missing : length (missing g0 (st_g s)) <= 2 * st_cnt s;
  inv_cnt : st_cnt s <= imax;
  inv_swaps : length (st_swaps s) = st_cnt s
}.
Unset Implicit Arguments.

Lemma step_inv nodes g0 imax s s' : nodupu g0 -> inv g0 imax s -> st_cnt s < imax ->
  swap_step nodes g0 s = Next s' -> inv g0 imax s'.
Proof.
  intros Hn0 [Hs Hd Hl Hm Hi Hw] Hlt H. apply swap_step_cases in H.
  destruct H as [[Eg [Ec Ew]]|(a & b & c & d & Hok & _ & _ & _ & Eg & Ec & Ew)].
  - constructor; rewrite ?Eg, ?Ec, ?Ew; assumption.
  - refine {| inv_simple := _; inv_deg := _; inv_len := _; inv_missing := _; inv_cnt := _; inv_swaps := _ |};
      rewrite ?Eg, ?Ec, ?Ew.
    + exact (swap_simple Hs Hok).
    + intros n. rewrite (swap_degree (proj1 Hs) Hok). apply Hd.
    + rewrite (swap_length (proj1 Hs) Hok). exact Hl.
    + pose proof (missing_swap g0 (st_g s) a b c d Hn0). lia.
    + exact Hlt.
    + cbn. rewrite Hw. reflexivity.
Qed.

Lemma run_inv nodes g0 imax : nodupu g0 -> forall fuel s, inv g0 imax s ->
  inv g0 imax (state_of (run fuel imax nodes g0 s)).
Proof.
  intros Hn0. induction fuel as [|k IH]; intros s Hi; cbn [run].
  - destruct (Nat.ltb (st_cnt s) imax); exact Hi.
  - destruct (Nat.ltb (st_cnt s) imax) eqn:Hlt; [|exact Hi].
    destruct (swap_step nodes g0 s) as [s'|] eqn:Hst; [|exact Hi].
    apply IH. apply Nat.ltb_lt in Hlt. exact (step_inv nodes g0 imax s s' Hn0 Hi Hlt Hst).
Qed.

Lemma run_done_ge {fuel imax nodes g0 s s'} : run fuel imax nodes g0 s = Done s' -> imax <= st_cnt s'.
Proof.
  revert s. induction fuel as [|k IH]; intros s; cbn [run]; destruct (Nat.ltb_spec (st_cnt s) imax) as [Hlt|Hge].
  - discriminate.
  - intros [= <-]. exact Hge.
  - destruct (swap_step nodes g0 s) as [s1|]; [apply IH | discriminate].
  - intros [= <-]. exact Hge.
Qed.

Definition init (g0 l : list edge) (r : list ev) : state :=
  {| st_g := g0; st_es := l; st_cnt := 0; st_evs := r; st_swaps := [] |}.

Lemma init_inv g0 imax l r : simple g0 -> inv g0 imax (init g0 l r).
Proof. intros Hs. constructor; cbn; auto; try lia. rewrite missing_self. cbn. lia. Qed.

(* the loop runs from the initial state, unless the script does not even start with a fitting shuffle *)
Lemma build_out nodes g0 f evs fuel :
  (exists l r, r_out (build nodes g0 f evs fuel) = run fuel (imax_of (length g0) f) nodes g0 (init g0 l r))
  \/ r_out (build nodes g0 f evs fuel) = Stuck (init g0 [] evs).
Proof.
  unfold build. cbn [r_out]. destruct evs as [|[l|i n] r]; try (right; reflexivity).
  destruct (valid_shuffle l g0) eqn:Hv; [left|right; reflexivity]. exists l, r.
  unfold valid_shuffle in Hv. apply andb_true_iff, proj1, andb_true_iff, proj1, Nat.eqb_eq in Hv. rewrite Hv. reflexivity.
Qed.

Lemma build_inv nodes g0 f evs fuel : simple g0 ->
  inv g0 (imax_of (length g0) f) (state_of (r_out (build nodes g0 f evs fuel))).
Proof.
  intros Hs. destruct (build_out nodes g0 f evs fuel) as [(l & r & ->)| ->].
  - apply run_inv; [exact (proj1 Hs) | apply init_inv, Hs].
  - apply init_inv, Hs.
Qed.

Lemma build_closed nodes g0 f evs fuel : closed nodes g0 ->
  closed nodes (st_g (state_of (r_out (build nodes g0 f evs fuel)))).
Proof.
  intros Hc. destruct (build_out nodes g0 f evs fuel) as [(l & r & ->)| ->]; [|exact Hc].
  apply (run_graph (closed nodes)); [intros g a b c d; apply swap_closed | exact Hc].
Qed.

Lemma build_done nodes g0 f evs fuel s : simple g0 ->
  r_out (build nodes g0 f evs fuel) = Done s ->
  inv g0 (imax_of (length g0) f) s /\ st_cnt s = imax_of (length g0) f.
Proof.
  intros Hs H. pose proof (build_inv nodes g0 f evs fuel Hs) as Hi. rewrite H in Hi.
  split; [exact Hi|]. apply Nat.le_antisymm; [exact (inv_cnt Hi)|].
  destruct (build_out nodes g0 f evs fuel) as [(l & r & E)|E]; rewrite H in E; [|discriminate].
  exact (run_done_ge (eq_sym E)).
Qed.
