(* C07 / C08, kernel side: a run of either scheduler loop of Model/Kernel.v is a sequence of
   scheduler-internal moves (which touch neither the loci nor the user state and never add a
   posted event) and of CALLS of event functions:
     - a stochastic / per-element event function, entered on a member of its registered locus
       at that very instant, with the handler time equal to the clock (C05);
     - a posted event function, popped from the head of the (discarded) queue.
   [Steps s0 cs s] records the calls with the states they were entered on, oldest first, so
   that state invariants can be proved by induction over a run and every statement of the form
   "at every call of an event function in a run ..." has a precise meaning.
   htimes / ctimes: the handler-entry records of the output are the times of the calls.  Section
   Loops: one induction principle per scheduler loop; stoch_run_steps / sync_run_steps: every run
   is such a sequence.  For every world type, table, oracle and fuel. *)
From Coq Require Import List ZArith QArith Qabs Bool Arith.
From EpyV Require Import Lib.Lists Model.Kernel Proofs.KernelBase Proofs.KernelMember Proofs.KernelSync.
Import ListNotations.
Open Scope Q_scope.

Inductive call := CEv (x : nat * nat * event) (t : Q) (e : elem) | CPost (h : entry).

Section Run.
Context {W : Type}.
Variable tb : table W.
Implicit Types s : st W.

Definition sched s s' : Prop :=
  loci s' = loci s /\ world s' = world s /\ nextid s' = nextid s /\ incl (queue s') (queue s)
  /\ out s' = out s /\ (wf s -> wf s')
  /\ (wf s -> forall x, In x (queue s) -> e_live x = true -> In x (queue s')).

Lemma sched_loci s s' : sched s s' -> loci s' = loci s.
Proof. intros H. apply H. Qed.
Lemma sched_world s s' : sched s s' -> world s' = world s.
Proof. intros H. apply H. Qed.
Lemma sched_nextid s s' : sched s s' -> nextid s' = nextid s.
Proof. intros H. apply H. Qed.
Lemma sched_queue s s' : sched s s' -> incl (queue s') (queue s).
Proof. intros H. apply H. Qed.
Lemma sched_out s s' : sched s s' -> out s' = out s.
Proof. intros H. apply H. Qed.
Lemma sched_wf s s' : sched s s' -> wf s -> wf s'.
Proof. intros H. apply H. Qed.
Lemma sched_live s s' : sched s s' -> wf s -> forall x, In x (queue s) -> e_live x = true -> In x (queue s').
Proof. intros H. apply H. Qed.

Lemma sched_refl s : sched s s.
Proof.
  split; [reflexivity|]. split; [reflexivity|]. split; [reflexivity|]. split; [apply incl_refl|]. split; [reflexivity|]. split; auto.
Qed.

Lemma sched_trans s1 s2 s3 : sched s1 s2 -> sched s2 s3 -> sched s1 s3.
Proof.
  intros (a1 & a2 & a3 & a4 & a5 & a6 & a7) (b1 & b2 & b3 & b4 & b5 & b6 & b7).
  split; [congruence|]. split; [congruence|]. split; [congruence|]. split; [eapply incl_tran; eassumption|].
  split; [congruence|]. split; [auto|]. intros Hw x Hx Hl. apply b7; [apply a6, Hw | apply a7; assumption | exact Hl].
Qed.

Lemma sched_same s s' : loci s' = loci s -> world s' = world s -> nextid s' = nextid s -> queue s' = queue s ->
  out s' = out s -> sched s s'.
Proof.
  intros H1 H2 H3 H4 H5. split; [exact H1|]. split; [exact H2|]. split; [exact H3|]. unfold wf. rewrite H3, H4, H5.
  split; [apply incl_refl|]. split; [reflexivity|]. split; auto.
Qed.

Lemma sched_advance a b c s : sched s (advance a b c s).
Proof. apply sched_same; reflexivity. Qed.
Lemma sched_set_clock t s : sched s (set_clock t s).
Proof. apply sched_same; reflexivity. Qed.
Lemma sched_set_stuck s : sched s (set_stuck s).
Proof. apply sched_same; reflexivity. Qed.
Lemma sched_discard s : sched s (discard s).
Proof.
  unfold discard. split; [reflexivity|]. split; [reflexivity|]. split; [reflexivity|]. cbn [queue set_queue].
  split; [apply discard_dead_incl|]. split; [reflexivity|]. unfold wf. cbn [queue nextid set_queue]. split; intros [H1 H2].
  - split; [apply discard_dead_NoDup, H1|]. rewrite Forall_forall in *. intros x Hx. apply H2. eapply discard_dead_incl. exact Hx.
  - intros x Hx Hl. apply discard_dead_keeps_live; assumption.
Qed.

(* the state an event function entered by call c on s leaves behind (tap included) *)
Definition after (c : call) s : st W :=
  match c with
  | CEv x t e => fire_event tb x t e s
  | CPost h => pend_step tb h s
  end.

(* what is known at the instant of a call *)
Definition call_ok (c : call) s : Prop :=
  match c with
  | CEv x t e => In x (all_events tb) /\ mem e (locus s (ev_locus (snd x))) = true /\ clock s = t
  | CPost h => head (queue s) = Some h /\ e_live h = true
  end.

Inductive Steps (s0 : st W) : list (st W * call) -> st W -> Prop :=
| st_refl : Steps s0 [] s0
| st_sched cs s s' : Steps s0 cs s -> sched s s' -> Steps s0 cs s'
| st_call cs s c : Steps s0 cs s -> call_ok c s -> Steps s0 (cs ++ [(s, c)]) (after c s).

Lemma Steps_inv (J : st W -> Prop) :
  (forall s s', J s -> sched s s' -> J s') ->
  (forall s c, J s -> call_ok c s -> J (after c s)) ->
  forall s0 cs s, J s0 -> Steps s0 cs s -> J s /\ Forall (fun sc => J (fst sc)) cs.
Proof.
  intros Hs Hc s0 cs s H0 H. induction H as [|cs s s' H IH Hsc|cs s c H IH Hok].
  - split; [exact H0 | constructor].
  - split; [eapply Hs; [exact (proj1 IH) | exact Hsc] | exact (proj2 IH)].
  - split; [apply Hc; [exact (proj1 IH) | exact Hok]|].
    apply Forall_app. split; [exact (proj2 IH)|]. constructor; [exact (proj1 IH) | constructor].
Qed.

Lemma Steps_split s0 cs s : Steps s0 cs s -> forall cs1 sc cs2, cs = cs1 ++ sc :: cs2 ->
  Steps s0 cs1 (fst sc) /\ call_ok (snd sc) (fst sc) /\ Steps (after (snd sc) (fst sc)) cs2 s.
Proof.
  intros H. induction H as [|cs s s' H IH Hsc|cs s c H IH Hok]; intros cs1 sc cs2 E.
  - destruct cs1; discriminate.
  - destruct (IH cs1 sc cs2 E) as (A & B & C). split; [exact A|]. split; [exact B|]. eapply st_sched; eassumption.
  - destruct (snoc_cases cs2) as [->|[cs2' [z ->]]].
    + apply app_inj_tail in E. destruct E as [<- <-]. cbn [fst snd]. split; [exact H|]. split; [exact Hok | apply st_refl].
    + replace (cs1 ++ sc :: cs2' ++ [z]) with ((cs1 ++ sc :: cs2') ++ [z]) in E by (rewrite <- app_assoc; reflexivity).
      apply app_inj_tail in E. destruct E as [E <-]. destruct (IH cs1 sc cs2' E) as (A & B & C).
      split; [exact A|]. split; [exact B|]. apply st_call; assumption.
Qed.

Lemma Steps_calls s0 cs s : Steps s0 cs s ->
  forall sc, In sc cs -> call_ok (snd sc) (fst sc) /\ exists cs1 cs2, cs = cs1 ++ sc :: cs2 /\ Steps s0 cs1 (fst sc).
Proof.
  intros H sc Hin. destruct (in_split _ _ Hin) as [cs1 [cs2 E]]. destruct (Steps_split s0 cs s H cs1 sc cs2 E) as (A & B & _).
  split; [exact B|]. exists cs1, cs2. split; [exact E | exact A].
Qed.

Lemma Steps_inv_call (J : st W -> Prop) :
  (forall s s', J s -> sched s s' -> J s') ->
  (forall s c, J s -> call_ok c s -> J (after c s)) ->
  forall s0 cs s s1 c, J s0 -> Steps s0 cs s -> In (s1, c) cs -> J s1 /\ call_ok c s1.
Proof.
  intros Hs Hc s0 cs s s1 c H0 H Hin. split; [|exact (proj1 (Steps_calls s0 cs s H _ Hin))].
  exact (proj1 (Forall_forall _ _) (proj2 (Steps_inv J Hs Hc s0 cs s H0 H)) _ Hin).
Qed.

Lemma Steps_app_sched s0 cs s s' : Steps s0 cs s -> sched s s' -> Steps s0 cs s'.
Proof. apply st_sched. Qed.

(* every call writes exactly one handler-entry record, carrying the time the event function is
   given; [posted] says whether posted event functions are counted *)
Definition call_time (c : call) : Q := match c with CEv _ t _ => t | CPost h => e_time h end.
Definition htimes (posted : bool) (o : list obs) : list Q :=
  flat_map (fun x => match x with
                     | OHandler _ t _ _ (Some _) => [t]
                     | OHandler _ t _ _ None => if posted then [t] else []
                     | _ => []
                     end) o.
Definition ctimes (posted : bool) (cs : list (st W * call)) : list Q :=
  flat_map (fun sc => match snd sc with CEv _ t _ => [t] | CPost h => if posted then [e_time h] else [] end) cs.

Lemma htimes_act p l : Forall act_obs l -> htimes p l = [].
Proof.
  induction l as [|x l IH]; intros H; [reflexivity|]. inversion H as [|? ? Hx H']; subst.
  cbn [htimes flat_map]. fold (htimes p l). rewrite (IH H'). destruct x; cbn in Hx; try contradiction; reflexivity.
Qed.

Lemma htimes_app p a b : htimes p (a ++ b) = htimes p a ++ htimes p b.
Proof. apply flat_map_app. Qed.

Lemma after_htimes p c s : htimes p (out (after c s)) = ctimes p [(s, c)] ++ htimes p (out s).
Proof.
  destruct c as [[[pi j] ev] t e|h]; cbn [after ctimes flat_map snd]; rewrite app_nil_r.
  - destruct (fire_event_spec tb pi j ev t e s) as [_ [l [A E]]]. cbv zeta in E. rewrite E.
    change (OTap t pi (NEv pi j) e :: l ++ ?r) with ((OTap t pi (NEv pi j) e :: l) ++ r).
    rewrite htimes_app. cbn [htimes flat_map app]. fold (htimes p l). rewrite (htimes_act p l A). reflexivity.
  - unfold pend_step, trec. cbn [out emit htimes flat_map app].
    destruct (fire_shape tb h (set_clock (e_time h) (set_queue (remove_id (e_id h) (queue s)) s))) as [l [A E]].
    rewrite E, flat_map_app. fold (htimes p l). rewrite (htimes_act p l A). reflexivity.
Qed.

Lemma Steps_htimes p s0 cs s : Steps s0 cs s -> htimes p (out s) = rev (ctimes p cs) ++ htimes p (out s0).
Proof.
  intros H. induction H as [|cs s s' H IH Hs|cs s c H IH Hok]; [reflexivity| |].
  - rewrite (sched_out s s' Hs). exact IH.
  - unfold ctimes. rewrite after_htimes, IH, flat_map_app, rev_app_distr, app_assoc. do 2 f_equal.
    destruct c as [x t e|h]; [|destruct p]; reflexivity.
Qed.

(* runPendingEvents makes scheduler moves and calls of posted event functions *)
Lemma run_pending_inv (P : st W -> Prop) :
  (forall s s', P s -> sched s s' -> P s') ->
  (forall s h, P s -> call_ok (CPost h) s -> P (after (CPost h) s)) ->
  forall fuel t n s n' s', run_pending tb fuel t n s = (n', s') -> P s -> P s'.
Proof.
  intros Hs Hc. induction fuel as [|f IH]; intros t n s n' s' E H; cbn [run_pending] in E.
  - inversion E; subst. exact (Hs _ _ H (sched_set_stuck s)).
  - pose proof (Hs _ _ H (sched_discard s)) as Hd.
    destruct (head (queue (discard s))) as [h|] eqn:Eh; [|inversion E; subst; exact Hd].
    destruct (Qle_bool (e_time h) t); [|inversion E; subst; exact Hd].
    apply (IH _ _ _ _ _ E), (Hc _ h Hd). split; [exact Eh | exact (discard_head_live s h Eh)].
Qed.

(* the loop over a tranche calls its pairs that are (still) members, at the time of the step *)
Lemma fire_tranche_calls t (P : st W -> Prop) : forall evs nev s nev' s',
  (forall x e s, In (x, e) evs -> mem e (locus s (ev_locus (snd x))) = true -> P s -> P (fire_event tb x t e s)) ->
  fire_tranche tb t evs nev s = (nev', s') -> P s -> P s'.
Proof.
  induction evs as [|[x e] evs IH]; intros nev s nev' s' Hf E H; cbn [fire_tranche] in E; [inversion E; subst; exact H|].
  assert (Hf' : forall x0 e0 s1, In (x0, e0) evs -> mem e0 (locus s1 (ev_locus (snd x0))) = true -> P s1 -> P (fire_event tb x0 t e0 s1))
    by (intros x0 e0 s1 Hin; apply Hf; right; exact Hin).
  destruct (mem e (locus s (ev_locus (snd x)))) eqn:Em; [|exact (IH _ _ _ _ Hf' E H)].
  exact (IH _ _ _ _ Hf' E (Hf x e s (or_introl eq_refl) Em H)).
Qed.

(* [Base] holds along every run that starts in it (as in Steps_inv); [Head t s] is an invariant of the
   loop head, t being the loop's time, proved stage by stage with Base at hand *)
Section Loops.
Variable Base : st W -> Prop.
Hypothesis Base_sched : forall s s', Base s -> sched s s' -> Base s'.
Hypothesis Base_call : forall s c, Base s -> call_ok c s -> Base (after c s).
Variable pf : nat.
Variable Head : Q -> st W -> Prop.
Hypothesis Head_stuck : forall t s, Base s -> Head t s -> Head t (set_stuck s).

Lemma Base_run_pending {fuel t n s n' s'} : run_pending tb fuel t n s = (n', s') -> Base s -> Base s'.
Proof. exact (run_pending_inv Base Base_sched (fun s h => Base_call s (CPost h)) fuel t n s n' s'). Qed.

Lemma stoch_loop_inv :
  (forall t s, Base s -> Head t s -> Head t (discard s)) ->
  (forall t s h n s', Base s -> Head t s -> Qeq_bool (sum_rates s (transitions tb)) 0 = true ->
     head (queue (discard s)) = Some h -> run_pending tb pf (e_time h) 0 (discard s) = (n, s') -> Head (e_time h) s') ->
  (forall t s x dt s3 n s4, Base s -> Head t s -> Qeq_bool (sum_rates s (transitions tb)) 0 = false ->
     stoch_select tb s = Some (x, dt, s3) -> run_pending tb pf (Qred (t + dt)) 0 s3 = (n, s4) ->
     let nt := Qred (t + dt) in let s5 := set_clock nt s4 in
     (locus s5 (ev_locus (snd x)) = [] -> Head nt s5)
     /\ forall e, call_ok (CEv x nt e) (advance 0 0 1 s5) -> Head nt (fire_event tb x nt e (advance 0 0 1 s5))) ->
  forall fuel t ev s t' ev' s', stoch_loop tb pf fuel t ev s = (t', ev', s') -> Base s -> Head t s -> Base s' /\ Head t' s'.
Proof.
  intros Head_idle Head_jump Head_event. induction fuel as [|f IH]; intros t ev s t' ev' s' E Hb Hi.
  - cbn [stoch_loop] in E. inversion E; subst. split; [exact (Base_sched _ _ Hb (sched_set_stuck s)) | exact (Head_stuck _ _ Hb Hi)].
  - rewrite stoch_loop_S in E. destruct (at_equil tb t s); [inversion E; subst; split; assumption|].
    destruct (Qeq_bool (sum_rates s (transitions tb)) 0) eqn:Ea.
    + unfold next_pending_time in E. pose proof (Base_sched _ _ Hb (sched_discard s)) as Hd.
      destruct (head (queue (discard s))) as [h|] eqn:Eh; cbn [option_map] in E.
      * destruct (run_pending tb pf (e_time h) 0 (discard s)) as [n s''] eqn:Ep.
        exact (IH _ _ _ _ _ _ E (Base_run_pending Ep Hd) (Head_jump _ _ _ _ _ Hb Hi Ea Eh Ep)).
      * inversion E; subst. split; [exact Hd | exact (Head_idle _ _ Hb Hi)].
    + destruct (stoch_select tb s) as [[[x dt] s3]|] eqn:Es.
      2:{ inversion E; subst. split; [exact (Base_sched _ _ Hb (sched_set_stuck s)) | exact (Head_stuck _ _ Hb Hi)]. }
      destruct (stoch_select_shape tb s x dt s3 Es) as [Hx [nr [_ E3]]]. cbv zeta in E.
      destruct (run_pending tb pf (Qred (t + dt)) 0 s3) as [n s4] eqn:Ep.
      destruct (Head_event _ _ _ _ _ _ _ Hb Hi Ea Es Ep) as [I0 I1]. cbv zeta in I0, I1.
      assert (B5 : Base (set_clock (Qred (t + dt)) s4)).
      { apply (Base_sched s4); [|apply sched_set_clock]. apply (Base_run_pending Ep). rewrite E3. exact (Base_sched _ _ Hb (sched_advance nr 1 0 s)). }
      set (s5 := set_clock (Qred (t + dt)) s4) in *.
      destruct (locus s5 (ev_locus (snd x))) as [|e0 l0] eqn:El.
      * rewrite (stoch_fire_empty tb x _ _ s5 El) in E. exact (IH _ _ _ _ _ _ E B5 (I0 eq_refl)).
      * assert (Hne : locus s5 (ev_locus (snd x)) <> []) by (rewrite El; discriminate).
        destruct (stoch_fire_member tb x (Qred (t + dt)) (ev + n) s5 Hne) as [e [He Ef]]. rewrite Ef in E.
        assert (Hok : call_ok (CEv x (Qred (t + dt)) e) (advance 0 0 1 s5)).
        { split; [exact Hx|]. split; [apply mem_In; exact He | reflexivity]. }
        exact (IH _ _ _ _ _ _ E (Base_call _ _ (Base_sched _ _ B5 (sched_advance 0 0 1 s5)) Hok) (I1 e Hok)).
Qed.

(* s2 is the state on which the tranche of the step was drawn *)
Lemma sync_loop_inv :
  (forall t s n s1 evs s2 nev s3, Base s -> Head t s -> run_pending tb pf t 0 (set_clock t s) = (n, s1) ->
     Base s2 -> sched s1 s2 -> clock s2 = t ->
     (forall x e, In (x, e) evs -> In x (all_events tb) /\ mem e (locus s2 (ev_locus (snd x))) = true) ->
     fire_tranche tb t evs n s2 = (nev, s3) -> Head (Qred (t + 1)) s3) ->
  forall fuel t ev k s t' ev' k' s', sync_loop tb pf fuel t ev k s = (t', ev', k', s') -> Base s -> Head t s -> Base s' /\ Head t' s'.
Proof.
  intros Head_step. induction fuel as [|f IH]; intros t ev k s t' ev' k' s' E Hb Hi.
  - cbn [sync_loop] in E. inversion E; subst. split; [exact (Base_sched _ _ Hb (sched_set_stuck s)) | exact (Head_stuck _ _ Hb Hi)].
  - rewrite sync_loop_S in E. destruct (at_equil tb t s); [inversion E; subst; split; assumption|].
    unfold sync_step in E. destruct (run_pending tb pf t 0 (set_clock t s)) as [n s1] eqn:Ep.
    pose proof (Base_run_pending Ep (Base_sched _ _ Hb (sched_set_clock t s))) as B1.
    pose proof (tranche_member tb (set_clock t s1)) as Hmem.
    rewrite tranche_spec in E, Hmem. cbn [fst] in Hmem.
    set (s2 := advance _ _ _ (set_clock t s1)) in *.
    assert (S2 : sched s1 s2) by (eapply sched_trans; [apply (sched_set_clock t) | apply sched_advance]).
    pose proof (Base_sched _ _ B1 S2) as B2.
    destruct (fire_tranche tb t _ n s2) as [nev s3] eqn:Ef.
    assert (Hev : forall x e, In (x, e) (spec_tranche tb (loci (set_clock t s1)) (rands (set_clock t s1)) (draws (set_clock t s1))) ->
                    In x (all_events tb) /\ mem e (locus s2 (ev_locus (snd x))) = true).
    { intros x e Hxe. destruct (Hmem x e Hxe) as (A & _ & M). split; [exact A | exact M]. }
    apply (IH _ _ _ _ _ _ _ _ E); [|exact (Head_step _ _ _ _ _ _ _ _ Hb Hi Ep B2 S2 eq_refl Hev Ef)].
    refine (proj1 (fire_tranche_calls t (fun s => Base s /\ clock s = t) _ _ _ _ _ _ Ef (conj B2 eq_refl))).
    intros x e s4 Hxe Em [B4 C4]. split; [|rewrite fire_event_clock; exact C4].
    apply (Base_call s4 (CEv x t e) B4). split; [exact (proj1 (Hev x e Hxe))|]. split; [exact Em | exact C4].
Qed.
End Loops.

Lemma reach_sched s0 s s' : (exists cs, Steps s0 cs s) -> sched s s' -> exists cs, Steps s0 cs s'.
Proof. intros [cs H] Hs. exists cs. exact (st_sched s0 cs s s' H Hs). Qed.

Lemma reach_call s0 s c : (exists cs, Steps s0 cs s) -> call_ok c s -> exists cs, Steps s0 cs (after c s).
Proof. intros [cs H] Hok. exists (cs ++ [(s, c)]). exact (st_call s0 cs s c H Hok). Qed.

(* both runs: Base := "reached from set-up", no condition on the loop head *)
Theorem stoch_run_steps : forall pf fuel rs ls ds,
  exists cs, Steps (setup_state tb rs ls ds) cs (r_final (stoch_run tb pf fuel rs ls ds)).
Proof.
  intros pf fuel rs ls ds. unfold stoch_run.
  destruct (stoch_loop tb pf fuel 0 0 (setup_state tb rs ls ds)) as [[t ev] s] eqn:E. cbn [r_final].
  refine (proj1 (stoch_loop_inv _ (reach_sched _) (reach_call _) pf (fun _ _ => True) (fun _ _ _ _ => I)
                   (fun _ _ _ _ => I) (fun _ _ _ _ _ _ _ _ _ _ => I) _ fuel 0 0 _ t ev s E (ex_intro _ [] (st_refl _)) I)).
  intros. split; intros; exact I.
Qed.

Theorem sync_run_steps : forall pf fuel rs ds,
  exists cs, Steps (setup_state tb rs [] ds) cs (r_final (sync_run tb pf fuel rs ds)).
Proof.
  intros pf fuel rs ds. unfold sync_run.
  destruct (sync_loop tb pf fuel 1 0 0 (setup_state tb rs [] ds)) as [[[t ev] k] s] eqn:E. cbn [r_final].
  exact (proj1 (sync_loop_inv _ (reach_sched _) (reach_call _) pf (fun _ _ => True) (fun _ _ _ _ => I)
                  (fun _ _ _ _ _ _ _ _ _ _ _ _ _ _ _ _ => I) fuel 1 0 0 _ t ev k s E (ex_intro _ [] (st_refl _)) I)).
Qed.

End Run.

Arguments sched_loci {W s s'}.
Arguments sched_world {W s s'}.
Arguments sched_nextid {W s s'}.
Arguments sched_queue {W s s'}.
Arguments sched_out {W s s'}.
Arguments sched_wf {W s s'}.
Arguments sched_live {W s s'}.
