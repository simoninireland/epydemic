(* Lemmas for C06 (and the synchronous half of C05): an explicit specification of
   allEventsInTimestep as a function of the loci and the oracle streams, and the structure
   of a whole synchronous run as a sequence of timesteps. *)
From Coq Require Import List ZArith QArith Qabs Bool Arith Lia.
From EpyV Require Import Model.Kernel Proofs.KernelBase Proofs.KernelLoops Proofs.KernelTime Proofs.KernelRelabel Proofs.KernelMember.
Import ListNotations.
Open Scope Q_scope.

Definition xev := (nat * nat * event)%type.

Definition lookup (lc : list (list elem)) (x : xev) : list elem := nth (ev_locus (snd x)) lc [].

(* the guard of synchronousdynamics.py:71,81: non-empty locus and positive probability *)
Definition active (lc : list (list elem)) (x : xev) : bool :=
  match lookup lc x with [] => false | _ => Qltb 0 (ev_p (snd x)) end.

(* the elements put on trial for a per-element event *)
Definition block (lc : list (list elem)) (x : xev) : list elem := if active lc x then lookup lc x else [].

(* one variate per element, in order; an exhausted stream reads as 0 *)
Fixpoint spec_trials (x : xev) (p : Q) (els : list elem) (rs : list Q) : list (xev * elem) :=
  match els with
  | [] => []
  | e :: els' => if Qle_bool (hd 0 rs) p then (x, e) :: spec_trials x p els' (tl rs) else spec_trials x p els' (tl rs)
  end.

Fixpoint spec_elem (lc : list (list elem)) (evs : list xev) (rs : list Q) : list (xev * elem) :=
  match evs with
  | [] => []
  | x :: evs' => spec_trials x (ev_p (snd x)) (block lc x) rs ++ spec_elem lc evs' (skipn (length (block lc x)) rs)
  end.

Fixpoint count_elem (lc : list (list elem)) (evs : list xev) : nat :=
  match evs with [] => 0 | x :: evs' => length (block lc x) + count_elem lc evs' end.

(* one variate per active fixed-rate event, and on success one rank selecting a member *)
Fixpoint spec_fixed (lc : list (list elem)) (evs : list xev) (rs : list Q) (ds : list nat) : list (xev * elem) :=
  match evs with
  | [] => []
  | x :: evs' =>
      if active lc x then
        if Qle_bool (hd 0 rs) (ev_p (snd x))
        then (x, nth (hd 0%nat ds mod length (lookup lc x)) (lookup lc x) (EN 0)) :: spec_fixed lc evs' (tl rs) (tl ds)
        else spec_fixed lc evs' (tl rs) ds
      else spec_fixed lc evs' rs ds
  end.

Definition count_fixed (lc : list (list elem)) (evs : list xev) : nat := length (filter (active lc) evs).

Section KS.
Context {W : Type}.
Notation st := (st W).
Variable tb : table W.

Definition spec_tranche (lc : list (list elem)) (rs : list Q) (ds : list nat) : list (xev * elem) :=
  spec_elem lc (per_element tb) rs ++
  spec_fixed lc (fixed_rate tb) (skipn (count_elem lc (per_element tb)) rs) ds.

(* variates and ranks consumed by one call of allEventsInTimestep *)
Definition tranche_rands (lc : list (list elem)) : nat :=
  (count_elem lc (per_element tb) + count_fixed lc (fixed_rate tb))%nat.
Definition tranche_draws (lc : list (list elem)) (rs : list Q) (ds : list nat) : nat :=
  length (spec_fixed lc (fixed_rate tb) (skipn (count_elem lc (per_element tb)) rs) ds).

Lemma tl_skipn : forall A (l : list A), tl l = skipn 1 l.
Proof. intros A [|x l]; reflexivity. Qed.

Lemma trials_spec : forall p x els (s : st),
  trials p x els s = (spec_trials x p els (rands s), advance (length els) 0 0 s).
Proof.
  intros p x. induction els as [|e els IH]; intros s.
  - cbn [trials spec_trials length]. rewrite advance_0. reflexivity.
  - cbn [trials spec_trials length]. rewrite next_rand_adv, IH, advance_advance.
    cbn [advance rands Nat.add]. rewrite <- tl_skipn. reflexivity.
Qed.

Lemma elem_trials_block x (s : st) : elem_trials x s = trials (ev_p (snd x)) x (block (loci s) x) s.
Proof.
  unfold elem_trials, block, active, lookup, locus.
  destruct (nth _ _ _); [reflexivity|]. destruct (Qltb _ _); reflexivity.
Qed.

Lemma fixed_trial_active x (s : st) :
  fixed_trial x s =
  if active (loci s) x then
    let '(r, s1) := next_rand s in
    if Qle_bool r (ev_p (snd x)) then
      let '(k, s2) := next_draw s1 in
      ([(x, nth (k mod length (lookup (loci s) x)) (lookup (loci s) x) (EN 0))], s2)
    else ([], s1)
  else ([], s).
Proof.
  unfold fixed_trial, active, lookup, locus.
  destruct (nth _ _ _); [reflexivity|]. destruct (Qltb _ _); reflexivity.
Qed.

Lemma tranche_elem_spec : forall evs (s : st),
  tranche_elem evs s = (spec_elem (loci s) evs (rands s), advance (count_elem (loci s) evs) 0 0 s).
Proof.
  induction evs as [|x evs IH]; intros s.
  - cbn [tranche_elem spec_elem count_elem]. rewrite advance_0. reflexivity.
  - rewrite tranche_elem_cons, elem_trials_block, trials_spec. cbn [spec_elem count_elem].
    rewrite IH, advance_advance. cbn [advance rands loci Nat.add]. reflexivity.
Qed.

Lemma tranche_fixed_spec : forall evs (s : st),
  tranche_fixed evs s =
  (spec_fixed (loci s) evs (rands s) (draws s),
   advance (count_fixed (loci s) evs) 0 (length (spec_fixed (loci s) evs (rands s) (draws s))) s).
Proof.
  unfold count_fixed. induction evs as [|x evs IH]; intros s.
  - cbn [tranche_fixed spec_fixed filter length]. rewrite advance_0. reflexivity.
  - rewrite tranche_fixed_cons, fixed_trial_active. cbn [spec_fixed filter].
    destruct (active (loci s) x); [|rewrite IH; reflexivity].
    rewrite next_rand_adv. destruct (Qle_bool (hd 0 (rands s)) (ev_p (snd x))).
    + rewrite next_draw_adv, advance_advance, IH, advance_advance.
      cbn [advance rands draws loci Nat.add app length]. rewrite <- !tl_skipn. reflexivity.
    + rewrite IH, advance_advance. cbn [advance rands draws loci Nat.add app length].
      rewrite <- !tl_skipn. reflexivity.
Qed.

Lemma tranche_spec : forall (s : st),
  tranche tb s =
  (spec_tranche (loci s) (rands s) (draws s),
   advance (tranche_rands (loci s)) 0 (tranche_draws (loci s) (rands s) (draws s)) s).
Proof.
  intros s. unfold tranche, spec_tranche, tranche_rands, tranche_draws.
  rewrite tranche_elem_spec, tranche_fixed_spec, advance_advance.
  cbn [advance rands draws loci Nat.add]. reflexivity.
Qed.

Lemma spec_trials_In : forall x p els rs xe, In xe (spec_trials x p els rs) -> fst xe = x /\ In (snd xe) els.
Proof.
  intros x p. induction els as [|e els IH]; intros rs xe H; [destruct H|].
  cbn [spec_trials] in H. destruct (Qle_bool (hd 0 rs) p).
  - destruct H as [<-|H]; [split; [reflexivity | left; reflexivity]|].
    destruct (IH _ _ H) as [H1 H2]. split; [exact H1 | right; exact H2].
  - destruct (IH _ _ H) as [H1 H2]. split; [exact H1 | right; exact H2].
Qed.

Lemma block_In : forall lc x e, In e (block lc x) -> active lc x = true /\ In e (lookup lc x).
Proof. intros lc x e. unfold block. destruct (active lc x); [tauto | intros []]. Qed.

Lemma active_true : forall lc x, active lc x = true <-> lookup lc x <> [] /\ 0 < ev_p (snd x).
Proof.
  intros lc x. unfold active. destruct (lookup lc x).
  - split; [discriminate | intros [H _]; congruence].
  - rewrite Qltb_true. split; [intros H; split; [discriminate | exact H] | tauto].
Qed.

Lemma spec_elem_In : forall lc evs rs xe, In xe (spec_elem lc evs rs) ->
  In (fst xe) evs /\ active lc (fst xe) = true /\ In (snd xe) (lookup lc (fst xe)).
Proof.
  intros lc. induction evs as [|x evs IH]; intros rs xe H; [destruct H|].
  cbn [spec_elem] in H. apply in_app_or in H. destruct H as [H|H].
  - apply spec_trials_In in H. destruct H as [H1 H2]. apply block_In in H2. rewrite H1.
    split; [left; reflexivity | exact H2].
  - destruct (IH _ _ H) as (H1 & H2 & H3). split; [right; exact H1 | split; assumption].
Qed.

Lemma spec_fixed_In : forall lc evs rs ds xe, In xe (spec_fixed lc evs rs ds) ->
  In (fst xe) evs /\ active lc (fst xe) = true /\ In (snd xe) (lookup lc (fst xe)).
Proof.
  intros lc. induction evs as [|x evs IH]; intros rs ds xe H; [destruct H|].
  cbn [spec_fixed] in H. destruct (active lc x) eqn:Ha.
  - destruct (Qle_bool (hd 0 rs) (ev_p (snd x))).
    + destruct H as [<-|H].
      * cbn [fst snd]. split; [left; reflexivity|]. split; [exact Ha|].
        apply nth_mod_In. apply active_true in Ha. exact (proj1 Ha).
      * destruct (IH _ _ _ H) as (H1 & H2 & H3). split; [right; exact H1 | split; assumption].
    + destruct (IH _ _ _ H) as (H1 & H2 & H3). split; [right; exact H1 | split; assumption].
  - destruct (IH _ _ _ H) as (H1 & H2 & H3). split; [right; exact H1 | split; assumption].
Qed.

(* subsequences, in which C06_fixed_at_most_once says that a step fires each fixed-rate event at most once *)
Inductive subseq {A} : list A -> list A -> Prop :=
| sub_nil : subseq [] []
| sub_skip : forall x a b, subseq a b -> subseq a (x :: b)
| sub_take : forall x a b, subseq a b -> subseq (x :: a) (x :: b).

Lemma subseq_length : forall A (a b : list A), subseq a b -> (length a <= length b)%nat.
Proof. induction 1; simpl; lia. Qed.

Lemma fixed_rate_In : forall x, In x (fixed_rate tb) -> In x (all_events tb).
Proof. intros x H. apply transitions_in, in_or_app. right. exact H. Qed.

Lemma spec_tranche_In : forall lc rs ds xe, In xe (spec_tranche lc rs ds) ->
  In (fst xe) (all_events tb) /\ active lc (fst xe) = true /\ In (snd xe) (lookup lc (fst xe)).
Proof.
  intros lc rs ds xe H. apply in_app_or in H.
  destruct H as [H|H]; [apply spec_elem_In in H|apply spec_fixed_In in H]; destruct H as (H1 & H2 & H3);
    (split; [apply transitions_in, in_or_app; auto|split; assumption]).
Qed.

Lemma tranche_sel_ok : forall (s : st), Forall (sel_ok tb) (fst (tranche tb s)).
Proof.
  intros s. rewrite tranche_spec. cbn [fst]. apply Forall_forall. intros xe H.
  destruct (spec_tranche_In _ _ _ _ H) as (H1 & H2 & _). split; [exact H1|apply active_true in H2; apply H2].
Qed.

Lemma tranche_member : forall (s : st) x e, In (x, e) (fst (tranche tb s)) ->
  In x (all_events tb) /\ 0 < ev_p (snd x) /\ mem e (locus s (ev_locus (snd x))) = true.
Proof.
  intros s x e H. rewrite tranche_spec in H. cbn [fst] in H.
  destruct (spec_tranche_In _ _ _ _ H) as (H1 & H2 & H3). cbn [fst snd] in *. apply active_true in H2.
  split; [exact H1 | split; [apply H2 | apply mem_In; exact H3]].
Qed.

Lemma inactive_iff : forall lc x, active lc x = false <-> lookup lc x = [] \/ ev_p (snd x) <= 0.
Proof.
  intros lc x. unfold active. destruct (lookup lc x).
  - split; [left; reflexivity | reflexivity].
  - rewrite Qltb_false. split; [right; assumption | intros [H|H]; [discriminate | exact H]].
Qed.

Lemma spec_elem_inactive : forall lc evs rs x e, active lc x = false -> ~ In (x, e) (spec_elem lc evs rs).
Proof. intros lc evs rs x e H Hin. apply spec_elem_In in Hin. cbn [fst] in Hin. destruct Hin as (_ & Ha & _). congruence. Qed.

(* the body of the while loop of SynchronousDynamics.do (sync_loop_S ties it to the model);
   KernelLoops.sync_step is the same step with the posted entries fired logged (sync_step_log) *)
Definition sync_step (pf : nat) (t : Q) (s : st) : nat * st :=
  let s0 := set_clock t s in
  let '(n, s1) := run_pending tb pf t 0 s0 in
  let s1' := set_clock t s1 in
  let '(evs, s2) := tranche tb s1' in
  fire_tranche tb t evs n s2.

Lemma sync_loop_S : forall pf f t events steps s,
  sync_loop tb pf (S f) t events steps s =
  if at_equil tb t s then (t, events, steps, s)
  else let '(nev, s3) := sync_step pf t s in
       sync_loop tb pf f (Qred (t + 1)) (events + nev) (if (0 <? nev)%nat then S steps else steps) s3.
Proof.
  intros pf f t events steps s. cbn [sync_loop]. unfold at_equil, sync_step.
  destruct (Qle_bool (t_maxtime tb) t || t_equil tb (loci s) (world s)); [reflexivity|].
  cbv zeta. destruct (run_pending tb pf t 0 (set_clock t s)) as [n s1].
  destruct (tranche tb (set_clock t s1)) as [evs s2].
  destruct (fire_tranche tb t evs n s2) as [nev s3]. reflexivity.
Qed.

Lemma sync_step_log : forall pf t s, sync_step pf t s = fst (KernelLoops.sync_step tb pf t s).
Proof.
  intros pf t s. unfold sync_step, KernelLoops.sync_step. rewrite <- (run_pendingL_fst tb pf t 0 (set_clock t s)).
  destruct (run_pendingL tb pf t 0 (set_clock t s)) as [[n s1] l]. cbn [fst].
  destruct (tranche tb (set_clock t s1)) as [evs s2]. destruct (fire_tranche tb t evs n s2). reflexivity.
Qed.

(* the tranche of a step is the specification applied to the loci and oracle as they stand
   after the posted events of the step have run *)
Lemma sync_step_eq : forall pf t s,
  sync_step pf t s =
  let s1 := snd (run_pending tb pf t 0 (set_clock t s)) in
  let n := fst (run_pending tb pf t 0 (set_clock t s)) in
  fire_tranche tb t (spec_tranche (loci s1) (rands s1) (draws s1)) n
    (advance (tranche_rands (loci s1)) 0 (tranche_draws (loci s1) (rands s1) (draws s1)) (set_clock t s1)).
Proof.
  intros pf t s. unfold sync_step. cbv zeta.
  destruct (run_pending tb pf t 0 (set_clock t s)) as [n s1]. cbn [fst snd].
  rewrite tranche_spec. reflexivity.
Qed.

(* posted events first, then the tranche; the count is the number of handlers called *)
Lemma sync_step_records : forall pf t s, exists lp lt,
  out (snd (sync_step pf t s)) = lt ++ lp ++ out s /\
  Forall (posted_rec t) lp /\ Forall (tranche_rec tb t) lt /\
  fst (sync_step pf t s) = (nposted lp + nfired lt)%nat.
Proof.
  intros pf t s. rewrite sync_step_eq. cbv zeta.
  destruct (run_pending_count tb pf t 0%nat (set_clock t s)) as [lp [Ep [Rp Np]]].
  set (s1 := snd (run_pending tb pf t 0 (set_clock t s))) in *.
  set (n := fst (run_pending tb pf t 0 (set_clock t s))) in *.
  assert (Hsel : Forall (sel_ok tb) (spec_tranche (loci s1) (rands s1) (draws s1))).
  { assert (H := tranche_sel_ok (set_clock t s1)). rewrite tranche_spec in H. exact H. }
  set (s2 := advance _ _ _ _).
  destruct (fire_tranche_spec tb t _ n s2 eq_refl Hsel) as [_ [lt [Et [Rt Nt]]]].
  exists lp, lt. split; [|split; [exact Rp | split; [exact Rt|]]].
  - rewrite Et. unfold s2. cbn [advance out set_clock]. rewrite Ep. reflexivity.
  - rewrite Nt, Np. reflexivity.
Qed.

(* a run as a list of timesteps: (time, records of the posted events, records of the tranche),
   each in chronological order *)
Definition stepr := (Q * list obs * list obs)%type.

Fixpoint steps_ok (t : Q) (steps : list stepr) : Prop :=
  match steps with
  | [] => True
  | (ti, lp, lt) :: rest =>
      ti = t /\ Qle_bool (t_maxtime tb) t = false /\
      Forall (posted_rec t) lp /\ Forall (tranche_rec tb t) lt /\ steps_ok (Qred (t + 1)) rest
  end.

Definition flat (steps : list stepr) : list obs := flat_map (fun x : stepr => snd (fst x) ++ snd x) steps.
Definition step_events (x : stepr) : nat := (nposted (snd (fst x)) + nfired (snd x))%nat.
Definition total_events (steps : list stepr) : nat := fold_right (fun x a => (step_events x + a)%nat) 0%nat steps.
Definition busy_steps (steps : list stepr) : nat := length (filter (fun x => (0 <? step_events x)%nat) steps).

Fixpoint time_after (t : Q) (n : nat) : Q :=
  match n with O => t | S n' => time_after (Qred (t + 1)) n' end.

Lemma Qred_inject_Z : forall k, Qred (inject_Z k) = inject_Z k.
Proof.
  intros k. unfold Qred, inject_Z.
  generalize (Z.ggcd_gcd k 1) (Z.ggcd_correct_divisors k 1).
  destruct (Z.ggcd k 1) as [g [aa bb]]. cbn [fst snd]. rewrite Z.gcd_1_r. intros -> [H1 H2].
  rewrite Z.mul_1_l in H1, H2. subst. reflexivity.
Qed.

(* step times are integers: from 1, exactly 1, 2, 3, ... *)
Lemma time_after_inject : forall n z, time_after (inject_Z z) n = inject_Z (z + Z.of_nat n).
Proof.
  induction n as [|n IH]; intros z.
  - cbn [time_after]. rewrite Z.add_0_r. reflexivity.
  - cbn [time_after]. change 1 with (inject_Z 1). rewrite <- inject_Z_plus, Qred_inject_Z, IH.
    f_equal. lia.
Qed.

Lemma sync_loop_spec : forall pf fuel t ev stp s t' ev' stp' s',
  sync_loop tb pf fuel t ev stp s = (t', ev', stp', s') ->
  exists steps,
    rev (out s') = rev (out s) ++ flat steps /\
    steps_ok t steps /\
    t' = time_after t (length steps) /\
    ev' = (ev + total_events steps)%nat /\
    stp' = (stp + busy_steps steps)%nat /\
    (stuck s' = false -> at_equil tb t' s' = true).
Proof.
  intros pf. induction fuel as [|f IH]; intros t ev stp s t' ev' stp' s' H.
  - cbn [sync_loop] in H. inversion H; subst. exists []. cbn.
    rewrite app_nil_r, !Nat.add_0_r. repeat split. discriminate.
  - rewrite sync_loop_S in H. destruct (at_equil tb t s) eqn:Heq.
    + inversion H; subst. exists []. cbn. rewrite app_nil_r, !Nat.add_0_r. repeat split. intros _; exact Heq.
    + destruct (sync_step_records pf t s) as [lp [lt [Eo [Rp [Rt Nn]]]]].
      destruct (sync_step pf t s) as [nev s3]. cbn [fst snd] in *.
      destruct (IH _ _ _ _ _ _ _ _ H) as [steps (E1 & E2 & E3 & E4 & E5 & E6)].
      exists ((t, rev lp, rev lt) :: steps).
      assert (Hn : step_events (t, rev lp, rev lt) = nev).
      { unfold step_events, nposted, nfired. cbn [fst snd]. rewrite !filter_rev', !rev_length. symmetry; exact Nn. }
      split; [|split; [|split; [|split; [|split]]]].
      * rewrite E1, Eo. rewrite !rev_app_distr. unfold flat. cbn [flat_map fst snd]. rewrite <- !app_assoc. reflexivity.
      * cbn [steps_ok]. split; [reflexivity|]. split; [|split; [apply Forall_rev; exact Rp | split; [apply Forall_rev; exact Rt | exact E2]]].
        unfold at_equil in Heq. apply orb_false_iff in Heq. exact (proj1 Heq).
      * cbn [length time_after]. exact E3.
      * rewrite E4. cbn [total_events fold_right]. rewrite Hn. fold (total_events steps). lia.
      * rewrite E5. unfold busy_steps. cbn [filter]. rewrite Hn. destruct (0 <? nev)%nat; cbn [length]; lia.
      * exact E6.
Qed.

Lemma sync_run_spec : forall pf fuel rs ds, exists steps,
  let r := sync_run tb pf fuel rs ds in
  r_out r = rev (out (setup_state tb rs [] ds)) ++ flat steps /\
  steps_ok 1 steps /\
  r_time r = inject_Z (Z.of_nat (S (length steps))) /\
  r_events r = total_events steps /\
  r_steps r = busy_steps steps /\
  (r_stuck r = false -> at_equil tb (r_time r) (r_final r) = true).
Proof.
  intros pf fuel rs ds. unfold sync_run.
  destruct (sync_loop tb pf fuel 1 0 0 (setup_state tb rs [] ds)) as [[[t' ev'] stp'] s'] eqn:E.
  destruct (sync_loop_spec _ _ _ _ _ _ _ _ _ _ E) as [steps (E1 & E2 & E3 & E4 & E5 & E6)].
  exists steps. cbn [r_out r_time r_events r_steps r_stuck r_final].
  split; [exact E1|]. split; [exact E2|]. split; [|split; [exact E4 | split; [exact E5 | exact E6]]].
  rewrite E3. change 1 with (inject_Z 1). rewrite time_after_inject. f_equal. lia.
Qed.

Lemma steps_ok_nth : forall steps t k x, steps_ok t steps -> nth_error steps k = Some x ->
  fst (fst x) = time_after t k /\ Qle_bool (t_maxtime tb) (time_after t k) = false /\
  Forall (posted_rec (time_after t k)) (snd (fst x)) /\ Forall (tranche_rec tb (time_after t k)) (snd x).
Proof.
  induction steps as [|[[ti lp] lt] steps IH]; intros t k x H E; [destruct k; discriminate|].
  cbn [steps_ok] in H. destruct H as (H1 & H2 & H3 & H4 & H5).
  destruct k as [|k].
  - inversion E; subst. cbn [time_after fst snd]. repeat split; assumption.
  - cbn [nth_error time_after] in *. exact (IH _ _ _ H5 E).
Qed.

(* what is known of every record of a run, under either dynamics: handlers of stochastic events
   are called on members, taps of stochastic events name registered events of positive probability *)
Definition run_rec : obs -> Prop := stoch_rec (fun x => In x (all_events tb) /\ 0 < ev_p (snd x)).

Lemma tranche_run_rec : forall t o, tranche_rec tb t o -> run_rec o.
Proof.
  intros t o. destruct o; simpl; tauto.
Qed.

Lemma steps_ok_flat : forall steps t, steps_ok t steps -> Forall run_rec (flat steps).
Proof.
  induction steps as [|[[ti lp] lt] steps IH]; intros t H; [constructor|].
  cbn [steps_ok] in H. destruct H as (_ & _ & H3 & H4 & H5).
  unfold flat. cbn [flat_map fst snd]. apply Forall_app; split; [apply Forall_app; split|].
  - exact (Forall_impl _ (posted_stoch _ t) H3).
  - exact (Forall_impl _ (tranche_run_rec t) H4).
  - exact (IH _ H5).
Qed.

Lemma sync_run_records : forall pf fuel rs ds, Forall run_rec (r_out (sync_run tb pf fuel rs ds)).
Proof.
  intros pf fuel rs ds. destruct (sync_run_spec pf fuel rs ds) as [steps (E1 & E2 & _)].
  rewrite E1. apply Forall_app; split; [|exact (steps_ok_flat _ _ E2)].
  apply Forall_rev. eapply Forall_impl; [apply act_stoch|]. exact (proj1 (setup_state_out tb rs [] ds)).
Qed.

Lemma run_rec_tap : forall t pi pi' j e, run_rec (OTap t pi (NEv pi' j) e) ->
  pi' = pi /\ exists ev, In (pi, j, ev) (all_events tb) /\ 0 < ev_p ev.
Proof.
  intros t pi pi' j e [[k H]|(j' & ev & H1 & H2 & H3)]; [discriminate|].
  inversion H1; subst. split; [reflexivity|]. exists ev. split; assumption.
Qed.

Lemma run_rec_zero : forall t pi j e ev, In (pi, j, ev) (all_events tb) -> ~ 0 < ev_p ev ->
  ~ run_rec (OTap t pi (NEv pi j) e).
Proof.
  intros t pi j e ev Hin Hz H. apply run_rec_tap in H. destruct H as (_ & ev' & Hin' & Hp).
  rewrite (all_events_fun tb _ _ _ _ Hin Hin') in Hz. exact (Hz Hp).
Qed.

End KS.
