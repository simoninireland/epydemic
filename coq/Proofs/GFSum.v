(* Finite sums over Q (up to ==), list sums, and the two reindexing identities used for
   Cauchy products: the triangle rearrangement and the Leibniz (product) rule; with the first, the product of
   two polynomials is the polynomial of the Cauchy products of their coefficients ([poly_mul_sum]). *)
From Coq Require Import List ZArith QArith Bool Arith Lia Setoid Morphisms.
From EpyV Require Import Model.GF.
Import ListNotations.
Open Scope Q_scope.

Lemma qn_0 : qn 0 == 0.
Proof. reflexivity. Qed.
Lemma qn_S n : qn (S n) == qn n + 1.
Proof. unfold qn. rewrite Nat2Z.inj_succ, <- Z.add_1_r, inject_Z_plus. reflexivity. Qed.
Lemma qn_add a b : qn (a + b) == qn a + qn b.
Proof. unfold qn. rewrite Nat2Z.inj_add, inject_Z_plus. reflexivity. Qed.
Lemma qn_mul a b : qn (a * b) == qn a * qn b.
Proof. unfold qn. rewrite Nat2Z.inj_mul, inject_Z_mult. reflexivity. Qed.
Lemma qn_pos n : (0 < n)%nat -> ~ qn n == 0.
Proof. unfold qn, Qeq. simpl. lia. Qed.

Lemma qpow_add x a b : qpow x (a + b) == qpow x a * qpow x b.
Proof. induction a; simpl; [ring | rewrite IHa; ring]. Qed.

Lemma qpow_1 i : qpow 1 i == 1.
Proof. induction i; simpl; [reflexivity | rewrite IHi; ring]. Qed.

(* sum of f 0 .. f (n-1) *)
Fixpoint sumn (n : nat) (f : nat -> Q) : Q :=
  match n with O => 0 | S n' => sumn n' f + f n' end.

Lemma sumn_S n f : sumn (S n) f = sumn n f + f n.
Proof. reflexivity. Qed.

Lemma sumn_ext n f g : (forall i, (i < n)%nat -> f i == g i) -> sumn n f == sumn n g.
Proof.
  induction n; intros H; simpl; [reflexivity|].
  rewrite IHn by (intros; apply H; lia). rewrite (H n) by lia. reflexivity.
Qed.

Lemma sumn_add n f g : sumn n (fun i => f i + g i) == sumn n f + sumn n g.
Proof. induction n; simpl; [ring | rewrite IHn; ring]. Qed.

Lemma sumn_scale n c f : sumn n (fun i => c * f i) == c * sumn n f.
Proof. induction n; simpl; [ring | rewrite IHn; ring]. Qed.

Lemma sumn_scale_r n c f : sumn n (fun i => f i * c) == sumn n f * c.
Proof. induction n; simpl; [ring | rewrite IHn; ring]. Qed.

Lemma sumn_zero n f : (forall i, (i < n)%nat -> f i == 0) -> sumn n f == 0.
Proof.
  induction n; intros H; simpl; [reflexivity|].
  rewrite IHn by (intros; apply H; lia). rewrite (H n) by lia. ring.
Qed.

Lemma sumn_pick n d w : (d < n)%nat -> sumn n (fun i => if (i =? d)%nat then w i else 0) == w d.
Proof.
  induction n; intros H; [lia|]. simpl. destruct (Nat.eqb_spec n d) as [->|Hne].
  - rewrite sumn_zero; [ring|]. intros i Hi. destruct (Nat.eqb_spec i d); [lia | reflexivity].
  - rewrite IHn by lia. ring.
Qed.

Lemma sumn_shift n f : sumn (S n) f == f O + sumn n (fun i => f (S i)).
Proof. induction n; [simpl; ring|]. rewrite (sumn_S (S n)), IHn. simpl. ring. Qed.

Lemma sumn_extend n m f : (n <= m)%nat -> (forall i, (n <= i < m)%nat -> f i == 0) -> sumn m f == sumn n f.
Proof.
  intros Hle. induction Hle; intros Hz; [reflexivity|]. simpl.
  rewrite IHHle by (intros; apply Hz; lia). rewrite (Hz m) by lia. ring.
Qed.

Lemma sumn_rev n f : sumn n f == sumn n (fun i => f (n - 1 - i)%nat).
Proof.
  revert f. induction n; intros f; [reflexivity|].
  rewrite (sumn_shift n (fun i => f (S n - 1 - i)%nat)), sumn_S.
  rewrite (IHn f). replace (S n - 1 - 0)%nat with n by lia.
  rewrite Qplus_comm. apply Qplus_comp; [reflexivity|].
  apply sumn_ext. intros i Hi. replace (S n - 1 - S i)%nat with (n - 1 - i)%nat by lia. reflexivity.
Qed.

(* Σ_{i<=N} Σ_{j<=N-i} F i j  ==  Σ_{n<=N} Σ_{i<=n} F i (n-i) *)
Lemma sumn_triangle (F : nat -> nat -> Q) N :
  sumn (S N) (fun i => sumn (S (N - i)) (fun j => F i j))
  == sumn (S N) (fun n => sumn (S n) (fun i => F i (n - i)%nat)).
Proof.
  induction N; [simpl; ring|].
  (* split off the last term of both outer sums, and of the new diagonal *)
  rewrite !(sumn_S (S N)), <- IHN.
  rewrite (sumn_ext (S N) (fun i => sumn (S (S N - i)) (fun j => F i j))
             (fun i => sumn (S (N - i)) (fun j => F i j) + F i (S N - i)%nat)).
  2:{ intros i Hi. rewrite Nat.sub_succ_l by lia. reflexivity. }
  rewrite sumn_add, Nat.sub_diag. simpl. ring.
Qed.

Definition lsum (l : list Q) : Q := fold_right Qplus 0 l.

Lemma lsum_app a b : lsum (a ++ b) == lsum a + lsum b.
Proof. induction a; simpl; [ring | rewrite IHa; ring]. Qed.

Lemma lsum_ones {A} (l : list A) : lsum (map (fun _ => 1) l) == qn (length l).
Proof. induction l; simpl; [reflexivity | rewrite IHl, qn_S; ring]. Qed.

Lemma lsum_qn l : lsum (map qn l) == qn (list_sum l).
Proof. induction l; simpl; [reflexivity | rewrite IHl, qn_add; reflexivity]. Qed.

Lemma fold_left_sum {A} (F : A -> Q) l a : fold_left (fun v i => v + F i) l a == a + lsum (map F l).
Proof. revert a. induction l; intros acc; simpl; [ring | rewrite IHl; ring]. Qed.

Lemma lsum_seq F n : lsum (map F (seq 0 n)) == sumn n F.
Proof.
  induction n; [reflexivity|]. rewrite seq_S, map_app, lsum_app, IHn. simpl. ring.
Qed.

Lemma lsum_flat_map {A B} (G : B -> Q) (f : A -> list B) l :
  lsum (map G (flat_map f l)) == lsum (map (fun a => lsum (map G (f a))) l).
Proof. induction l; simpl; [reflexivity | rewrite map_app, lsum_app, IHl; reflexivity]. Qed.

Lemma lsum_map_ext_in {A} (F G : A -> Q) l : (forall a, In a l -> F a == G a) -> lsum (map F l) == lsum (map G l).
Proof.
  induction l; intros H; simpl; [reflexivity|].
  rewrite (H a) by (left; reflexivity). rewrite IHl by (intros; apply H; right; assumption). reflexivity.
Qed.

Definition cauchy (a b : nat -> Q) (n : nat) : Q := sumn (S n) (fun j => a j * b (n - j)%nat).

Lemma cauchy_ext a a' b b' n : (forall i, a i == a' i) -> (forall i, b i == b' i) -> cauchy a b n == cauchy a' b' n.
Proof. intros Ha Hb. apply sumn_ext. intros i _. rewrite Ha, Hb. reflexivity. Qed.

(* first derivative of a coefficient sequence *)
Definition dseq (a : nat -> Q) (i : nat) : Q := qn (S i) * a (S i).

(* (a' b + a b')_n = (n+1) (a b)_{n+1} *)
Lemma cauchy_leibniz a b n :
  cauchy (dseq a) b n + cauchy a (dseq b) n == qn (S n) * cauchy a b (S n).
Proof.
  unfold cauchy.
  rewrite <- sumn_scale.
  rewrite (sumn_ext (S (S n)) (fun i => qn (S n) * (a i * b (S n - i)%nat))
             (fun i => qn i * a i * b (S n - i)%nat + a i * (qn (S n - i) * b (S n - i)%nat))).
  2:{ intros i Hi. replace (qn (S n)) with (qn (i + (S n - i))) by (f_equal; lia). rewrite qn_add. ring. }
  rewrite sumn_add. apply Qplus_comp.
  - (* the term i = 0 vanishes *)
    rewrite (sumn_shift (S n)). cbv beta. rewrite qn_0, !Qmult_0_l, Qplus_0_l.
    apply sumn_ext. intros i Hi. reflexivity.
  - (* the term i = S n vanishes *)
    rewrite (sumn_S (S n)), Nat.sub_diag, qn_0, Qmult_0_l, Qmult_0_r, Qplus_0_r.
    apply sumn_ext. intros i Hi. unfold dseq. rewrite Nat.sub_succ_l by lia. reflexivity.
Qed.

Lemma poly_mul_sum (A B : nat -> Q) x da db N :
  (forall i, (da < i)%nat -> A i == 0) -> (forall j, (db < j)%nat -> B j == 0) -> (da + db <= N)%nat ->
  sumn (S N) (fun i => A i * qpow x i) * sumn (S N) (fun j => B j * qpow x j)
  == sumn (S N) (fun n => cauchy A B n * qpow x n).
Proof.
  intros HA HB HN.
  set (F := fun i j => A i * B j * qpow x (i + j)).
  transitivity (sumn (S N) (fun i => sumn (S (N - i)) (fun j => F i j))).
  - rewrite <- sumn_scale_r. apply sumn_ext. intros i Hi.
    rewrite <- sumn_scale.
    rewrite <- (sumn_extend (S (N - i)) (S N) (fun j => F i j)); [| lia |].
    + apply sumn_ext. intros j Hj. unfold F. rewrite qpow_add. ring.
    + intros j Hj. unfold F.
      destruct (le_lt_dec i da) as [Hia|Hia].
      * rewrite (HB j) by lia. ring.
      * rewrite (HA i) by lia. ring.
  - rewrite sumn_triangle. apply sumn_ext. intros n Hn. unfold cauchy.
    rewrite <- sumn_scale_r. apply sumn_ext. intros i Hi. unfold F.
    replace (i + (n - i))%nat with n by lia. reflexivity.
Qed.
