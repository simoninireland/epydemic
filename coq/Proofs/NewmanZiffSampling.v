(* C13: the sampling rule of percolate() (Model/NewmanZiff.v, section Loop), for every state type,
   occupation function and sample function: which state each sample sees ([percolate_spec]), and that a
   quantity which occupations never lower and samples report is non-decreasing along the samples
   ([percolate_mono], without side conditions). *)
From Coq Require Import List ZArith QArith Bool Arith Lia Sorted.
From EpyV Require Import Lib.Prelude Lib.Lists Model.NewmanZiff.
Import ListNotations.
Local Open Scope nat_scope.

Lemma reach_iff k M p : reach k M p = true <-> (p <= Z.of_nat k # Pos.of_nat M)%Q.
Proof. unfold reach. apply Qle_bool_iff. Qed.

Lemma reach_mono j k M p : j <= k -> reach j M p = true -> reach k M p = true.
Proof.
  rewrite !reach_iff. intros H Hj. eapply Qle_trans; [exact Hj|].
  unfold Qle. cbn. apply Z.mul_le_mono_nonneg_r; lia.
Qed.

Lemma reach_anti k M p q : (p <= q)%Q -> reach k M q = true -> reach k M p = true.
Proof. rewrite !reach_iff. intros H Hq. eapply Qle_trans; eauto. Qed.

Lemma reach_full M p : 1 <= M -> (p <= 1)%Q -> reach M M p = true.
Proof.
  intros HM Hp. rewrite reach_iff. eapply Qle_trans; [exact Hp|]. unfold Qle. cbn.
  rewrite Z.mul_1_r, <- positive_nat_Z, Nat2Pos.id by lia. lia.
Qed.

Lemma reach_zero M p : reach 0 M p = true <-> (p <= 0)%Q.
Proof.
  rewrite reach_iff. unfold Qle. cbn. rewrite Z.mul_1_r. pose proof (Pos2Z.is_pos (Pos.of_nat M)) as HP. split; intros H; nia.
Qed.

Lemma reach_one k M : 1 <= M -> reach k M 1 = true -> M <= k.
Proof.
  intros HM. rewrite reach_iff. unfold Qle. cbn. rewrite Z.mul_1_r, <- positive_nat_Z, Nat2Pos.id by lia. lia.
Qed.

(* in a sorted list, what the head has not reached the tail has not reached *)
Lemma unreached_tail k M p l : reach k M p = false -> Forall (Qlt p) l -> Forall (fun q => reach k M q = false) l.
Proof.
  intros N. apply Forall_impl. intros q Hq. apply not_true_iff_false. intros E.
  rewrite (reach_anti k M p q (Qlt_le_weak _ _ Hq) E) in N. discriminate.
Qed.

(* the sample for p is due after exactly k occupations: the first k with k/M >= p *)
Definition least_reach (k M : nat) (p : Q) : Prop :=
  k <= M /\ reach k M p = true /\ forall j, j < k -> reach j M p = false.

Lemma least_reach_unique k k' M p : least_reach k M p -> least_reach k' M p -> k = k'.
Proof.
  intros (_ & H1 & H2) (_ & H1' & H2'). destruct (Nat.lt_trichotomy k k') as [L|[E|L]]; [|exact E|].
  - rewrite (H2' _ L) in H1. discriminate.
  - rewrite (H2 _ L) in H1'. discriminate.
Qed.

Lemma least_reach_le k k' M p q : (p <= q)%Q -> least_reach k M p -> least_reach k' M q -> k <= k'.
Proof.
  intros Hpq (_ & H1 & H2) (_ & H1' & H2'). destruct (Nat.le_gt_cases k k') as [L|L]; [exact L|].
  pose proof (H2 _ L) as X. rewrite (reach_anti _ _ _ _ Hpq H1') in X. discriminate.
Qed.

Lemma least_reach_zero M p : (p <= 0)%Q -> least_reach 0 M p.
Proof. intros H. split; [lia|]. split; [apply reach_zero; exact H | intros j Hj; lia]. Qed.

Lemma least_reach_next i M p : S i <= M -> reach i M p = false -> reach (S i) M p = true -> least_reach (S i) M p.
Proof.
  intros Li N Y. split; [exact Li|]. split; [exact Y|]. intros j Hj. apply not_true_iff_false. intros E.
  rewrite (reach_mono j i M p) in N by (lia || exact E). discriminate.
Qed.

Lemma least_reach_0 k M p : (p == 0)%Q -> least_reach k M p -> k = 0.
Proof.
  intros E H. apply (least_reach_unique _ _ _ _ H), least_reach_zero. rewrite E. apply Qle_refl.
Qed.

Lemma least_reach_1 k M p : 1 <= M -> (p == 1)%Q -> least_reach k M p -> k = M.
Proof.
  intros HM E (H1 & H2 & _). apply Nat.le_antisymm; [exact H1|]. apply reach_one; [exact HM|].
  eapply reach_anti; [|exact H2]. rewrite E. apply Qle_refl.
Qed.

Lemma SSorted_app_r {A} (P : A -> A -> Prop) l1 l2 : StronglySorted P (l1 ++ l2) -> StronglySorted P l2.
Proof. induction l1 as [|x l1 IH]; cbn; intros H; [exact H|]. inversion H; subst. auto. Qed.

Section Loop.
  Context {St El Ob : Type} (occupy : St -> El -> St) (sample : Q -> St -> St * Ob).
  Variable all : list El.                        (* the shuffled element list *)
  Variable R : list El -> St -> Prop.            (* [R pre s]: s is a state in which exactly pre has been occupied *)
  Hypothesis R_occupy : forall pre e post s, all = pre ++ e :: post -> R pre s -> R (pre ++ [e]) (occupy s e).
  Hypothesis R_sample : forall pre p s, R pre s -> R pre (fst (sample p s)).

  Let M := length all.

  (* the sample labelled p was taken in a state in which exactly the first k elements had been
     occupied, k the first number of occupations with k/M >= p *)
  Definition taken (p : Q) (o : Ob) : Prop :=
    exists k s, least_reach k M p /\ R (firstn k all) s /\ o = snd (sample p s).

  (* after occupation i+1: of the pending points, none reached at i, exactly those reached now are sampled *)
  Lemma take_spec i : S i <= M -> forall rest s, R (firstn (S i) all) s -> StronglySorted Qlt rest ->
    Forall (fun p => reach i M p = false) rest ->
    exists tk rest' s' os, take sample (S i) M rest s = (rest', s', os) /\ rest = tk ++ rest'
      /\ Forall (least_reach (S i) M) tk /\ Forall2 taken tk os
      /\ Forall (fun p => reach (S i) M p = false) rest' /\ R (firstn (S i) all) s'.
  Proof.
    intros Li. induction rest as [|p rest IH]; intros s Rs Srt Nr.
    - exists [], [], s, []. repeat split; (constructor || exact Rs).
    - apply StronglySorted_inv in Srt. destruct Srt as [Srt Hp]. inversion Nr as [|? ? Np Nr']; subst.
      cbn [take]. destruct (reach (S i) M p) eqn:Ep.
      + pose proof (R_sample _ p s Rs) as R1. destruct (sample p s) as [s1 o] eqn:Es. cbn [fst] in R1.
        destruct (IH s1 R1 Srt Nr') as (tk & rest' & s' & os & E & -> & Lt & Tk & Nr1 & Rs'). rewrite E.
        pose proof (least_reach_next i M p Li Np Ep) as Lp.
        exists (p :: tk), rest', s', (o :: os). split; [reflexivity|]. split; [reflexivity|].
        split; [constructor; assumption|]. split; [|split; assumption].
        constructor; [|exact Tk]. exists (S i), s. rewrite Es. auto.
      + exists [], (p :: rest), s, []. split; [reflexivity|]. split; [reflexivity|]. split; [constructor|].
        split; [constructor|]. split; [|exact Rs]. constructor; [exact Ep | exact (unreached_tail _ _ _ _ Ep Hp)].
  Qed.

  Hypothesis HM : 1 <= M.

  Lemma loop_spec : forall es pre rest s, all = pre ++ es -> R pre s -> StronglySorted Qlt rest ->
    Forall (fun p => reach (length pre) M p = false) rest -> Forall (fun p => (p <= 1)%Q) rest ->
    exists s' os n, loop occupy sample M (length pre) es rest s = (s', os, n)
      /\ Forall2 taken rest os /\ R (firstn n all) s' /\ length pre <= n <= M
      /\ (forall p, In p rest -> exists k, least_reach k M p /\ k <= n).
  Proof.
    induction es as [|e es IH]; intros pre rest s Ea Rs Srt Nr Le1.
    - (* everything is occupied and M/M >= p: no point can be pending *)
      rewrite app_nil_r in Ea. subst pre. destruct rest as [|p rest].
      + exists s, [], (length all). cbn [loop]. rewrite firstn_all. fold M. repeat split; (constructor || auto || intros p []).
      + apply Forall_inv in Nr. fold M in Nr. rewrite reach_full in Nr by (exact HM || exact (Forall_inv Le1)). discriminate.
    - assert (LM : S (length pre) <= M) by (unfold M; rewrite Ea, app_length; cbn; lia).
      destruct rest as [|p0 rest0].
      + exists s, [], (length pre). cbn [loop]. split; [reflexivity|]. split; [constructor|].
        split; [rewrite Ea, (firstn_app_len pre _ _ eq_refl); exact Rs|]. split; [lia | intros p []].
      + cbn [loop].
        assert (Ea' : all = (pre ++ [e]) ++ es) by (rewrite <- app_assoc; exact Ea).
        assert (Lp : length (pre ++ [e]) = S (length pre)) by (rewrite app_length; cbn; lia).
        assert (Fn : firstn (S (length pre)) all = pre ++ [e]) by (rewrite <- Lp, Ea'; apply firstn_app_len; reflexivity).
        pose proof (R_occupy pre e es s Ea Rs) as R1. rewrite <- Fn in R1.
        destruct (take_spec (length pre) LM _ _ R1 Srt Nr) as (tk & rest1 & s2 & os & E & Er & Lt & Tk & Nr1 & R2).
        rewrite E. rewrite Er in Srt, Le1 |- *. apply SSorted_app_r in Srt. apply Forall_app in Le1.
        rewrite Fn in R2. rewrite <- Lp in Nr1.
        destruct (IH (pre ++ [e]) rest1 s2 Ea' R2 Srt Nr1 (proj2 Le1)) as (s3 & os' & n & E' & F' & R3 & Ln & Hk).
        rewrite Lp in E', Ln. rewrite E'. exists s3, (os ++ os'), n. split; [reflexivity|].
        split; [apply Forall2_app; assumption|]. split; [exact R3|]. split; [lia|].
        intros p Ip. apply in_app_iff in Ip. destruct Ip as [Ip|Ip]; [|apply Hk; exact Ip].
        exists (S (length pre)). split; [rewrite Forall_forall in Lt; apply Lt; exact Ip | lia].
  Qed.

  (* the loop from the start, no point being due before the first occupation *)
  Lemma loop_start ps s : R [] s -> StronglySorted Qlt ps -> Forall (fun p => (0 < p)%Q /\ (p <= 1)%Q) ps ->
    exists s' os n, loop occupy sample M 0 all ps s = (s', os, n)
      /\ Forall2 taken ps os /\ R (firstn n all) s' /\ n <= M
      /\ (forall p, In p ps -> exists k, least_reach k M p /\ k <= n).
  Proof.
    intros R0 Srt Rng. destruct (loop_spec all [] ps s eq_refl R0 Srt) as (s' & os & n & E & F & Rn & Ln & Hk).
    - eapply Forall_impl; [|exact Rng]. intros p [Hp _]. apply not_true_iff_false. rewrite reach_zero.
      apply Qlt_not_le, Hp.
    - eapply Forall_impl; [|exact Rng]. intros p Hp. apply Hp.
    - exists s', os, n. split; [exact E|]. split; [exact F|]. split; [exact Rn|]. split; [apply Ln | exact Hk].
  Qed.

  (* percolate(): one sample per requested point, labelled with it (see [taken]), in order *)
  Theorem percolate_spec ps s0 : R [] s0 -> StronglySorted Qlt ps -> Forall (fun p => (0 <= p)%Q /\ (p <= 1)%Q) ps ->
    exists s' os n, percolate occupy sample all ps s0 = (s', os, n)
      /\ Forall2 taken ps os /\ R (firstn n all) s' /\ n <= M
      /\ (forall p, In p ps -> exists k, least_reach k M p /\ k <= n).
  Proof.
    intros R0 Srt Rng. unfold percolate. fold M.
    destruct ps as [|p ps]; [apply loop_start; [exact R0 | exact Srt | constructor]|].
    apply StronglySorted_inv in Srt. destruct Srt as [Srt' Hlt]. inversion Rng as [|? ? [Hp0 Hp1] Rng']; subst.
    assert (Pos : Forall (fun q => (0 < q)%Q /\ (q <= 1)%Q) ps).
    { rewrite Forall_forall in *. intros q Iq. split; [exact (Qle_lt_trans _ _ _ Hp0 (Hlt q Iq)) | apply Rng', Iq]. }
    destruct (Qeq_bool p 0) eqn:E0.
    - (* the first point is 0: it is sampled before the loop, the others are positive *)
      apply Qeq_bool_iff in E0. pose proof (R_sample _ p s0 R0) as R1.
      destruct (sample p s0) as [s1 o] eqn:Es. cbn [fst] in R1.
      destruct (loop_start ps s1 R1 Srt' Pos) as (s' & os & n & E & F & Rn & Ln & Hk). rewrite E.
      assert (L0 : least_reach 0 M p) by (apply least_reach_zero; rewrite E0; apply Qle_refl).
      exists s', (o :: os), n. split; [reflexivity|]. split; [|split; [exact Rn|split; [exact Ln|]]].
      + constructor; [|exact F]. exists 0, s0. rewrite Es. auto.
      + intros q [<-|Iq]; [exists 0; split; [exact L0 | lia] | apply Hk; exact Iq].
    - apply loop_start; [exact R0 | constructor; assumption|]. constructor; [split; [|exact Hp1] | exact Pos].
      apply Qle_lteq in Hp0. destruct Hp0 as [H|H]; [exact H|]. symmetry in H. apply Qeq_bool_iff in H. congruence.
  Qed.
End Loop.

Lemma sorted_const_app (x c : Z) l1 l2 : (x <= c)%Z -> Forall (fun y => y = c) l1 ->
  StronglySorted Z.le (c :: l2) -> StronglySorted Z.le (x :: l1 ++ l2).
Proof.
  intros Hx H1 S2. apply StronglySorted_inv in S2. destruct S2 as [S2 H2].
  assert (H12 : Forall (Z.le c) (l1 ++ l2)).
  { apply Forall_app. split; [|exact H2]. eapply Forall_impl; [|exact H1]. intros y ->. lia. }
  constructor.
  - clear Hx. induction H1 as [|y l1 -> H1 IH]; [exact S2|]. cbn. apply Forall_inv_tail in H12 as H12'.
    constructor; [exact (IH H12') | exact H12'].
  - eapply Forall_impl; [|exact H12]. intros y Hy. lia.
Qed.

Section Mono.
  Context {St El Ob : Type} (occupy : St -> El -> St) (sample : Q -> St -> St * Ob) (f : St -> Z) (g : Ob -> Z).
  Hypothesis f_occupy : forall s e, (f s <= f (occupy s e))%Z.
  Hypothesis f_sample : forall p s, f (fst (sample p s)) = f s.
  Hypothesis g_sample : forall p s, g (snd (sample p s)) = f s.

  Lemma take_mono k M : forall rest s rest' s' os, take sample k M rest s = (rest', s', os) ->
    f s' = f s /\ Forall (fun o => g o = f s) os.
  Proof.
    induction rest as [|p rest IH]; intros s rest' s' os E; cbn [take] in E.
    - injection E as <- <- <-. auto.
    - destruct (reach k M p).
      + pose proof (f_sample p s) as Fs. pose proof (g_sample p s) as Gs.
        destruct (sample p s) as [s1 o]. cbn [fst snd] in Fs, Gs.
        destruct (take sample k M rest s1) as [[r2 s2] os2] eqn:E2. injection E as <- <- <-.
        destruct (IH _ _ _ _ E2) as [H1 H2]. rewrite Fs in H1, H2. split; [exact H1|]. constructor; assumption.
      + injection E as <- <- <-. auto.
  Qed.

  (* the value of the state, then the values of the samples taken from it on *)
  Lemma loop_mono M : forall es i rest s s' os n, loop occupy sample M i es rest s = (s', os, n) ->
    StronglySorted Z.le (f s :: map g os).
  Proof.
    induction es as [|e es IH]; intros i rest s s' os n E; cbn [loop] in E.
    - injection E as <- <- <-. repeat constructor.
    - destruct rest as [|p0 rest0]; [injection E as <- <- <-; repeat constructor|].
      destruct (take sample (S i) M (p0 :: rest0) (occupy s e)) as [[rest1 s2] os1] eqn:E1.
      destruct (loop occupy sample M (S i) es rest1 s2) as [[s3 os2] n2] eqn:E2. injection E as <- <- <-.
      destruct (take_mono _ _ _ _ _ _ _ E1) as [F1 G1]. apply IH in E2. rewrite F1 in E2.
      rewrite map_app. apply (sorted_const_app _ (f (occupy s e))); [apply f_occupy | apply Forall_map; exact G1 | exact E2].
  Qed.

  Theorem percolate_mono es ps s0 s' os n : percolate occupy sample es ps s0 = (s', os, n) ->
    StronglySorted Z.le (map g os).
  Proof.
    unfold percolate. intros E.
    assert (L : forall s, loop occupy sample (length es) 0 es ps s = (s', os, n) -> StronglySorted Z.le (map g os)).
    { intros s Hl. apply loop_mono in Hl. apply StronglySorted_inv in Hl. apply Hl. }
    destruct ps as [|p ps]; [exact (L _ E)|]. destruct (Qeq_bool p 0); [|exact (L _ E)].
    pose proof (f_sample p s0) as Fs. pose proof (g_sample p s0) as Gs.
    destruct (sample p s0) as [s1 o]. cbn [fst snd] in Fs, Gs.
    destruct (loop occupy sample (length es) 0 es ps s1) as [[s2 os2] n2] eqn:E2. injection E as <- <- <-.
    apply loop_mono in E2. cbn [map]. rewrite Gs, <- Fs. exact E2.
  Qed.
End Mono.
