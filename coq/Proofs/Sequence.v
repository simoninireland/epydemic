(* The combinator algebra of ProcessSequence (Model/Sequence.v).  A sequence is seen through
   its list of components (children, with the induction principle ptree_ind'); every
   forwarded operation, atEquilibrium and maximumTime of an arbitrarily nested sequence are
   the corresponding fold over the flattening all_processes (for maximumTime this rests on
   the algebra of pymax, Python's first-maximum), and results is characterised key by key
   (merged_from) from the get/set/update lemmas of the insertion-ordered dicts, which are
   also what the name and frame theorems use. *)
From Coq Require Import List ZArith QArith Bool Arith String Lia.
From EpyV Require Import Lib.Lists Model.Kernel Model.Sequence Proofs.KernelRelabel.
Import ListNotations.
Close Scope Q_scope.
Open Scope list_scope.

Lemma fold_left_map {A B S} (g : S -> B -> S) (h : A -> B) (l : list A) (s : S) :
  fold_left g (map h l) s = fold_left (fun s a => g s (h a)) l s.
Proof. revert s. induction l as [|a l IH]; intro s; simpl; [reflexivity|]. apply IH. Qed.

Lemma flat_map_map {A B C} (g : B -> list C) (h : A -> B) (l : list A) :
  flat_map g (map h l) = flat_map (fun a => g (h a)) l.
Proof. induction l as [|a l IH]; simpl; [reflexivity|]. rewrite IH. reflexivity. Qed.

Lemma forallb_map {A B} (g : B -> bool) (h : A -> B) (l : list A) :
  forallb g (map h l) = forallb (fun a => g (h a)) l.
Proof. induction l as [|a l IH]; simpl; [reflexivity|]. rewrite IH. reflexivity. Qed.

Definition is_seq {P} (t : ptree P) : bool := match t with Leaf _ => false | _ => true end.

(* the components of a sequence: the names of a dict-built one play no part in any operation *)
Definition children {P} (t : ptree P) : list (ptree P) :=
  match t with Leaf _ => [] | Seq cs => cs | NamedSeq cs => map snd cs end.

Section TreeInd.
Variable P : Type.
Variable R : ptree P -> Prop.
Hypothesis HL : forall p, R (Leaf p).
Hypothesis HS : forall t, is_seq t = true -> Forall R (children t) -> R t.
Fixpoint ptree_ind' (t : ptree P) : R t :=
  match t with
  | Leaf p => HL p
  | Seq cs => HS (Seq cs) eq_refl
                 ((fix go (l : list (ptree P)) : Forall R l :=
                     match l with
                     | [] => Forall_nil _
                     | c :: l' => Forall_cons c (ptree_ind' c) (go l')
                     end) cs)
  | NamedSeq cs => HS (NamedSeq cs) eq_refl
                      ((fix go (l : list (string * ptree P)) : Forall R (map snd l) :=
                          match l with
                          | [] => Forall_nil _
                          | nc :: l' => Forall_cons (snd nc) (ptree_ind' (snd nc)) (go l')
                          end) cs)
  end.
End TreeInd.

Section Components.
Context {P : Type} (t : ptree P).
Hypothesis Ht : is_seq t = true.

Lemma all_processes_seq : all_processes t = flat_map all_processes (children t).
Proof. destruct t as [p|cs|cs]; [discriminate|reflexivity|]. symmetry. apply flat_map_map. Qed.

Lemma forward_seq {S} (f : P -> S -> S) (s : S) :
  forward f t s = fold_left (fun s c => forward f c s) (children t) s.
Proof. destruct t as [p|cs|cs]; [discriminate|reflexivity|]. symmetry. apply fold_left_map. Qed.

Lemma at_equilibrium_seq (equil : P -> Q -> bool) (tm : Q) :
  at_equilibrium equil t tm = forallb (fun c => at_equilibrium equil c tm) (children t).
Proof. destruct t as [p|cs|cs]; [discriminate|reflexivity|]. symmetry. apply forallb_map. Qed.

Lemma maximum_time_seq (mt : P -> Q) :
  maximum_time mt t = fold_left (fun a c => pymax a (maximum_time mt c)) (children t) 0%Q.
Proof.
  destruct t as [p|cs|cs]; [discriminate|reflexivity|].
  symmetry. apply (fold_left_map (fun a c => pymax a (maximum_time mt c)) snd).
Qed.

Lemma results_seq {V} (res : P -> dict V) :
  results res t = fold_left (fun r c => dict_update r (results res c)) (children t) [].
Proof.
  destruct t as [p|cs|cs]; [discriminate|reflexivity|].
  symmetry. apply (fold_left_map (fun r c => dict_update r (results res c)) snd).
Qed.
End Components.

Theorem forward_flat {P S} (f : P -> S -> S) (t : ptree P) :
  forall s, forward f t s = fold_left (fun s p => f p s) (all_processes t) s.
Proof.
  induction t as [p|t Ht IH] using ptree_ind'; [reflexivity|]. intro s.
  rewrite (forward_seq t Ht), (all_processes_seq t Ht). revert s.
  induction IH as [|c cs Hc _ IHl]; intro s; simpl; [reflexivity|].
  rewrite fold_left_app, <- Hc. apply IHl.
Qed.

Theorem at_equilibrium_flat {P} (equil : P -> Q -> bool) (t : ptree P) (tm : Q) :
  at_equilibrium equil t tm = forallb (fun p => equil p tm) (all_processes t).
Proof.
  induction t as [p|t Ht IH] using ptree_ind'; [simpl; rewrite andb_true_r; reflexivity|].
  rewrite (at_equilibrium_seq t Ht), (all_processes_seq t Ht).
  induction IH as [|c cs Hc _ IHl]; simpl; [reflexivity|].
  rewrite forallb_app, Hc, IHl. reflexivity.
Qed.

Lemma pymax_l a b : (b <= a)%Q -> pymax a b = a.
Proof. intro H. unfold pymax, Qltb. apply Qle_bool_iff in H. rewrite H. reflexivity. Qed.

Lemma pymax_r a b : (a < b)%Q -> pymax a b = b.
Proof.
  intro H. unfold pymax, Qltb. destruct (Qle_bool b a) eqn:E; [|reflexivity].
  apply Qle_bool_iff in E. destruct (Qlt_not_le _ _ H E).
Qed.

Lemma pymax_cases a b : (pymax a b = a /\ (b <= a)%Q) \/ (pymax a b = b /\ (a < b)%Q).
Proof.
  destruct (Qlt_le_dec a b) as [H|H].
  - right. split; [apply pymax_r|]; exact H.
  - left. split; [apply pymax_l|]; exact H.
Qed.

Lemma pymax_ge_l a b : (a <= pymax a b)%Q.
Proof. destruct (pymax_cases a b) as [[-> H]|[-> H]]; [apply Qle_refl|apply Qlt_le_weak, H]. Qed.
Lemma pymax_ge_r a b : (b <= pymax a b)%Q.
Proof. destruct (pymax_cases a b) as [[-> H]|[-> H]]; [exact H|apply Qle_refl]. Qed.

(* Python's max keeps the first of several largest arguments, so nesting it in either way
   returns the same one of a, b, c, not merely an equal rational *)
Lemma pymax_assoc a b c : pymax a (pymax b c) = pymax (pymax a b) c.
Proof.
  destruct (pymax_cases b c) as [[E1 H1]|[E1 H1]], (pymax_cases a b) as [[E2 H2]|[E2 H2]]; rewrite E1, E2.
  - symmetry. apply pymax_l. exact (Qle_trans _ _ _ H1 H2).
  - symmetry. exact E1.
  - reflexivity.
  - rewrite E1. apply pymax_r. exact (Qlt_trans _ _ _ H2 H1).
Qed.

Lemma fold_pymax_acc {A} (g : A -> Q) (l : list A) (a b : Q) :
  pymax a (fold_left (fun a c => pymax a (g c)) l b) = fold_left (fun a c => pymax a (g c)) l (pymax a b).
Proof. revert b. induction l as [|c l IH]; intro b; simpl; [reflexivity|]. rewrite IH, pymax_assoc. reflexivity. Qed.

Lemma fold_pymax_spec {A} (g : A -> Q) (l : list A) (a : Q) :
  let r := fold_left (fun a c => pymax a (g c)) l a in
  (a <= r)%Q /\ (forall c, In c l -> (g c <= r)%Q) /\ (r = a \/ exists c, In c l /\ r = g c).
Proof.
  revert a. induction l as [|c l IH]; intro a; simpl.
  - split; [apply Qle_refl|]. split; [intros c []|]. left. reflexivity.
  - destruct (IH (pymax a (g c))) as (H1 & H2 & H3). split; [|split].
    + eapply Qle_trans; [apply pymax_ge_l|exact H1].
    + intros c' [<-|Hin]; [eapply Qle_trans; [apply pymax_ge_r|exact H1]|apply H2, Hin].
    + destruct H3 as [H3|(c' & Hin & H3)].
      * destruct (pymax_cases a (g c)) as [[E _]|[E _]].
        -- left. exact (eq_trans H3 E).
        -- right. exists c. split; [left; reflexivity|exact (eq_trans H3 E)].
      * right. exists c'. split; [right; exact Hin|exact H3].
Qed.

(* a sequence's maximumTime is the running maximum, from 0, over the flattening; seen from a
   running maximum a >= 0 of an enclosing sequence, any component continues it *)
Theorem maximum_time_flat {P} (mt : P -> Q) (t : ptree P) :
  (is_seq t = true -> maximum_time mt t = fold_left (fun a p => pymax a (mt p)) (all_processes t) 0%Q)
  /\ forall a, (0 <= a)%Q ->
       pymax a (maximum_time mt t) = fold_left (fun a p => pymax a (mt p)) (all_processes t) a.
Proof.
  induction t as [p|t Ht IH] using ptree_ind'; [split; [discriminate|reflexivity]|].
  assert (E : forall a, (0 <= a)%Q ->
            fold_left (fun a c => pymax a (maximum_time mt c)) (children t) a
            = fold_left (fun a p => pymax a (mt p)) (flat_map all_processes (children t)) a).
  { induction IH as [|c cs [_ Hc] _ IHl]; intros a Ha; simpl; [reflexivity|].
    rewrite fold_left_app, <- (Hc a Ha). apply IHl. exact (Qle_trans _ _ _ Ha (pymax_ge_l _ _)). }
  rewrite (maximum_time_seq t Ht), (all_processes_seq t Ht), (E 0%Q (Qle_refl _)).
  split; [reflexivity|]. intros a Ha. rewrite fold_pymax_acc, (pymax_l a 0 Ha). reflexivity.
Qed.

(* setMaximumTime(T) forwarded to every component, then maximumTime() *)
Lemma maximum_time_const {P} (T : Q) (t : ptree P) :
  (0 <= T)%Q -> all_processes t <> [] -> (maximum_time (fun _ => T) t == T)%Q.
Proof.
  intros HT Hne. destruct (is_seq t) eqn:Ht; [|destruct t; try discriminate; reflexivity].
  rewrite (proj1 (maximum_time_flat _ t) Ht).
  destruct (fold_pymax_spec (fun _ : P => T) (all_processes t) 0%Q) as (_ & H2 & H3). cbv zeta in H2, H3.
  destruct H3 as [E|(p & _ & E)]; [|rewrite E; reflexivity].
  destruct (all_processes t) as [|p l]; [congruence|].
  apply Qle_antisym; [rewrite E; exact HT|apply (H2 p); left; reflexivity].
Qed.

(* get-after-set for an association list with first-match lookup and in-place update, over
   any such pair of functions: the dicts keyed by strings and the attribute store keyed by
   (name, element) are both instances *)
Section AssocGetSet.
Variables (K V : Type) (eqb : K -> K -> bool).
Variable get : K -> list (K * V) -> option V.
Variable set : K -> V -> list (K * V) -> list (K * V).
Hypothesis eqb_eq : forall a b, eqb a b = true <-> a = b.
Hypothesis get_nil : forall k, get k [] = None.
Hypothesis get_cons : forall k k' v l, get k ((k', v) :: l) = if eqb k k' then Some v else get k l.
Hypothesis set_nil : forall k v, set k v [] = [(k, v)].
Hypothesis set_cons : forall k v k' v' l,
  set k v ((k', v') :: l) = if eqb k k' then (k', v) :: l else (k', v') :: set k v l.

Lemma assoc_get_set k k' v l : get k (set k' v l) = if eqb k k' then Some v else get k l.
Proof.
  induction l as [|[k0 v0] l IH].
  - rewrite set_nil, get_cons. reflexivity.
  - rewrite set_cons, (get_cons k k0 v0). destruct (eqb k' k0) eqn:E; rewrite get_cons.
    + apply eqb_eq in E. subst k0. destruct (eqb k k'); reflexivity.
    + destruct (eqb k k0) eqn:E0; [|exact IH]. apply eqb_eq in E0. subst k0.
      destruct (eqb k k') eqn:E1; [|reflexivity].
      apply eqb_eq in E1. subst k'. rewrite (proj2 (eqb_eq k k) eq_refl) in E. discriminate.
Qed.
End AssocGetSet.

Section DictLemmas.
Context {V : Type}.
Implicit Types d : dict V.

Lemma dict_get_set k k' v d :
  dict_get k (dict_set k' v d) = if String.eqb k k' then Some v else dict_get k d.
Proof. apply (assoc_get_set _ _ String.eqb dict_get dict_set String.eqb_eq); reflexivity. Qed.

Lemma dict_get_None k d : dict_get k d = None <-> ~ In k (dict_keys d).
Proof.
  induction d as [|[k0 v0] d IH]; simpl; [tauto|].
  destruct (String.eqb k k0) eqn:E.
  - apply String.eqb_eq in E. subst. split; [discriminate|]. intros H. exfalso. apply H. left. reflexivity.
  - apply String.eqb_neq in E. rewrite IH. split; [intros H [H'|H']; [congruence|tauto]|tauto].
Qed.

Lemma dict_get_Some k d v : dict_get k d = Some v -> In k (dict_keys d).
Proof.
  intro E. destruct (In_dec string_dec k (dict_keys d)) as [H|H]; [exact H|].
  apply dict_get_None in H. congruence.
Qed.

Lemma dict_keys_set k v d :
  dict_keys (dict_set k v d) = if dict_has k d then dict_keys d else dict_keys d ++ [k].
Proof.
  unfold dict_has. induction d as [|[k0 v0] d IH]; simpl; [reflexivity|].
  destruct (String.eqb k k0) eqn:E; simpl; [reflexivity|].
  rewrite IH. unfold dict_keys. destruct (dict_get k d); reflexivity.
Qed.

Lemma dict_set_NoDup k v d : NoDup (dict_keys d) -> NoDup (dict_keys (dict_set k v d)).
Proof.
  intro H. rewrite dict_keys_set. unfold dict_has. destruct (dict_get k d) eqn:E; [exact H|].
  apply NoDup_snoc; [exact H|]. apply dict_get_None, E.
Qed.

Lemma dict_update_NoDup d d2 : NoDup (dict_keys d) -> NoDup (dict_keys (dict_update d d2)).
Proof.
  unfold dict_update. revert d. induction d2 as [|[k v] d2 IH]; intros d H; simpl; [exact H|].
  apply IH, dict_set_NoDup, H.
Qed.

Lemma dict_get_update k d d2 : NoDup (dict_keys d2) ->
  dict_get k (dict_update d d2) = match dict_get k d2 with Some v => Some v | None => dict_get k d end.
Proof.
  unfold dict_update. revert d. induction d2 as [|[k' v] d2 IH]; intros d H; simpl; [reflexivity|].
  inversion H as [|? ? Hnotin Hnd]; subst. rewrite (IH _ Hnd), dict_get_set.
  destruct (String.eqb k k') eqn:E.
  - apply String.eqb_eq in E. subst k'. apply dict_get_None in Hnotin. rewrite Hnotin. reflexivity.
  - reflexivity.
Qed.
End DictLemmas.

Section ResultsMerge.
Context {P V : Type}.
Variable res : P -> dict V.
Hypothesis res_dict : forall p, NoDup (dict_keys (res p)).   (* a Python dict has distinct keys *)

(* scanning the components left to right, a later one that reports k replaces what is there *)
Definition merged_from (k : string) (acc : option V) (ps : list P) : option V :=
  fold_left (fun acc p => match dict_get k (res p) with Some v => Some v | None => acc end) ps acc.

Lemma merged_from_acc k acc ps :
  merged_from k acc ps = match merged_from k None ps with Some v => Some v | None => acc end.
Proof.
  unfold merged_from. revert acc. induction ps as [|p ps IH]; intro acc; simpl; [reflexivity|].
  rewrite IH. rewrite (IH (match dict_get k (res p) with Some v => Some v | None => None end)).
  destruct (fold_left _ ps None); [reflexivity|]. destruct (dict_get k (res p)); reflexivity.
Qed.

Lemma merged_from_app k acc ps1 ps2 :
  merged_from k acc (ps1 ++ ps2) = merged_from k (merged_from k acc ps1) ps2.
Proof. unfold merged_from. apply fold_left_app. Qed.

Lemma merged_from_last k ps :
  match merged_from k None ps with
  | Some v => exists p, In p ps /\ dict_get k (res p) = Some v
  | None => forall p, In p ps -> dict_get k (res p) = None
  end.
Proof.
  induction ps as [|p ps IH] using rev_ind; [intros p []|].
  rewrite merged_from_app. unfold merged_from at 1. simpl. destruct (dict_get k (res p)) as [v|] eqn:E.
  - exists p. split; [apply in_or_app; right; left; reflexivity|exact E].
  - destruct (merged_from k None ps) as [v|].
    + destruct IH as (q & Hq & Ev). exists q. split; [apply in_or_app; left; exact Hq|exact Ev].
    + intros q Hq. apply in_app_or in Hq. destruct Hq as [Hq|[<-|[]]]; [apply IH, Hq|exact E].
Qed.

Lemma results_spec (t : ptree P) :
  NoDup (dict_keys (results res t))
  /\ forall k, dict_get k (results res t) = merged_from k None (all_processes t).
Proof.
  induction t as [p|t Ht IH] using ptree_ind'.
  - simpl. split; [apply res_dict|]. intro k. unfold merged_from. simpl. destruct (dict_get k (res p)); reflexivity.
  - rewrite (results_seq t Ht), (all_processes_seq t Ht).
    assert (G : forall r0, NoDup (dict_keys r0) ->
              NoDup (dict_keys (fold_left (fun r c => dict_update r (results res c)) (children t) r0))
              /\ forall k, dict_get k (fold_left (fun r c => dict_update r (results res c)) (children t) r0)
                           = merged_from k (dict_get k r0) (flat_map all_processes (children t))).
    { induction IH as [|c cs [Hnd Hc] _ IHl]; intros r0 H0; simpl; [split; [exact H0|reflexivity]|].
      destruct (IHl (dict_update r0 (results res c)) (dict_update_NoDup _ _ H0)) as (G1 & G2).
      split; [exact G1|]. intro k. rewrite G2, merged_from_app, (dict_get_update _ _ _ Hnd), Hc.
      rewrite (merged_from_acc k (dict_get k r0)). reflexivity. }
    exact (G [] (NoDup_nil _)).
Qed.

End ResultsMerge.
