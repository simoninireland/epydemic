(* C19, part 3: the loci invariant of the coupled compartmented model (C01's Inv) under add and
   delete, in the combinations in which the disease hears of the new edges. *)
From Coq Require Import List ZArith Bool Arith.
From EpyV Require Import Lib.Prelude Model.Kernel Model.Loci Model.Compart Model.AddDelete
                         Proofs.LociBase Proofs.LociLocus Proofs.LociInv Proofs.AddDelete Proofs.AddDeleteSteps.
Import ListNotations.
Close Scope Q_scope.
Close Scope Z_scope.

Section InvSteps.
Variable cf : adcfg.
Let tbl := ac_tbl cf.

Hypothesis Hwf : wf_loci tbl = true.
Hypothesis Hso : single_orientation tbl = true.

(* calls that raise leave the state as it was, so these two need no precondition *)
Lemma change_compartment_inv : forall s n c, Inv tbl s -> Inv tbl (fst (change_compartment tbl s n c)).
Proof.
  intros s n c H. destruct (getc_raises s n) eqn:Er.
  - unfold change_compartment. rewrite Er. exact H.
  - apply (inv_step tbl s (ChangeC n c) Hwf Hso H). cbn [preb]. rewrite Er. reflexivity.
Qed.

Lemma remove_node_inv : forall s n, Inv tbl s -> Inv tbl (fst (remove_node tbl s n)).
Proof.
  intros s n H. destruct (getc_raises s n) eqn:Er.
  - unfold remove_node. rewrite Er. exact H.
  - apply (inv_step tbl s (RemoveNode n) Hwf Hso H). cbn [preb]. rewrite Er. reflexivity.
Qed.

Lemma link_all_inv : tracked_edges cf = true -> forall es s i, Inv tbl s ->
  (forall v, In v (i :: es) -> present cf s v) -> Inv tbl (fst (link_all cf s i es)).
Proof.
  intros T. pose proof (tracked_with_disease cf T) as D.
  induction es as [|j es IH]; intros s i H P; cbn [link_all]; [exact H|].
  pose proof (P i (or_introl eq_refl)) as Pi. pose proof (P j (or_intror (or_introl eq_refl))) as Pj.
  assert (H1 : Inv tbl (fst (link cf s i j))).
  { unfold link. rewrite T. apply (inv_step tbl s (AddEdge i j) Hwf Hso H). cbn [preb]. rewrite (proj2 Pi D), (proj2 Pj D). reflexivity. }
  pose proof (link_present cf s i j Pi Pj) as Pres. destruct (link cf s i j) as [s1 o]. cbn [fst] in *.
  specialize (IH s1 i H1). destruct (link_all cf s1 i es) as [s2 ok]. apply IH.
  intros v Hv. apply Pres, P. destruct Hv as [Hv|Hv]; [left | right; right]; exact Hv.
Qed.

(* add: AddNode i None; SetC i S; AddEdge i j for the nodes drawn - every one a valid call *)
Lemma add_step_inv : tracked_edges cf = true -> forall w, Base cf w -> Inv tbl (aw_st w) -> Inv tbl (aw_st (add_step cf w)).
Proof.
  intros T w HB HI. rewrite add_step_st. unfold add_state.
  pose proof (new_state_present cf w HB) as P. destruct (add_links_spec cf w HB) as [_ [_ [Eo _]]].
  pose proof (new_node_name_fresh (aw_st w)) as Hfresh. set (s := aw_st w) in *. set (i := new_node_name s) in *.
  apply link_all_inv; [exact T | |].
  - unfold new_state, mark_new. fold s i tbl. rewrite (tracked_with_disease cf T).
    assert (Hn : has_node s i = false) by (apply zmem_false, Hfresh).
    assert (I1 : Inv tbl (p_add_node s i)).
    { apply (inv_step tbl s (AddNode i None) Hwf Hso HI). change (negb (has_node s i) = true). rewrite Hn. reflexivity. }
    assert (Hn1 : has_node (p_add_node s i) i = true).
    { unfold p_add_node. rewrite Hn. apply has_node_In. cbn [st_nodes]. apply in_app_iff. right. left. reflexivity. }
    apply (inv_step tbl (p_add_node s i) (SetC i (ac_S cf)) Hwf Hso I1).
    change (has_node (p_add_node s i) i && match getc (p_add_node s i) i with None => true | Some _ => false end = true).
    rewrite Hn1. unfold getc, p_add_node. rewrite Hn. cbn [st_attr]. unfold s. rewrite (proj2 (proj1 (proj1 HB)) i Hfresh). reflexivity.
  - intros v Hv. apply P, in_app_iff. destruct Hv as [<-|Hv]; [right; left; reflexivity | left; apply Eo, Hv].
Qed.

(* delete in the inheritance combination: ChangeC n R; RemoveNode n *)
Lemma delete_step_inv_inherit : ac_combo cf = Inherit -> forall w n, Inv tbl (aw_st w) -> Inv tbl (aw_st (delete_step cf w n)).
Proof.
  intros Ec w n H. rewrite delete_step_st. unfold delete_state, mark_removed, unlink, with_disease. rewrite Ec. fold tbl.
  apply remove_node_inv, change_compartment_inv, H.
Qed.

(* Process.removeNode under the disease's feet is sound exactly when no locus of the disease
   mentions the compartment the node is in *)
Definition mentions (sp : spec) (c : Z) : bool :=
  match sp with
  | NodeLocus c' => Z.eqb c' c
  | EdgeLocus l r => Z.eqb l c || Z.eqb r c
  | MultiEdgeLocus l rs => Z.eqb l c || zmem c rs
  end.

Lemma regs_mentions : forall sp c, regs sp c -> mentions sp c = true.
Proof.
  intros [c'|l r|l rs] c; cbn.
  - intros ->. apply Z.eqb_refl.
  - intros [->| ->]; rewrite Z.eqb_refl; [reflexivity | apply orb_true_r].
  - intros H. apply zmem_In in H. rewrite H. apply orb_true_r.
Qed.

Lemma p_remove_node_inv : forall s n c, Inv tbl s -> In n (st_nodes s) -> getc s n = Some c ->
  forallb (fun sp => negb (mentions sp c)) tbl = true -> Inv tbl (fst (p_remove_node s n)).
Proof.
  intros s n c HI Hn Hc Hm. apply has_node_In in Hn as Hhn.
  destruct (p_remove_node_without s n Hhn) as [_ Wn]. set (s' := fst (p_remove_node s n)) in *.
  apply Inv_loci_inv in HI. destruct HI as [HG HS].
  assert (Eloci : st_loci s' = st_loci s) by (unfold s', p_remove_node; rewrite Hhn; reflexivity).
  apply WInv_Inv; [exact Hso|]. split; [exact (graph_ok_without s n s' Wn HG)|].
  apply (loci_inv_restrict tbl s s' (N n) Eloci).
  - intros [v|a b]; cbn [LociLocus.present covers involves]; [apply (without_node_In s n s' Wn)|].
    unfold adj. rewrite (proj1 (proj2 Wn)), adjb_filter by (unfold touches; cbn; rewrite orb_comm; reflexivity).
    rewrite touches_false. tauto.
  - intros x Hx v Hv. assert (Hne : v <> n) by (intros ->; exact (Hx Hv)).
    unfold getc. rewrite (proj2 (proj2 Wn)). apply Z.eqb_neq in Hne. rewrite Hne. reflexivity.
  - (* no element of a locus involves n: its compartment is mentioned by none *)
    revert HS. apply loci_inv_mono; [reflexivity|]. intros sp l Hsp [S1 S2].
    assert (Hno : forall x, truthP sp s x -> ~ involves n x).
    { intros x Hx Hinv. destruct (truthP_regs sp s n x (wf_loci_In _ _ Hwf Hsp) Hx Hinv) as [c' [G R]].
      rewrite Hc in G. injection G as <-. apply regs_mentions in R.
      rewrite forallb_forall in Hm. specialize (Hm sp Hsp). rewrite R in Hm. discriminate. }
    split; [exact S1|]. split.
    + intros x Hx. apply S2 in Hx. split; [exact Hx | apply Hno, Hx].
    + intros x [Hx _]. left. apply S2, Hx.
Qed.

(* delete wherever the disease hears of the edges: in the repaired sequence recipe Process.removeNode
   acts on a node just put into REMOVED *)
Lemma delete_step_inv : tracked_edges cf = true ->
  (ac_combo cf = Sequence true -> forallb (fun sp => negb (mentions sp (ac_R cf))) tbl = true) ->
  forall w n, Base cf w -> In n (st_nodes (aw_st w)) -> Inv tbl (aw_st w) -> Inv tbl (aw_st (delete_step cf w n)).
Proof.
  intros T Hseq w n HB Hn HI. destruct (ac_combo cf) as [| |v] eqn:Ec.
  - unfold tracked_edges in T. rewrite Ec in T. discriminate.
  - apply delete_step_inv_inherit; assumption.
  - assert (v = true) by (unfold tracked_edges in T; rewrite Ec in T; exact T). subst v.
    rewrite delete_step_st. unfold delete_state, mark_removed, unlink, with_disease. rewrite Ec. fold tbl.
    destruct (change_compartment_net tbl (aw_st w) n (ac_R cf)) as [[A [_ [C _]]] _].
    rewrite (proj2 (Base_present cf w n HB Hn) (tracked_with_disease cf T)) in A, C. cbn [with_attr st_nodes st_attr] in A, C.
    apply (p_remove_node_inv _ n (ac_R cf)).
    + apply change_compartment_inv, HI.
    + rewrite A. exact Hn.
    + unfold getc. rewrite C, Z.eqb_refl. reflexivity.
    + apply Hseq. reflexivity.
Qed.

End InvSteps.
