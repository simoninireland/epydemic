(* Proofs about Model/Generators.v (C15), part 1: the quota/parameter automaton and the PLC degree loop. *)
From Coq Require Import List ZArith QArith Bool Arith Lia.
From EpyV Require Import Model.Shuffle Model.Generators.
Import ListNotations.
Local Open Scope nat_scope.

Definition is_gen (o : qop) : bool := match o with QGen | QNext => true | _ => false end.
Definition gens (ops : list qop) : nat := length (filter is_gen ops).

(* the parameter values handed to _generate, in order *)
Fixpoint graph_params (outs : list qout) : list (list Z) :=
  match outs with
  | [] => []
  | OGraph p :: r => p :: graph_params r
  | _ :: r => graph_params r
  end.

(* specification, with no notion of aliasing or quota: what every request should see is the caller's dict as
   it was at the most recent set() *)
Fixpoint snaps (snap caller : list Z) (ops : list qop) : list (list Z) :=
  match ops with
  | [] => []
  | QSet :: r => snaps caller caller r
  | QMutate k v :: r => snaps snap (update caller k v) r
  | (QGen | QNext) :: r => snap :: snaps snap caller r
  end.

Definition budget (rem : option nat) (ops : list qop) : nat :=
  match rem with None => gens ops | Some L => L end.

Lemma snaps_length snap caller ops : length (snaps snap caller ops) = gens ops.
Proof.
  revert snap caller. induction ops as [|o r IH]; intros; [reflexivity|].
  destruct o; unfold gens in *; cbn; rewrite ?IH; reflexivity.
Qed.

Definition is_graph (o : qout) : bool := match o with OGraph _ => true | _ => false end.

(* What a program puts out, in one induction: one answer per request, a network until the quota is used up and
   None / StopIteration (never the other way round) from then on; and, for a generator that owns its parameters,
   the networks are made from the caller's dict as it was at the most recent set(). *)
Lemma q_run_spec s ops :
  map is_graph (q_run s ops) =
    match q_rem s with
    | None => repeat true (gens ops)
    | Some L => repeat true (Nat.min L (gens ops)) ++ repeat false (gens ops - L)
    end
  /\ Forall2 (fun o out => match out with ONone => o = QGen | OStop => o = QNext | OGraph _ => True end)
             (filter is_gen ops) (q_run s ops)
  /\ (q_alias s = false ->
      graph_params (q_run s ops) = firstn (budget (q_rem s) ops) (snaps (q_own s) (q_caller s) ops)).
Proof.
  revert s. induction ops as [|o r IH]; intros s.
  { split; [|split; [constructor|]]; destruct (q_rem s) as [[|n]|]; reflexivity. }
  destruct (IH (fst (q_step s o))) as (A & K & P). clear IH.
  destruct o as [|k v| |]; cbn [q_run q_step fst] in *.
  1: { (* set *) split; [exact A|]. split; [exact K|]. intros _. exact (P eq_refl). }
  1: { (* mutate *) split; [exact A|]. split; [exact K|]. exact P. }
  (* generate and next differ only in the answer given once the quota is used up *)
  all: unfold q_generate, q_params in *; destruct (q_rem s) as [[|n]|] eqn:Hr;
    cbn [fst snd app map is_graph graph_params filter is_gen q_rem q_alias q_own q_caller] in *; rewrite ?Hr in *.
  all: (split; [rewrite A; unfold gens; cbn; rewrite ?Nat.sub_0_r; reflexivity|]).
  all: (split; [constructor; auto|]).
  all: intros Ha; rewrite (P Ha), ?Ha; reflexivity.
Qed.

Lemma graph_params_length outs : length (graph_params outs) = count_occ bool_dec (map is_graph outs) true.
Proof. induction outs as [|[| |p] r IH]; cbn; rewrite ?IH; reflexivity. Qed.

Lemma q_run_count s ops :
  length (graph_params (q_run s ops)) = match q_rem s with None => gens ops | Some L => Nat.min L (gens ops) end.
Proof.
  rewrite graph_params_length, (proj1 (q_run_spec s ops)).
  destruct (q_rem s) as [L|]; [|apply count_occ_repeat_eq; reflexivity].
  rewrite count_occ_app, count_occ_repeat_eq, count_occ_repeat_neq by (reflexivity || discriminate). apply Nat.add_0_r.
Qed.

(* after a set() the generator is no longer tied to the caller's dict *)
Lemma q_after_set s : q_alias (fst (q_step s QSet)) = false /\ q_own (fst (q_step s QSet)) = q_caller s
  /\ q_caller (fst (q_step s QSet)) = q_caller s /\ q_rem (fst (q_step s QSet)) = q_rem s.
Proof. cbn. auto. Qed.

Definition deg_ok (k : nat) : Prop := 1 <= k <= 99.
Definition ev_ok (e : pev) : Prop := match e with PK k _ => deg_ok k | PIdx _ => True end.

Lemma plc_draw_spec {p evs k rest} : Forall ev_ok evs -> plc_draw p evs = Some (k, rest) ->
  deg_ok k /\ Forall ev_ok rest.
Proof.
  revert k rest. induction evs as [|e evs IH]; intros k rest Hf; cbn [plc_draw]; [discriminate|].
  destruct e as [k0 r|i]; [|discriminate]. inversion Hf as [|? ? H1 H2]; subst.
  destruct (Qle_bool (p k0) r).
  - intros H. exact (IH _ _ H2 H).
  - intros H. inversion H; subst. auto.
Qed.

Lemma plc_fill_spec {p n} : forall {ns evs ns' rest}, Forall ev_ok evs -> Forall deg_ok ns ->
  plc_fill p n ns evs = Some (ns', rest) ->
  Forall deg_ok ns' /\ length ns' = length ns + n /\ Forall ev_ok rest.
Proof.
  induction n as [|n IH]; intros ns evs ns' rest He Hn; cbn [plc_fill].
  - intros H; inversion H; subst. auto.
  - destruct (plc_draw p evs) as [[k r]|] eqn:Hd; [|discriminate].
    destruct (plc_draw_spec He Hd) as [Hk Hr].
    intros H. apply IH in H; [|exact Hr|apply Forall_app; auto].
    destruct H as [A [B C]]. rewrite app_length in B. cbn in B. split; [exact A|]. split; [lia|exact C].
Qed.

Lemma remove_nth_Forall {A} (P : A -> Prop) i l : Forall P l -> Forall P (remove_nth i l).
Proof.
  revert i. induction l as [|x l IH]; intros i H; [destruct i; constructor|].
  inversion H; subst. destruct i; cbn; [assumption|]. constructor; auto.
Qed.

Lemma remove_nth_length {A} i (l : list A) : i < length l -> S (length (remove_nth i l)) = length l.
Proof.
  revert i. induction l as [|x l IH]; intros i H; [cbn in H; lia|].
  destruct i; cbn; [reflexivity|]. cbn in H. rewrite IH by lia. reflexivity.
Qed.

Lemma plc_repair_spec {p fuel} : forall {ns evs ns' rest}, Forall ev_ok evs -> Forall deg_ok ns ->
  plc_repair fuel p ns evs = Some (ns', rest) ->
  Forall deg_ok ns' /\ length ns' = length ns /\ Nat.even (total ns') = true.
Proof.
  induction fuel as [|f IH]; intros ns evs ns' rest He Hn; cbn [plc_repair];
    destruct (Nat.even (total ns)) eqn:Hev.
  - intros H; inversion H; subst. auto.
  - discriminate.
  - intros H; inversion H; subst. auto.
  - destruct evs as [|[k r|i] evs]; try discriminate. inversion He as [|? ? _ He']; subst.
    destruct (i <? length ns - 1) eqn:Hi; [|discriminate]. apply Nat.ltb_lt in Hi.
    destruct (plc_draw p evs) as [[k r]|] eqn:Hd; [|discriminate].
    destruct (plc_draw_spec He' Hd) as [Hk Hr].
    intros H. apply IH in H; [|exact Hr|apply Forall_app; split; [apply remove_nth_Forall; exact Hn|auto]].
    destruct H as [A [B C]]. split; [exact A|]. split; [|exact C].
    rewrite B, app_length. cbn. pose proof (remove_nth_length i ns ltac:(lia)). lia.
Qed.
