(* C04: invariants of the posted-event queue.  [wfk]: ids are distinct and allocated; [cons_of]:
   a live entry stays queued until it fires or is un-posted; [ginv]: what the output says about
   the queue and the log of fired entries (records of posts, un-posts and posted handlers, ids
   never reused, successors of repeating entries).  Each is proved once per kind of move
   (KernelBase.umove, kmove) and lifted to sequences of moves; run_pending and the two scheduler
   loops are such sequences, so the invariants hold along them and at the end of a run. *)
From Coq Require Import List ZArith QArith Qabs Bool Arith Lia Lqa.
From EpyV Require Import Lib.Lists Model.Kernel Proofs.KernelBase Proofs.KernelLoops.
Import ListNotations.
Open Scope Q_scope.

Definition wfk (n : nat) (q : list entry) : Prop :=
  NoDup (map e_id q) /\ Forall (fun x => (e_id x < n)%nat) q.

Lemma wf_wfk {W : Type} (s : st W) : wf s = wfk (nextid s) (queue s).
Proof. reflexivity. Qed.

Lemma wfk_nil n : wfk n [].
Proof. split; constructor. Qed.

Lemma wfk_lt {n q x} : wfk n q -> In x q -> (e_id x < n)%nat.
Proof. intros [_ Hlt]. exact (proj1 (Forall_forall _ _) Hlt x). Qed.

Lemma wfk_incl n q q' : NoDup (map e_id q') -> incl q' q -> wfk n q -> wfk n q'.
Proof.
  intros Hnd Hi [_ Hlt]. split; [exact Hnd|]. rewrite Forall_forall in *. intros x Hx. apply Hlt, Hi, Hx.
Qed.

Lemma wfk_remove n q i : wfk n q -> wfk n (remove_id i q).
Proof. intros H. eapply wfk_incl; [apply remove_id_NoDup, H|apply remove_id_incl|exact H]. Qed.

Lemma wfk_discard n q f : wfk n q -> wfk n (discard_dead f q).
Proof. intros H. eapply wfk_incl; [apply discard_dead_NoDup, H|apply discard_dead_incl|exact H]. Qed.

Lemma wfk_post n q t p e prog rep : wfk n q -> wfk (S n) (mk_entry t n p e prog rep :: q).
Proof.
  intros [Hnd Hlt]. split; cbn.
  - constructor; [|exact Hnd]. intros Hin. apply in_map_iff in Hin. destruct Hin as [y [Hy Hin]].
    rewrite Forall_forall in Hlt. specialize (Hlt y Hin). lia.
  - constructor; [cbn; lia|]. eapply Forall_impl; [|exact Hlt]. cbn. intros; lia.
Qed.

Lemma wfk_kill n q i : wfk n q -> wfk n (kill i q).
Proof.
  intros [Hnd Hlt]. split; [rewrite kill_ids; exact Hnd|].
  rewrite Forall_forall in *. intros y Hy. apply kill_in in Hy.
  destruct Hy as [[Hy _]|[x [Hx [_ ->]]]]; [apply Hlt, Hy|]. cbn. apply Hlt, Hx.
Qed.

Lemma wfk_umove {c n q o c' n' q' o'} : umove (c, n, q, o) (c', n', q', o') -> wfk n q -> wfk n' q'.
Proof. intros H Hw. elim H using umove_cases; auto using wfk_post, wfk_kill. Qed.

Lemma wfk_umoves {c n q o c' n' q' o'} : umoves (c, n, q, o) (c', n', q', o') -> wfk n q -> wfk n' q'.
Proof. exact (umoves_inv (fun _ n q _ => wfk n q) (@wfk_umove)). Qed.

Lemma wfk_kmove {c n q o l c' n' q' o'} : kmove (c, n, q, o) l (c', n', q', o') -> wfk n q -> wfk n' q'.
Proof.
  intros H Hw. elim H using kmove_cases.
  - intros c1 n1 q1 o1 U. exact (wfk_umoves U Hw).
  - intros f. apply wfk_discard, Hw.
  - intros _. exact Hw.
  - intros h n2 q2 o2 _ _ U _. exact (wfk_umoves U (wfk_remove _ _ _ Hw)).
  - intros k e m pi j n2 q2 o2 U. exact (wfk_umoves U Hw).
Qed.

Lemma wfk_kmoves {c n q o l c' n' q' o'} : kmoves (c, n, q, o) l (c', n', q', o') -> wfk n q -> wfk n' q'.
Proof. exact (kmoves_inv (fun _ _ n q _ => wfk n q) (fun _ => @wfk_kmove) []). Qed.

(* a live entry is in the queue, or has fired, or has been un-posted (and the user was told its time) *)
Definition unposted (y : entry) : obs := OUnpost (e_id y) (Some (Some (e_time y))).
Definition cons_of (y : entry) (q : list entry) (lg : list entry) (o : list obs) : Prop :=
  In y q \/ In y lg \/ In (unposted y) o.

Lemma cons_umove y {c n q o c' n' q' o'} lg : wfk n q ->
  umove (c, n, q, o) (c', n', q', o') -> cons_of y q lg o -> cons_of y q' lg o'.
Proof.
  intros Hw H C. unfold cons_of in *.
  elim H using umove_cases; [intros; destruct C as [?|[?|?]]; auto using in_cons..|].
  (* kill: a queued y either keeps its place or is the entry un-posted *)
  intros i x F. destruct C as [Hq|[Hg|Ho]]; auto using in_cons.
  destruct (Nat.eq_dec (e_id y) i) as [E|E]; [|left; apply kill_keeps; assumption].
  right. right. left. apply find_live_some in F. destruct F as [Hx [Hi _]].
  assert (x = y) by (eapply NoDup_id_inj; [apply Hw|assumption|assumption|congruence]).
  subst x. unfold unposted. rewrite E. reflexivity.
Qed.

Lemma cons_umoves y lg {c n q o c' n' q' o'} : umoves (c, n, q, o) (c', n', q', o') ->
  wfk n q -> cons_of y q lg o -> cons_of y q' lg o'.
Proof.
  intros U Hw C.
  refine (proj2 (umoves_inv (fun _ n q o => wfk n q /\ cons_of y q lg o) _ U (conj Hw C))).
  intros * H [A B]. split; [exact (wfk_umove H A)|exact (cons_umove y lg A H B)].
Qed.

Lemma cons_emit y q lg o x : cons_of y q lg o -> cons_of y q lg (x :: o).
Proof. unfold cons_of. intros [H|[H|H]]; auto using in_cons. Qed.

Lemma cons_discard y n q lg o f : e_live y = true -> wfk n q -> cons_of y q lg o -> cons_of y (discard_dead f q) lg o.
Proof.
  unfold cons_of. intros Hl Hw [H|[H|H]]; auto. left. apply discard_dead_keeps_live; [apply Hw|assumption..].
Qed.

Lemma cons_pop y n q lg o h : wfk n q -> In h q -> cons_of y q lg o ->
  cons_of y (remove_id (e_id h) q) (lg ++ [h]) (hrec h :: o).
Proof.
  unfold cons_of. intros Hw Hh [H|[H|H]].
  - destruct (Nat.eq_dec (e_id y) (e_id h)) as [E|E].
    + right. left. assert (y = h) by (eapply NoDup_id_inj; [apply Hw|eassumption..]). subst. apply in_or_app. right. left. reflexivity.
    + left. apply remove_id_keeps; assumption.
  - right. left. apply in_or_app. left. exact H.
  - right. right. right. exact H.
Qed.

Lemma cons_log y q lg o l : cons_of y q lg o -> cons_of y q (lg ++ l) o.
Proof. unfold cons_of. intros [H|[H|H]]; auto. right. left. apply in_or_app. left. exact H. Qed.

Lemma cons_kmove y {c n q o l c' n' q' o'} lg : e_live y = true -> wfk n q ->
  kmove (c, n, q, o) l (c', n', q', o') -> cons_of y q lg o -> cons_of y q' (lg ++ l) o'.
Proof.
  intros Hl Hw H C. elim H using kmove_cases.
  - intros c1 n1 q1 o1 U. rewrite app_nil_r. exact (cons_umoves y lg U Hw C).
  - intros f. rewrite app_nil_r. eapply cons_discard; eassumption.
  - intros _. rewrite app_nil_r. exact C.
  - intros h n2 q2 o2 Hh _ U _. apply cons_emit. refine (cons_umoves y _ U (wfk_remove _ _ _ Hw) _).
    exact (cons_pop _ _ _ _ _ _ Hw (head_in _ _ Hh) C).
  - intros k e m pi j n2 q2 o2 U. rewrite app_nil_r.
    apply cons_emit. exact (cons_umoves y lg U Hw (cons_emit _ _ _ _ _ C)).
Qed.

Lemma cons_kmoves y lg {c n q o l c' n' q' o'} : e_live y = true -> kmoves (c, n, q, o) l (c', n', q', o') ->
  wfk n q -> cons_of y q lg o -> cons_of y q' (lg ++ l) o'.
Proof.
  intros Hl K Hw C.
  refine (proj2 (kmoves_inv (fun lg _ n q o => wfk n q /\ cons_of y q lg o) _ lg K (conj Hw C))).
  intros * H [A B]. split; [exact (wfk_kmoves (kmoves_one H) A)|exact (cons_kmove y _ Hl A H B)].
Qed.

(* the record of a posted event's handler call (member None): KernelMember.is_posted is the same test *)
Definition is_ph (x : obs) : bool := match x with OHandler _ _ _ _ None => true | _ => false end.

(* records that the invariant does not depend on: everything but successful posts / un-posts and
   posted-handler records *)
Definition gneutral (x : obs) : bool :=
  match x with
  | OHandler _ _ _ _ None | OPosted _ _ | OUnpost _ (Some (Some _)) => false
  | _ => true
  end.

Lemma neutral_gneutral x : neutral x = true -> gneutral x = true.
Proof. destruct x as [? ? ? ? [m|]| | | | |? [[r|]|]| |]; cbn; congruence. Qed.

(* [lg] is the log of fired entries; [lgr] is the part of it whose successors (for repeating
   entries) are accounted for: it lags one entry behind [lg] while that entry's handler runs *)
Record ginv2 (n : nat) (q : list entry) (o : list obs) (lg lgr : list entry) : Prop := {
  g_wf : wfk n q;
  (* fired ids are gone for good *)
  g_fired : forall x, In x lg -> (e_id x < n)%nat /\ ~ In (e_id x) (map e_id q) /\ e_live x = true;
  g_nodup : NoDup (map e_id lg);
  (* the posted-handler records are those of the fired entries, in order *)
  g_hrec : filter is_ph o = map hrec (rev lg);
  (* every id handed to the user names an entry with the time it was posted for *)
  g_posted : forall i tt, In (OPosted i tt) o ->
     exists x, e_id x = i /\ e_time x = tt /\ e_live x = true /\ cons_of x q lg o;
  (* an un-posted id is dead and never fires *)
  g_unposted : forall i r, In (OUnpost i (Some (Some r))) o ->
     (i < n)%nat /\ (forall y, In y q -> e_id y = i -> e_live y = false) /\ ~ In i (map e_id lg);
  (* a repeating entry that fired has posted its successor *)
  g_rep : forall x ddt, In x lgr -> e_rep x = Some ddt -> 0 <= ddt ->
     exists y, succ_of x ddt y /\ cons_of y q lg o }.
Definition ginv n q o lg := ginv2 n q o lg lg.

Arguments g_wf {n q o lg lgr}.
Arguments g_fired {n q o lg lgr}.
Arguments g_nodup {n q o lg lgr}.
Arguments g_hrec {n q o lg lgr}.
Arguments g_posted {n q o lg lgr}.
Arguments g_unposted {n q o lg lgr}.
Arguments g_rep {n q o lg lgr}.

Lemma ginv_nil n q : wfk n q -> ginv n q [] [].
Proof.
  intros Hw.
  refine {| g_wf := Hw; g_fired := _; g_nodup := _; g_hrec := _; g_posted := _; g_unposted := _; g_rep := _ |};
    [intros x []|constructor|reflexivity|intros i tt []|intros i r []|intros x ddt []].
Qed.

(* the two fields that promise the fate of an entry follow any change that conserves live entries *)
Lemma ginv_fates {n q o lg lgr} q' lg' o' : ginv2 n q o lg lgr ->
  (forall y, e_live y = true -> cons_of y q lg o -> cons_of y q' lg' o') ->
  (forall i tt, In (OPosted i tt) o ->
     exists x, e_id x = i /\ e_time x = tt /\ e_live x = true /\ cons_of x q' lg' o') /\
  (forall x ddt, In x lgr -> e_rep x = Some ddt -> 0 <= ddt -> exists y, succ_of x ddt y /\ cons_of y q' lg' o').
Proof.
  intros G H. split.
  - intros i tt Hi. destruct (g_posted G i tt Hi) as (x & A & B & C & D). exists x. auto.
  - intros x ddt Hx Hr Hd. destruct (g_rep G x ddt Hx Hr Hd) as (y & A & B). exists y.
    split; [exact A|]. apply H; [exact (succ_live _ _ _ A)|exact B].
Qed.

Lemma ginv_unfired {n q o lg lgr x} : ginv2 n q o lg lgr -> In x q -> ~ In (e_id x) (map e_id lg).
Proof.
  intros G Hx Hin. apply in_map_iff in Hin. destruct Hin as [z [Hz Hin]].
  destruct (g_fired G z Hin) as [_ [B _]]. apply B. rewrite Hz. apply in_map, Hx.
Qed.

Lemma ginv_emit n q o lg lgr x : gneutral x = true -> ginv2 n q o lg lgr -> ginv2 n q (x :: o) lg lgr.
Proof.
  intros Hx G. destruct (ginv_fates q lg (x :: o) G) as [P R]; [intros y _; apply cons_emit|].
  split; [exact (g_wf G)|exact (g_fired G)|exact (g_nodup G)| | | |exact R].
  - (* g_hrec *) cbn. replace (is_ph x) with false; [exact (g_hrec G)|]. destruct x as [? ? ? ? [m|]| | | | | | |]; cbn in *; congruence.
  - (* g_posted *) intros i tt [E|H]; [subst x; discriminate|exact (P i tt H)].
  - (* g_unposted *) intros i r [E|H]; [subst x; discriminate|exact (g_unposted G i r H)].
Qed.

Lemma ginv_umove {c n q o c' n' q' o' lg lgr} : umove (c, n, q, o) (c', n', q', o') -> ginv2 n q o lg lgr -> ginv2 n' q' o' lg lgr.
Proof.
  intros H G. destruct (ginv_fates q' lg o' G) as [P R]; [intros y _; exact (cons_umove y lg (g_wf G) H)|].
  revert P R. elim H using umove_cases.
  - intros x Hx _ _. apply ginv_emit; [apply neutral_gneutral|]; assumption.
  - (* post: the new id is fresh *)
    intros t p e prog rep Ht P R.
    split; [exact (wfk_post _ _ _ _ _ _ _ (g_wf G))| |exact (g_nodup G)|exact (g_hrec G)|exact P| |exact R].
    + (* g_fired *) intros x Hx. destruct (g_fired G x Hx) as [A [B C]]. split; [lia|split; [|exact C]]. cbn. intros [E|E]; [lia|auto].
    + (* g_unposted *) intros i r Hi. destruct (g_unposted G i r Hi) as [A [B C]]. split; [lia|split; [|exact C]].
      intros y [<-|Hy] E; [cbn in E; lia|auto].
  - (* OPosted record: the entry it names is queued *)
    intros x Hx Hlx P R.
    split; [exact (g_wf G)|exact (g_fired G)|exact (g_nodup G)|exact (g_hrec G)| | |exact R].
    + (* g_posted *) intros i tt [E|Hi]; [|exact (P i tt Hi)].
      injection E as <- <-. exists x. split; [reflexivity|split; [reflexivity|split; [assumption|]]]. left. assumption.
    + (* g_unposted *) intros i r [E|Hi]; [discriminate|exact (g_unposted G i r Hi)].
  - (* kill: the id is allocated, its entry dead from now on, and it has not fired *)
    intros i x F P R. pose proof (find_live_some _ _ _ F) as [Hx [Hi Hlx]].
    split; [exact (wfk_kill _ _ _ (g_wf G))| |exact (g_nodup G)|exact (g_hrec G)| | |exact R].
    + (* g_fired *) intros y Hy. rewrite kill_ids. exact (g_fired G y Hy).
    + (* g_posted *) intros j tt [E|Hj]; [discriminate|exact (P j tt Hj)].
    + (* g_unposted *) intros j r [E|Hj].
      * injection E as <- <-. rewrite <- Hi. split; [exact (wfk_lt (g_wf G) Hx)|split; [|exact (ginv_unfired G Hx)]].
        intros y Hy E. apply kill_in in Hy. destruct Hy as [[_ Hne]|[z [_ [_ ->]]]]; [contradiction|reflexivity].
      * destruct (g_unposted G j r Hj) as [A [B C]]. split; [exact A|split; [|exact C]].
        intros y Hy E. apply kill_in in Hy. destruct Hy as [[Hy _]|[z [_ [_ ->]]]]; [auto|reflexivity].
Qed.

Lemma ginv_umoves {lg lgr c n q o c' n' q' o'} : umoves (c, n, q, o) (c', n', q', o') ->
  ginv2 n q o lg lgr -> ginv2 n' q' o' lg lgr.
Proof. apply (umoves_inv (fun _ n q o => ginv2 n q o lg lgr)). intros *. exact ginv_umove. Qed.

Lemma ginv_discard n q o lg lgr f : ginv2 n q o lg lgr -> ginv2 n (discard_dead f q) o lg lgr.
Proof.
  intros G. destruct (ginv_fates (discard_dead f q) lg o G) as [P R];
    [intros y Hl; exact (cons_discard y _ _ _ _ f Hl (g_wf G))|].
  split; [exact (wfk_discard _ _ _ (g_wf G))| |exact (g_nodup G)|exact (g_hrec G)|exact P| |exact R].
  - (* g_fired *) intros x Hx. destruct (g_fired G x Hx) as [A [B C]]. split; [exact A|split; [|exact C]].
    intros Hin. exact (B (incl_map e_id (discard_dead_incl f q) _ Hin)).
  - (* g_unposted *) intros i r Hi. destruct (g_unposted G i r Hi) as [A [B C]]. split; [exact A|split; [|exact C]].
    intros y Hy. apply B. eapply discard_dead_incl; eassumption.
Qed.

(* popping the live head: its record goes out, it joins the log; the successor of a repeating
   head is not there yet, so [g_rep] still ranges over the old log *)
Lemma ginv_pop n q o lg h : head q = Some h -> e_live h = true -> ginv n q o lg ->
  ginv2 n (remove_id (e_id h) q) (hrec h :: o) (lg ++ [h]) lg.
Proof.
  intros Hh Hl G. pose proof (head_in _ _ Hh) as Hin.
  destruct (ginv_fates (remove_id (e_id h) q) (lg ++ [h]) (hrec h :: o) G) as [P R];
    [intros y _; exact (cons_pop y _ _ _ _ _ (g_wf G) Hin)|].
  split; [exact (wfk_remove _ _ _ (g_wf G))| | | | | |exact R].
  - (* g_fired *) intros x Hx. apply in_app_or in Hx. destruct Hx as [Hx|[<-|[]]].
    + destruct (g_fired G x Hx) as [A [B C]]. split; [exact A|split; [|exact C]].
      intros Hi. exact (B (incl_map e_id (remove_id_incl (e_id h) q) _ Hi)).
    + split; [exact (wfk_lt (g_wf G) Hin)|split; [apply remove_id_gone, (g_wf G)|exact Hl]].
  - (* g_nodup *) rewrite map_app. cbn. apply NoDup_snoc; [exact (g_nodup G)|exact (ginv_unfired G Hin)].
  - (* g_hrec *) cbn. rewrite (g_hrec G), rev_app_distr. reflexivity.
  - (* g_posted *) intros i tt [E|Hi]; [discriminate|exact (P i tt Hi)].
  - (* g_unposted *) intros i r [E|Hi]; [discriminate|]. destruct (g_unposted G i r Hi) as [A [B C]]. split; [exact A|split].
    + intros y Hy. apply B. eapply remove_id_incl; eassumption.
    + rewrite map_app. cbn. intros Hx. apply in_app_or in Hx. destruct Hx as [Hx|[Hx|[]]]; [auto|].
      rewrite (B h Hin Hx) in Hl. discriminate.
Qed.

(* once the handler has returned, the successor of a repeating head is queued *)
Lemma ginv_close n q o lg h : ginv2 n q o (lg ++ [h]) lg ->
  (forall ddt, e_rep h = Some ddt -> 0 <= ddt -> exists y, succ_of h ddt y /\ In y q) ->
  ginv n q o (lg ++ [h]).
Proof.
  intros G Hs.
  split; [exact (g_wf G)|exact (g_fired G)|exact (g_nodup G)|exact (g_hrec G)|exact (g_posted G)|exact (g_unposted G)|].
  intros x ddt Hx Hr Hd. apply in_app_or in Hx. destruct Hx as [Hx|[<-|[]]]; [exact (g_rep G x ddt Hx Hr Hd)|].
  destruct (Hs ddt Hr Hd) as [y [A B]]. exists y. split; [exact A|left; exact B].
Qed.

Lemma ginv_kmove {c n q o l c' n' q' o' lg} : kmove (c, n, q, o) l (c', n', q', o') ->
  ginv n q o lg -> ginv n' q' o' (lg ++ l).
Proof.
  intros H G. elim H using kmove_cases.
  - intros c1 n1 q1 o1 U. rewrite app_nil_r. exact (ginv_umoves U G).
  - intros f. rewrite app_nil_r. apply ginv_discard, G.
  - intros _. rewrite app_nil_r. exact G.
  - intros h n2 q2 o2 Hh Hl U Hs. apply ginv_emit; [reflexivity|]. apply ginv_close; [|exact Hs].
    exact (ginv_umoves U (ginv_pop _ _ _ _ _ Hh Hl G)).
  - intros k e m pi j n2 q2 o2 U. rewrite app_nil_r. apply ginv_emit; [reflexivity|].
    exact (ginv_umoves U (ginv_emit _ _ _ _ _ (OHandler _ _ _ _ (Some _)) eq_refl G)).
Qed.

Lemma ginv_kmoves lg {c n q o l c' n' q' o'} : kmoves (c, n, q, o) l (c', n', q', o') ->
  ginv n q o lg -> ginv n' q' o' (lg ++ l).
Proof. apply (kmoves_inv (fun lg _ n q o => ginv n q o lg)). intros *. exact ginv_kmove. Qed.

(* the primitive steps of the kernel are moves, hence so are run_pending and the two loops *)
Section Moves.
Context {W : Type}.
Implicit Types s : st W.
Variable tb : table W.
Variable k : core.

Lemma kmoves_osame s s' l : osame s s' -> kmoves k l (core_of s) -> kmoves k l (core_of s').
Proof. intros H. rewrite (osame_core _ _ H). auto. Qed.

Lemma kmoves_discard s l : kmoves k l (core_of s) -> kmoves k l (core_of (discard s)).
Proof. intros K. exact (kmoves_snoc_nil K (km_discard _ _ _ _ _)). Qed.

Lemma kmoves_set_clock c s l : kmoves k l (core_of s) -> kmoves k l (core_of (set_clock c s)).
Proof. intros K. exact (kmoves_snoc_nil K (km_clock _ _ _ _ _)). Qed.

Lemma kmoves_pend_step h s l : head (queue s) = Some h -> e_live h = true ->
  kmoves k l (core_of s) -> kmoves k (l ++ [h]) (core_of (pend_step tb h s)).
Proof. intros Hh Hl K. exact (kmoves_snoc K (pend_step_kmove tb h s Hh Hl)). Qed.

Lemma kmoves_fire_event x t e s l : clock s = t ->
  kmoves k l (core_of s) -> kmoves k l (core_of (fire_event tb x t e s)).
Proof. intros Hc K. exact (kmoves_snoc_nil K (fire_event_kmove tb x t e s Hc)). Qed.

End Moves.

Section Runs.
Context {W : Type}.
Implicit Types s : st W.

Lemma run_pendingL_kmoves {tb fuel t n s n' s' l} :
  run_pendingL tb fuel t n s = (n', s', l) -> kmoves (core_of s) l (core_of s').
Proof.
  exact (lift_run_pendingL tb (fun s1 lg => kmoves (core_of s) lg (core_of s1)) (fun _ _ K => K)
           (kmoves_discard _) (kmoves_pend_step tb _) (lg := []) (ks_refl _)).
Qed.

Lemma stoch_loopL_kmoves {tb pf fuel t ev s t' ev' s' l} :
  stoch_loopL tb pf fuel t ev s = (t', ev', s', l) -> kmoves (core_of s) l (core_of s').
Proof.
  exact (lift_stoch_loopL tb (fun s1 lg => kmoves (core_of s) lg (core_of s1)) (fun _ _ K => K)
           (kmoves_osame _) (kmoves_discard _) (kmoves_set_clock _) (kmoves_pend_step tb _)
           (kmoves_fire_event tb _) (lg := []) (ks_refl _)).
Qed.

Lemma sync_loopL_kmoves {tb pf fuel t ev k s t' ev' k' s' l} :
  sync_loopL tb pf fuel t ev k s = (t', ev', k', s', l) -> kmoves (core_of s) l (core_of s').
Proof.
  exact (lift_sync_loopL tb (fun s1 lg => kmoves (core_of s) lg (core_of s1)) (fun _ _ K => K)
           (kmoves_osame _) (kmoves_discard _) (kmoves_set_clock _) (kmoves_pend_step tb _)
           (kmoves_fire_event tb _) (lg := []) (ks_refl _)).
Qed.

(* the runs, with the log of fired entries *)
Definition stoch_runL (tb : table W) (pf fuel : nat) (rs ls : list Q) (ds : list nat) :=
  stoch_loopL tb pf fuel 0 0 (setup_state tb rs ls ds).
Definition sync_runL (tb : table W) (pf fuel : nat) (rs : list Q) (ds : list nat) :=
  sync_loopL tb pf fuel 1 0 0 (setup_state tb rs [] ds).
Definition stoch_fired tb pf fuel rs ls ds : list entry := snd (stoch_runL tb pf fuel rs ls ds).
Definition sync_fired tb pf fuel rs ds : list entry := snd (sync_runL tb pf fuel rs ds).

Lemma stoch_run_eq tb pf fuel rs ls ds :
  stoch_run tb pf fuel rs ls ds =
  let '(t, ev, s, _) := stoch_runL tb pf fuel rs ls ds in
  {| r_time := t; r_events := ev; r_steps := 0; r_out := rev (out s); r_stuck := stuck s; r_final := s |}.
Proof.
  unfold stoch_run, stoch_runL. rewrite <- stoch_loopL_fst.
  destruct (stoch_loopL tb pf fuel 0 0 _) as [[[t ev] s] l]. reflexivity.
Qed.

Lemma sync_run_eq tb pf fuel rs ds :
  sync_run tb pf fuel rs ds =
  let '(t, ev, k, s, _) := sync_runL tb pf fuel rs ds in
  {| r_time := t; r_events := ev; r_steps := k; r_out := rev (out s); r_stuck := stuck s; r_final := s |}.
Proof.
  unfold sync_run, sync_runL. rewrite <- sync_loopL_fst.
  destruct (sync_loopL tb pf fuel 1 0 0 _) as [[[[t ev] k] s] l]. reflexivity.
Qed.

Lemma stoch_run_loopL tb pf fuel rs ls ds : let r := stoch_run tb pf fuel rs ls ds in
  stoch_loopL tb pf fuel 0 0 (setup_state tb rs ls ds) = (r_time r, r_events r, r_final r, stoch_fired tb pf fuel rs ls ds).
Proof.
  cbv zeta. unfold stoch_fired. rewrite stoch_run_eq. unfold stoch_runL.
  destruct (stoch_loopL tb pf fuel 0 0 _) as [[[t ev] s] l]. reflexivity.
Qed.

Lemma sync_run_loopL tb pf fuel rs ds : let r := sync_run tb pf fuel rs ds in
  sync_loopL tb pf fuel 1 0 0 (setup_state tb rs [] ds) =
  (r_time r, r_events r, r_steps r, r_final r, sync_fired tb pf fuel rs ds).
Proof.
  cbv zeta. unfold sync_fired. rewrite sync_run_eq. unfold sync_runL.
  destruct (sync_loopL tb pf fuel 1 0 0 _) as [[[[t ev] k] s] l]. reflexivity.
Qed.

Lemma setup_kmoves (tb : table W) rs ls ds : kmoves (0, 0%nat, [], []) [] (core_of (setup_state tb rs ls ds)).
Proof. apply kmoves_u. apply (proj1 (setup_state_umoves tb rs ls ds)). Qed.

Lemma stoch_run_kmoves (tb : table W) pf fuel rs ls ds :
  kmoves (0, 0%nat, [], []) (stoch_fired tb pf fuel rs ls ds) (core_of (r_final (stoch_run tb pf fuel rs ls ds))).
Proof.
  exact (kmoves_trans (setup_kmoves tb rs ls ds) (stoch_loopL_kmoves (stoch_run_loopL tb pf fuel rs ls ds))).
Qed.

Lemma sync_run_kmoves (tb : table W) pf fuel rs ds :
  kmoves (0, 0%nat, [], []) (sync_fired tb pf fuel rs ds) (core_of (r_final (sync_run tb pf fuel rs ds))).
Proof.
  exact (kmoves_trans (setup_kmoves tb rs [] ds) (sync_loopL_kmoves (sync_run_loopL tb pf fuel rs ds))).
Qed.

Definition ginv_st s lg : Prop := ginv (nextid s) (queue s) (out s) lg.

Lemma ginv_kmoves_st s l s' lg : kmoves (core_of s) l (core_of s') -> ginv_st s lg -> ginv_st s' (lg ++ l).
Proof. apply ginv_kmoves. Qed.

End Runs.
