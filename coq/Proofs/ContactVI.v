(* C08 for SIR_VariableInfection: the contact-forest invariant of Proofs/ContactInv.v along every run
   of the dynamic kernel (DSteps), by SIMULATION of each call: a call of the dynamic table
   [mk_vitable vm ...] on state s does to the base part of the user state exactly what the
   corresponding call of the STATIC table [mk_table (vi_fcm vm) ...] does on the projected state,
   where [vi_fcm vm] registers infect as an ordinary per-element event on the SI locus (its
   probability is irrelevant: only single calls are compared, never the scheduler).  So the per-call
   theorem K_call of Proofs/ContactInv.v (and marking_call, through_infectious_edge, ... behind it)
   is re-used as it stands; [Forest], its consequences (unique parent, one hit per node, acyclic,
   skeleton, ...) are the very same definitions and theorems, instantiated at [vi_fcm vm]. *)
From Coq Require Import List ZArith QArith Bool Arith Lia Relations Sorted.
From EpyV Require Import Model.Kernel Model.KernelDyn Model.Loci Model.Compart Model.CompartVI Proofs.CompartRun
  Proofs.CompartInv Proofs.CompartDiagram Proofs.ContactBase Proofs.ContactInv Proofs.KernelDyn Proofs.KernelDynLoops
  Proofs.CompartVI.
Import ListNotations.
Close Scope Q_scope.

(* the appended infection entries as a registered event of a static table *)
Definition vi_inf_event (vm : vimodel) : cevent :=
  {| ce_elem := true; ce_locus := vim_si vm; ce_p := 0%Q; ce_kind := vim_infect vm |}.
Definition vi_fcm (vm : vimodel) : cmodel :=
  {| cm_specs := vim_specs vm; cm_events := vim_events vm ++ [vi_inf_event vm]; cm_extra := [];
     cm_seed_post := vim_seed_post vm; cm_equil := [] |}.

Lemma fcm_kinds vm : cm_kinds (vi_fcm vm) = cm_kinds (vi_cm vm).
Proof. unfold cm_kinds. cbn [vi_fcm vi_cm cm_events cm_extra]. rewrite map_app, <- app_assoc. reflexivity. Qed.

Lemma fcm_comps vm : cm_comps (vi_fcm vm) = cm_comps (vi_cm vm).
Proof. unfold cm_comps. rewrite fcm_kinds. reflexivity. Qed.

Lemma SInv_fcm vm nodes edges st kl : SInv (vi_fcm vm) nodes edges st kl <-> SInv (vi_cm vm) nodes edges st kl.
Proof. unfold SInv. rewrite fcm_comps. reflexivity. Qed.

Section CV.
Variable vm : vimodel.
Variables (nodes : list Z) (edges : list (Z * Z)) (init : list (Z * Z)) (inf : list (Z * Z * Q)) (maxtime : Q) (monitor : option Q).
Let D := mk_vitable vm nodes edges init inf maxtime monitor.
Let fcm := vi_fcm vm.
Let tbF := mk_table fcm nodes edges init maxtime monitor.
Let jinf := vi_infect_prog vm.
Implicit Types s : st viworld.

(* the static call that corresponds to a call of the dynamic table *)
Definition sim (c : @dcall viworld) : call :=
  match c with
  | DEv x t e => CEv x t e
  | DDyn pi d t => CEv (pi, jinf, mk_ev jinf (vi_inf_event vm)) t (de_value d)
  | DPost h => CPost h
  end.

Lemma inf_event_nth : nth_error (cm_events fcm) jinf = Some (vi_inf_event vm).
Proof.
  unfold fcm, vi_fcm, jinf, vi_infect_prog. cbn [cm_events]. rewrite nth_error_app2; [|lia]. rewrite Nat.sub_diag. reflexivity.
Qed.

Lemma sim_ok Xtr c s : dcall_ok D Xtr c s -> call_ok tbF (sim c) (proj s).
Proof.
  destruct c as [[[pi j] ev] t e|pi d t|h]; cbn [dcall_ok sim call_ok].
  - intros (Hx & Hm & Hc & _). split; [|split; [exact Hm | exact Hc]].
    destruct (all_events_vi Hx) as [-> [cev [En ->]]].
    apply (all_events_mk fcm nodes edges init maxtime monitor). split; [reflexivity|]. exists cev. split; [|reflexivity].
    unfold fcm, vi_fcm. cbn [cm_events]. rewrite nth_error_app1; [exact En|]. apply nth_error_Some. congruence.
  - intros ([lc [w Hr]] & Hm & Hc & _).
    destruct (vi_dyn_shape Hr) as [-> [e [_ ->]]].
    cbn [vi_entry de_member de_value] in *. split; [|split; [exact Hm | exact Hc]].
    apply (all_events_mk fcm nodes edges init maxtime monitor). split; [reflexivity|]. exists (vi_inf_event vm).
    split; [exact inf_event_nth | reflexivity].
  - tauto.
Qed.

Lemma sim_args Xtr c s : dcall_ok D Xtr c s -> call_args (sim c) = dcall_args c.
Proof.
  destruct c as [x t e|pi d t|h]; cbn [sim call_args dcall_args]; try reflexivity.
  intros ([lc [w Hr]] & _). destruct (vi_dyn_shape Hr) as [_ [e [_ ->]]].
  reflexivity.
Qed.

(* the summary of the event function a call of the dynamic table enters *)
Definition dcall_kind (c : @dcall viworld) : option hkind := nth_error (cm_kinds (vi_cm vm)) (fst (fst (dcall_args c))).

Lemma sim_kind Xtr c s : dcall_ok D Xtr c s -> call_kind fcm (sim c) = dcall_kind c.
Proof. intros Hok. unfold call_kind, dcall_kind. rewrite (sim_args Xtr c s Hok). unfold fcm. rewrite fcm_kinds. reflexivity. Qed.

Lemma dafter_world c s :
  vi_base (world (dafter D c s)) =
  match dcall_kind c with
  | Some h => fst (handler (vim_specs vm) 0 h (snd (fst (dcall_args c))) (snd (dcall_args c)) (loci s) (vi_base (world s)))
  | None => vi_base (world s)
  end.
Proof.
  pose proof (dafter_lw D c s) as A. unfold dcall_kind. destruct (dcall_args c) as [[k t] e]. cbn [fst snd].
  destruct A as [_ A]. rewrite A. unfold D. rewrite vi_prog_of. destruct (nth_error (cm_kinds (vi_cm vm)) k); [|reflexivity].
  rewrite lift_prog_fst. reflexivity.
Qed.

(* THE SIMULATION: same effect on the base part of the user state *)
Lemma sim_world Xtr c s : dcall_ok D Xtr c s -> world (after tbF (sim c) (proj s)) = vi_base (world (dafter D c s)).
Proof.
  intros Hok. unfold tbF. rewrite after_world, dafter_world, (sim_kind Xtr c s Hok), (sim_args Xtr c s Hok). reflexivity.
Qed.

Definition on_node (_ : nat) (x : Kernel.elem) : Prop := exists n, x = EN n.

(* [QE] is the queue invariant of Proofs/KernelDynLoops.v for the pairs (any program, a node) *)
Lemma QE_queued s : QE s <-> queued on_node s.
Proof. symmetry. apply Forall_forall. Qed.

Lemma okact_posts e a : okact e a -> posts_okE on_node e a.
Proof. destruct a as [| [n|n m] | | | | | | | | |]; cbn; try tauto. intros _. exists n. reflexivity. Qed.

Lemma vi_prog_nodes k t e kl w : Forall (posts_okE on_node e) (snd (prog_of (d_tb D) k t e kl w)).
Proof.
  unfold D. rewrite vi_prog_of. destruct (nth_error (cm_kinds (vi_cm vm)) k) as [h|]; [|constructor].
  rewrite lift_prog_snd. exact (Forall_impl _ (okact_posts e) (handler_okact _ _ h t e kl (vi_base w))).
Qed.

Lemma QE_dsched s s' : QE s -> dsched s s' -> QE s'.
Proof. intros Hq Hs x Hx. apply Hq, (dsched_queue Hs), Hx. Qed.

Lemma QE_dafter Xtr s c : QE s -> dcall_ok D Xtr c s -> QE (dafter D c s).
Proof.
  intros Hq Hok. apply QE_queued. apply (dafter_queued D on_node vi_prog_nodes Xtr c s Hok). apply QE_queued. exact Hq.
Qed.

Lemma QE_setup_vi rs ls ds : QE (setup_state (d_tb D) rs ls ds).
Proof.
  apply QE_queued. apply (setup_queued D on_node). intros p Hp. apply (Forall_impl _ (okact_posts (EN 0))).
  unfold D, mk_vitable, mk_table in Hp. cbn [d_tb t_procs] in Hp.
  assert (M : Forall (okact (EN 0)) (match cm_seed_post (vi_cm vm) with
          | Some (c, T, k) => map (fun n => APostOn (EN n) T k) (nodes_in (Loci.setup (cm_specs (vi_cm vm)) nodes edges init) c)
          | None => [] end)).
  { destruct (cm_seed_post (vi_cm vm)) as [[[c T] k]|]; [|constructor].
    apply Forall_forall. intros a Ha. apply in_map_iff in Ha. destruct Ha as [n [<- _]]. exact I. }
  destruct monitor as [delta|]; cbn [In] in Hp.
  - destruct Hp as [<-|[<-|[]]]; cbn [p_setup]; [|exact M]. constructor; [exists 0%Z; reflexivity | constructor].
  - destruct Hp as [<-|[]]; cbn [p_setup]. exact M.
Qed.

Definition VForest (w : viworld) : Prop := Forest fcm nodes edges init (vi_base w).

(* run invariant of C07 (VJ), posted events on node elements, contact forest *)
Definition KV s : Prop := VJ vm nodes edges s /\ QE s /\ VForest (world s).

Lemma KV_VJ s : KV s -> VJ vm nodes edges s.
Proof. intros H. apply H. Qed.
Lemma KV_QE s : KV s -> QE s.
Proof. intros H. apply H. Qed.
Lemma KV_VForest s : KV s -> VForest (world s).
Proof. intros H. apply H. Qed.

(* [KV s] is Proofs/ContactInv.v's [K] of the projected state, at [vi_fcm vm] *)
Lemma KV_proj s : KV s -> K fcm nodes edges init (proj s).
Proof.
  intros Hk. split; [|split; [exact (KV_QE s Hk) | exact (KV_VForest s Hk)]].
  unfold J, proj. cbn [world loci]. apply SInv_fcm. exact (KV_VJ s Hk).
Qed.

Lemma KV_dsched s s' : KV s -> dsched s s' -> KV s'.
Proof.
  intros Hk Hs. split; [exact (VJ_dsched _ _ _ s s' (KV_VJ s Hk) Hs)|]. split; [exact (QE_dsched s s' (KV_QE s Hk) Hs)|].
  rewrite (dsched_world Hs). exact (KV_VForest s Hk).
Qed.

Lemma KV_dafter Xtr s c : wf_model fcm = true -> once_model fcm = true -> KV s -> dcall_ok D Xtr c s -> KV (dafter D c s).
Proof.
  intros Hwf Ho Hk Hok.
  split; [apply VJ_dafter; [exact (wf_model_loci fcm Hwf) | exact (KV_VJ s Hk)]|]. split; [exact (QE_dafter Xtr s c (KV_QE s Hk) Hok)|].
  pose proof (K_Forest (K_call fcm nodes edges init maxtime monitor (proj s) (sim c) Hwf Ho (KV_proj s Hk) (sim_ok Xtr c s Hok))) as F.
  fold tbF in F. rewrite (sim_world Xtr c s Hok) in F. exact F.
Qed.

Lemma KV_setup rs ls ds : wf_model fcm = true -> graph_okb nodes edges = true -> init_ok fcm nodes init = true ->
  KV (setup_state (d_tb D) rs ls ds).
Proof.
  intros Hwf Hg Hi. split; [|split; [apply QE_setup_vi|]].
  - apply VJ_setup; [exact (wf_model_loci fcm Hwf) | exact Hg|]. unfold init_ok in *. rewrite <- fcm_comps. exact Hi.
  - unfold D. rewrite vi_setup_world.
    unfold mk_vitable, mk_table, VForest, Forest. cbn [d_tb t_world vi_base cw_st cw_occ cw_hit].
    refine (conj _ (conj eq_refl (conj _ (conj I (conj _ _))))).
    + intros v c _ _ x [].
    + intros x [].
    + intros v c H _. exact H.
    + intros x [].
Qed.

Theorem KV_dsteps {Xtr rs ls ds cs s} : wf_model fcm = true -> once_model fcm = true -> graph_okb nodes edges = true ->
  init_ok fcm nodes init = true -> DSteps D Xtr (setup_state (d_tb D) rs ls ds) cs s -> KV s /\ Forall (fun sc => KV (fst sc)) cs.
Proof.
  intros Hwf Ho Hg Hi H.
  exact (DSteps_inv D Xtr KV KV_dsched (fun s c Hk Hok => KV_dafter Xtr s c Hwf Ho Hk Hok) _ cs s (KV_setup rs ls ds Hwf Hg Hi) H).
Qed.

(* Proofs/ContactInv.v's [infection] and [infections] for the calls of the dynamic table *)
Definition vinfection (sc : st viworld * @dcall viworld) : list (Z * Z * Q) :=
  match dcall_kind (snd sc) with
  | Some h => match marks h (snd (dcall_args (snd sc))) with
              | Some nm => [(nm, snd (fst (dcall_args (snd sc))))]
              | None => []
              end
  | None => []
  end.
Definition vinfections (cs : list (st viworld * @dcall viworld)) : list (Z * Z * Q) := flat_map vinfection cs.

(* what is known at a call that marks: it is entered from the scheduler (not posted) on the pair (n, m)
   at clock time; n is susceptible, m is not, (n, m) is an edge of the network *)
Lemma vmarking_call Xtr s c h n m : wf_model fcm = true -> once_model fcm = true -> KV s -> dcall_ok D Xtr c s ->
  dcall_kind c = Some h -> marks h (snd (dcall_args c)) = Some (n, m) ->
  let st := cw_st (vi_base (world s)) in
  (forall hh, c <> DPost hh) /\ snd (fst (dcall_args c)) = clock s /\ snd (dcall_args c) = EE n m
  /\ (exists l, In l (sus fcm) /\ getc st n = Some l) /\ (exists r, ~ In r (sus fcm) /\ getc st m = Some r)
  /\ adjb edges n m = true.
Proof.
  intros Hwf Ho Hk Hok Ek Em. cbv zeta.
  assert (Ek' : call_kind fcm (sim c) = Some h) by (rewrite (sim_kind Xtr c s Hok); exact Ek).
  assert (Em' : marks h (snd (call_args (sim c))) = Some (n, m)) by (rewrite (sim_args Xtr c s Hok); exact Em).
  destruct (marking_call fcm nodes edges init maxtime monitor (proj s) (sim c) h n m Hwf Ho (KV_proj s Hk) (sim_ok Xtr c s Hok) Ek' Em')
    as ((x & Ec) & Hn & Hm & Hadj & _).
  pose proof (sim_args Xtr c s Hok) as Ea. rewrite Ec in Ea. cbn [call_args] in Ea.
  split; [intros hh ->; cbn [sim] in Ec; discriminate|].
  rewrite <- Ea. cbn [fst snd]. split; [reflexivity|]. split; [reflexivity|]. split; [exact Hn|]. split; [exact Hm | exact Hadj].
Qed.

(* a call appends what it marks to the occupied edges: the static table's call_occ through the simulation *)
Lemma vcall_occ Xtr s c : wf_model fcm = true -> once_model fcm = true -> KV s -> dcall_ok D Xtr c s ->
  cw_occ (vi_base (world (dafter D c s))) = cw_occ (vi_base (world s)) ++ vinfection (s, c).
Proof.
  intros Hwf Ho Hk Hok.
  pose proof (call_occ (proj s) (sim c) Hwf Ho (KV_proj s Hk) (sim_ok Xtr c s Hok)) as R.
  unfold infection in R. cbn [snd] in R. fold tbF in R.
  rewrite (sim_world Xtr c s Hok), (sim_kind Xtr c s Hok), (sim_args Xtr c s Hok) in R. exact R.
Qed.

End CV.

Arguments KV_dafter {vm nodes edges init inf maxtime monitor} Xtr s c.
Arguments KV_setup {vm nodes edges init inf maxtime monitor} rs ls ds.
Arguments KV_dsteps {vm nodes edges init inf maxtime monitor Xtr rs ls ds cs s}.
Arguments KV_VJ {vm nodes edges init s}.
Arguments KV_QE {vm nodes edges init s}.
Arguments KV_VForest {vm nodes edges init s}.
Arguments KV_proj {vm nodes edges init s}.
Arguments sim_ok {vm nodes edges init inf maxtime monitor Xtr c s}.
Arguments sim_args {vm nodes edges init inf maxtime monitor Xtr c s}.
Arguments sim_kind {vm nodes edges init inf maxtime monitor Xtr c s}.
Arguments sim_world {vm nodes edges init inf maxtime monitor Xtr c s}.
Arguments vmarking_call {vm nodes edges init inf maxtime monitor Xtr s c h n m}.
Arguments vcall_occ {vm nodes edges init inf maxtime monitor Xtr s c}.
