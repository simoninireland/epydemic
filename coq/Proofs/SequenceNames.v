(* Instance names (Model/Sequence.v): decoration is injective on '@'-free stems, undecoration
   inverts it, the three-level parameter lookup, non-interference of decorated parameters,
   and the locus registry (refuses duplicates; succeeds for distinct instance names). *)
From Coq Require Import List ZArith QArith Bool Arith String Ascii Lia.
From EpyV Require Import Lib.Lists Model.Kernel Model.Sequence Proofs.KernelRelabel Proofs.Sequence.
Import ListNotations.
Close Scope Q_scope.
Open Scope list_scope.

Lemma append_inj_l (s a b : string) : (s ++ a)%string = (s ++ b)%string -> a = b.
Proof. induction s as [|c s IH]; simpl; intro H; [exact H|]. injection H as H. apply IH, H. Qed.

Lemma has_at_append (a b : string) : has_at (a ++ b)%string = has_at a || has_at b.
Proof. induction a as [|c a IH]; simpl; [reflexivity|]. rewrite IH, orb_assoc. reflexivity. Qed.

Lemma find_at_None (k : string) : find_at k = None <-> has_at k = false.
Proof.
  induction k as [|c k IH]; simpl; [tauto|].
  destruct (Ascii.eqb c at_sign); simpl; [split; discriminate|].
  rewrite <- IH. destruct (find_at k); simpl; split; congruence.
Qed.

Lemma find_at_decorated (k i : string) :
  has_at k = false -> find_at (k ++ String at_sign i)%string = Some (String.length k).
Proof.
  induction k as [|c k IH]; simpl; intro H.
  - reflexivity.
  - apply orb_false_iff in H. destruct H as [Hc Hk]. rewrite Hc, (IH Hk). reflexivity.
Qed.

Lemma prefix_append (k s : string) : prefix (String.length k) (k ++ s)%string = k.
Proof.
  induction k as [|c k IH]; simpl.
  - destruct s; reflexivity.
  - rewrite IH. reflexivity.
Qed.

Theorem undecorate_decorate (inst : option string) (k : string) :
  has_at k = false -> undecorated_name (decorated_name inst k) = k.
Proof.
  intro H. unfold undecorated_name, decorated_name. destruct inst as [i|].
  - rewrite (find_at_decorated k i H). apply prefix_append.
  - apply find_at_None in H. rewrite H. reflexivity.
Qed.

Lemma has_at_decorated (i k : string) : has_at (decorated_name (Some i) k) = true.
Proof. simpl. rewrite has_at_append. simpl. rewrite orb_true_r. reflexivity. Qed.

Theorem decorated_inj (i j : option string) (s1 s2 : string) :
  has_at s1 = false -> has_at s2 = false ->
  decorated_name i s1 = decorated_name j s2 -> s1 = s2 /\ i = j.
Proof.
  intros H1 H2 E.
  assert (Es : s1 = s2).
  { rewrite <- (undecorate_decorate i s1 H1), <- (undecorate_decorate j s2 H2), E. reflexivity. }
  subst s2. split; [reflexivity|].
  destruct i as [a|], j as [b|]; simpl in E.
  - apply append_inj_l in E. injection E as E. subst. reflexivity.
  - exfalso. pose proof (has_at_decorated a s1) as H. simpl in H. rewrite E in H. congruence.
  - exfalso. pose proof (has_at_decorated b s1) as H. simpl in H. rewrite <- E in H. congruence.
  - reflexivity.
Qed.

Corollary decorated_neq (i j : option string) (s1 s2 : string) :
  i <> j -> has_at s1 = false -> has_at s2 = false -> decorated_name i s1 <> decorated_name j s2.
Proof. intros Hij H1 H2 E. exact (Hij (proj2 (decorated_inj i j s1 s2 H1 H2 E))). Qed.

Theorem names_disjoint (i j : option string) (stems1 stems2 : list string) :
  i <> j ->
  (forall s, In s stems1 -> has_at s = false) -> (forall s, In s stems2 -> has_at s = false) ->
  forall x, In x (map (decorated_name i) stems1) -> In x (map (decorated_name j) stems2) -> False.
Proof.
  intros Hij H1 H2 x Hx1 Hx2. apply in_map_iff in Hx1. apply in_map_iff in Hx2.
  destruct Hx1 as (s1 & <- & Hs1). destruct Hx2 as (s2 & E & Hs2).
  exact (decorated_neq j i s2 s1 (not_eq_sym Hij) (H2 s2 Hs2) (H1 s1 Hs1) E).
Qed.

(* the hypothesis on stems is needed: a stem containing '@' can collide *)
Lemma names_collide_with_at :
  decorated_name (Some "c"%string) "a@b"%string = decorated_name (Some "b@c"%string) "a"%string.
Proof. reflexivity. Qed.

Section LookupRule.
Context {V : Type}.

(* an undecorated parameter is shared by all instances that have no decorated one *)
Theorem lookup_shared (i : option string) (d : dict V) (k : string) (v : V) (dflt : option V) :
  dict_get (decorated_name i k) d = None -> dict_get k d = Some v -> get_decorated i d k dflt = Found v.
Proof. intros H1 H2. unfold get_decorated. rewrite H1, H2. reflexivity. Qed.

(* a lookup reads two keys of the dict and no other *)
Lemma get_decorated_set_other (j : option string) (d : dict V) (n k : string) (v : V) (dflt : option V) :
  n <> decorated_name j k -> n <> k -> get_decorated j (dict_set n v d) k dflt = get_decorated j d k dflt.
Proof.
  intros H1 H2. unfold get_decorated. rewrite !dict_get_set.
  rewrite (proj2 (String.eqb_neq _ _) (not_eq_sym H1)), (proj2 (String.eqb_neq _ _) (not_eq_sym H2)). reflexivity.
Qed.
End LookupRule.

Definition reg_names (reg : registry) : list string := map fst reg.

Lemma add_locus_spec reg owner name :
  add_locus reg owner name = if In_dec string_dec name (reg_names reg) then None else Some (reg ++ [(name, owner)]).
Proof.
  unfold add_locus. destruct (In_dec string_dec name (reg_names reg)) as [H|H].
  - apply in_map_iff in H. destruct H as (x & <- & Hx).
    rewrite (proj2 (existsb_exists _ _)); [reflexivity|]. exists x. split; [exact Hx|apply String.eqb_refl].
  - destruct (existsb (fun x => String.eqb name (fst x)) reg) eqn:E; [|reflexivity].
    apply existsb_exists in E. destruct E as (x & Hx & E). apply String.eqb_eq in E.
    destruct H. subst name. apply in_map, Hx.
Qed.

Fixpoint add_names (reg : registry) (l : list (string * nat)) : option registry :=
  match l with
  | [] => Some reg
  | (n, o) :: l' => match add_locus reg o n with None => None | Some reg' => add_names reg' l' end
  end.

Lemma add_loci_names reg owner inst stems :
  add_loci reg owner inst stems = add_names reg (map (fun s => (decorated_name inst s, owner)) stems).
Proof.
  revert reg. induction stems as [|s stems IH]; intro reg; simpl; [reflexivity|].
  destruct (add_locus reg owner (decorated_name inst s)); [apply IH|reflexivity].
Qed.

Lemma add_names_app reg l1 l2 :
  add_names reg (l1 ++ l2) = match add_names reg l1 with None => None | Some r => add_names r l2 end.
Proof.
  revert reg. induction l1 as [|[n o] l1 IH]; intro reg; simpl; [reflexivity|].
  destruct (add_locus reg o n); [apply IH|reflexivity].
Qed.

Lemma add_names_spec l : forall reg, NoDup (reg_names reg) ->
  (forall r, add_names reg l = Some r -> r = reg ++ l /\ NoDup (reg_names r))
  /\ (add_names reg l = None <-> ~ NoDup (reg_names reg ++ map fst l)).
Proof.
  induction l as [|[n o] l IH]; intros reg Hnd; simpl.
  - split.
    + intros r [= <-]. rewrite app_nil_r. split; [reflexivity|exact Hnd].
    + rewrite app_nil_r. split; [discriminate|intro H; contradiction].
  - rewrite add_locus_spec. destruct (In_dec string_dec n (reg_names reg)) as [Hin|Hnin].
    + split; [discriminate|]. split; [intros _ H|reflexivity].
      apply NoDup_remove_2 in H. apply H, in_or_app. left. exact Hin.
    + assert (Hnd' : NoDup (reg_names (reg ++ [(n, o)]))).
      { unfold reg_names. rewrite map_app. apply NoDup_snoc; assumption. }
      destruct (IH _ Hnd') as (I1 & I2). split.
      * intros r Hr. destruct (I1 r Hr) as (-> & H). split; [rewrite <- app_assoc; reflexivity|exact H].
      * rewrite I2. unfold reg_names. rewrite map_app, <- app_assoc. simpl. tauto.
Qed.

(* all names that the processes of a tree register, in build order, with their owners *)
Definition all_loci (ps : list procdesc) : list (string * nat) :=
  flat_map (fun p => map (fun s => (decorated_name (pd_inst p) s, pd_id p)) (pd_loci p)) ps.
Definition all_locus_names (t : ptree procdesc) : list string := map fst (all_loci (all_processes t)).

Lemma all_loci_names ps :
  map fst (all_loci ps) = flat_map (fun p => map (decorated_name (pd_inst p)) (pd_loci p)) ps.
Proof.
  induction ps as [|p ps IH]; simpl; [reflexivity|]. rewrite map_app, map_map, IH. reflexivity.
Qed.

Lemma build_registry_names (t : ptree procdesc) :
  build_registry t = add_names [] (all_loci (all_processes t)).
Proof.
  unfold build_registry. rewrite forward_flat.
  assert (G : forall ps r, fold_left (fun r p => match r with
                                                  | None => None
                                                  | Some reg => add_loci reg (pd_id p) (pd_inst p) (pd_loci p)
                                                  end) ps r
                           = match r with None => None | Some reg => add_names reg (all_loci ps) end).
  { induction ps as [|p ps IH]; intro r; simpl; [destruct r; reflexivity|].
    rewrite IH. destruct r as [reg|]; [|reflexivity].
    rewrite add_loci_names, add_names_app. reflexivity. }
  apply G.
Qed.

(* build succeeds exactly when all decorated locus names are distinct; the registry then holds
   exactly those names, in allProcesses order *)
Theorem registry_spec (t : ptree procdesc) :
  (forall reg, build_registry t = Some reg -> reg = all_loci (all_processes t) /\ NoDup (all_locus_names t))
  /\ (build_registry t = None <-> ~ NoDup (all_locus_names t)).
Proof.
  rewrite build_registry_names.
  destruct (add_names_spec (all_loci (all_processes t)) [] (NoDup_nil _)) as (H1 & H2). split; [|exact H2].
  intros reg Hr. destruct (H1 reg Hr) as (-> & Hnd). split; [reflexivity|exact Hnd].
Qed.

Lemma decorated_NoDup (inst : option string) (stems : list string) :
  NoDup stems -> (forall s, In s stems -> has_at s = false) -> NoDup (map (decorated_name inst) stems).
Proof.
  intros Hnd Hat. induction Hnd as [|s l Hs _ IH]; simpl; constructor.
  - intro Hin. apply in_map_iff in Hin. destruct Hin as (s' & E & Hs').
    apply decorated_inj in E; [|apply Hat; right; exact Hs'|apply Hat; left; reflexivity].
    destruct E as [-> _]. exact (Hs Hs').
  - apply IH. intros s' Hs'. apply Hat. right. exact Hs'.
Qed.

Lemma all_loci_NoDup (ps : list procdesc) :
  NoDup (map pd_inst ps) ->
  (forall p, In p ps -> NoDup (pd_loci p) /\ forall s, In s (pd_loci p) -> has_at s = false) ->
  NoDup (map fst (all_loci ps)).
Proof.
  rewrite all_loci_names. induction ps as [|p ps IH]; simpl; intros Hinst Hstems; [constructor|].
  apply NoDup_cons_iff in Hinst. destruct Hinst as [Hp Hps]. destruct (Hstems p (or_introl eq_refl)) as [Hnd Hat].
  apply NoDup_app_iff. split; [exact (decorated_NoDup _ _ Hnd Hat)|].
  split; [apply IH; [exact Hps|]; intros q Hq; apply Hstems; right; exact Hq|].
  intros x Hx Hx'. apply in_flat_map in Hx'. destruct Hx' as (q & Hq & Hx').
  apply (names_disjoint (pd_inst p) (pd_inst q) (pd_loci p) (pd_loci q)) with (x := x);
    [|exact Hat|apply Hstems; right; exact Hq|exact Hx|exact Hx'].
  intro E. apply Hp. rewrite E. apply in_map, Hq.
Qed.
