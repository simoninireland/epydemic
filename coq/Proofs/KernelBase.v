(* Basic facts about Model/Kernel.v used by all the proofs about the kernel: the heap order [before],
   [min_entry]/[head], [remove_id], [discard_dead], [kill]/[find_live]; the moves that user code
   and the kernel make on the core of the state (clock, next id, queue, output), which is all the
   queue invariants talk about, and the oracle ([oracle_of]: random streams and [stuck]), which
   user code never touches (nor do actions touch the user state [world]: a program sets it before
   its actions run); run_pending instrumented with the list of entries it fires
   ([run_pendingL], with its induction principle).
   A core is always written as a tuple (c, n, q, o); [core_of s] is convertible to one, and
   [of_core] reads a fact about the components of [core_of s] back on [s]. *)
From Coq Require Import List ZArith QArith Qabs Bool Arith Lia Lqa.
From EpyV Require Import Model.Kernel.
Import ListNotations.
Open Scope Q_scope.

Lemma Qle_bool_false x y : Qle_bool x y = false <-> y < x.
Proof.
  rewrite <- not_true_iff_false, Qle_bool_iff. split; [apply Qnot_le_lt|apply Qlt_not_le].
Qed.

Lemma Qltb_true x y : Qltb x y = true <-> x < y.
Proof. unfold Qltb. rewrite negb_true_iff. apply Qle_bool_false. Qed.

Lemma Qltb_false x y : Qltb x y = false <-> y <= x.
Proof. unfold Qltb. rewrite negb_false_iff. apply Qle_bool_iff. Qed.

Lemma before_true a b :
  before a b = true <-> e_time a < e_time b \/ (e_time a == e_time b /\ (e_id a < e_id b)%nat).
Proof.
  unfold before. destruct (Qcompare_spec (e_time a) (e_time b)) as [E|E|E].
  - rewrite Nat.ltb_lt. split; [auto|intros [H|[_ H]]; [lra|exact H]].
  - split; [auto|reflexivity].
  - split; [discriminate|intros [H|[H _]]; lra].
Qed.

Lemma before_false a b :
  before a b = false <-> e_time b < e_time a \/ (e_time a == e_time b /\ (e_id b <= e_id a)%nat).
Proof.
  unfold before. destruct (Qcompare_spec (e_time a) (e_time b)) as [E|E|E].
  - rewrite Nat.ltb_ge. split; [auto|intros [H|[_ H]]; [lra|exact H]].
  - split; [discriminate|intros [H|[H _]]; lra].
  - split; [auto|reflexivity].
Qed.

Lemma before_irrefl a : before a a = false.
Proof. apply before_false. right. split; [reflexivity|lia]. Qed.

Lemma before_trans a b c : before a b = true -> before b c = true -> before a c = true.
Proof.
  intros H1 H2. apply before_true in H1, H2. apply before_true.
  destruct H1 as [H1|[H1 H1']], H2 as [H2|[H2 H2']]; [left; lra..|right; split; [lra|lia]].
Qed.

Lemma before_negtrans a b c : before a b = false -> before b c = false -> before a c = false.
Proof.
  intros H1 H2. apply before_false in H1, H2. apply before_false.
  destruct H1 as [H1|[H1 H1']], H2 as [H2|[H2 H2']]; [left; lra..|right; split; [lra|lia]].
Qed.

Lemma before_total a b : e_id a <> e_id b -> before a b = false -> before b a = true.
Proof.
  rewrite before_false, before_true. intros Hne [H|[H H']]; [left; exact H|].
  right. split; [symmetry; exact H|lia].
Qed.

Lemma before_asym a b : before a b = true -> before b a = false.
Proof.
  rewrite before_true, before_false. intros [H|[H H']]; [left; exact H|right; split; [symmetry; exact H|lia]].
Qed.

Lemma before_time_le a b : before a b = true -> e_time a <= e_time b.
Proof. rewrite before_true. intros [H|[H _]]; lra. Qed.

Lemma notbefore_time_le a b : before a b = false -> e_time b <= e_time a.
Proof. rewrite before_false. intros [H|[H _]]; lra. Qed.

Lemma min_entry_in m q : In (min_entry m q) (m :: q).
Proof.
  revert m. induction q as [|x q IH]; intros m; cbn [min_entry].
  - left. reflexivity.
  - specialize (IH (if before x m then x else m)). destruct IH as [H|H].
    + destruct (before x m); [right; left|left]; exact H.
    + right. right. exact H.
Qed.

Lemma min_entry_min m q : forall x, In x (m :: q) -> before x (min_entry m q) = false.
Proof.
  revert m. induction q as [|y q IH]; intros m x Hx; cbn [min_entry].
  - destruct Hx as [<-|[]]. apply before_irrefl.
  - pose proof (IH (if before y m then y else m)) as IH'.
    assert (Hm' : before (if before y m then y else m) (min_entry (if before y m then y else m) q) = false)
      by (apply IH'; left; reflexivity).
    destruct Hx as [<-|[<-|Hx]].
    + destruct (before y m) eqn:E; [|exact Hm'].
      destruct (before m (min_entry y q)) eqn:E2; [|reflexivity].
      rewrite (before_trans _ _ _ E E2) in Hm'. discriminate.
    + destruct (before y m) eqn:E; [exact Hm'|].
      eapply before_negtrans; eassumption.
    + apply IH'. right. exact Hx.
Qed.

Lemma upd_nth_length {A} k (f : A -> A) l : length (upd_nth k f l) = length l.
Proof. revert k. induction l as [|x l IH]; intros [|k]; cbn; auto. Qed.

Lemma head_none q : head q = None <-> q = [].
Proof. destruct q; cbn; split; congruence. Qed.

Lemma head_in q h : head q = Some h -> In h q.
Proof. destruct q as [|x q]; cbn; [discriminate|]. intros [= <-]. apply min_entry_in. Qed.

Lemma head_min q h : head q = Some h -> forall x, In x q -> before x h = false.
Proof. destruct q as [|y q]; cbn; [discriminate|]. intros [= <-]. apply min_entry_min. Qed.

Lemma remove_id_incl i q : incl (remove_id i q) q.
Proof.
  induction q as [|x q IH]; cbn; [intros y []|].
  destruct (e_id x =? i)%nat; [intros y H; right; exact H|].
  intros y [<-|H]; [left; reflexivity|right; apply IH; exact H].
Qed.

Lemma remove_id_keeps i q x : In x q -> e_id x <> i -> In x (remove_id i q).
Proof.
  induction q as [|y q IH]; cbn; [intros []|]. intros [<-|H] Hne.
  - destruct (Nat.eqb_spec (e_id y) i); [contradiction|left; reflexivity].
  - destruct (e_id y =? i)%nat; [exact H|right; apply IH; assumption].
Qed.

Lemma remove_id_length i q : In i (map e_id q) -> S (length (remove_id i q)) = length q.
Proof.
  induction q as [|y q IH]; cbn; [intros []|].
  destruct (Nat.eqb_spec (e_id y) i) as [E|E]; [reflexivity|].
  intros [H|H]; [contradiction|]. cbn. rewrite IH; auto.
Qed.

Lemma remove_id_NoDup i q : NoDup (map e_id q) -> NoDup (map e_id (remove_id i q)).
Proof.
  induction q as [|y q IH]; cbn; [auto|]. intros H. inversion H as [|? ? Hn Hd]; subst.
  destruct (e_id y =? i)%nat; [exact Hd|]. cbn. constructor; [|apply IH; exact Hd].
  intros Hin. apply Hn. apply in_map_iff in Hin. destruct Hin as [z [Hz Hin]].
  apply in_map_iff. exists z. split; [exact Hz|]. eapply remove_id_incl; eassumption.
Qed.

Lemma remove_id_gone i q : NoDup (map e_id q) -> ~ In i (map e_id (remove_id i q)).
Proof.
  induction q as [|y q IH]; cbn; [auto|]. intros H. inversion H as [|? ? Hn Hd]; subst.
  destruct (Nat.eqb_spec (e_id y) i) as [E|E]; [subst; exact Hn|].
  cbn. intros [H1|H1]; [contradiction|]. apply IH; assumption.
Qed.

Lemma NoDup_id_inj q x y : NoDup (map e_id q) -> In x q -> In y q -> e_id x = e_id y -> x = y.
Proof.
  induction q as [|z q IH]; cbn; [intros _ []|]. intros H Hx Hy E. inversion H as [|? ? Hn Hd]; subst.
  destruct Hx as [<-|Hx], Hy as [<-|Hy]; [reflexivity| | |apply IH; assumption].
  - exfalso. apply Hn. rewrite E. apply in_map. exact Hy.
  - exfalso. apply Hn. rewrite <- E. apply in_map. exact Hx.
Qed.

Lemma discard_dead_ind (P : list entry -> Prop) :
  (forall q h, head q = Some h -> e_live h = false -> P q -> P (remove_id (e_id h) q)) ->
  forall f q, P q -> P (discard_dead f q).
Proof.
  intros Hs. induction f as [|f IH]; intros q Hq; cbn; [exact Hq|].
  destruct (head q) as [h|] eqn:Eh; [|exact Hq]. destruct (e_live h) eqn:El; [exact Hq|].
  apply IH, (Hs q h Eh El Hq).
Qed.

Lemma discard_dead_incl f q : incl (discard_dead f q) q.
Proof.
  apply (discard_dead_ind (fun q' => incl q' q)); [|apply incl_refl].
  intros q' h _ _ H. exact (incl_tran (remove_id_incl _ _) H).
Qed.

Lemma discard_dead_NoDup f q : NoDup (map e_id q) -> NoDup (map e_id (discard_dead f q)).
Proof. apply (discard_dead_ind (fun q' => NoDup (map e_id q'))). intros q' h _ _. apply remove_id_NoDup. Qed.

Lemma discard_dead_keeps_live f q x :
  NoDup (map e_id q) -> In x q -> e_live x = true -> In x (discard_dead f q).
Proof.
  intros Hnd Hx Hl. apply (discard_dead_ind (fun q' => NoDup (map e_id q') /\ In x q')); [|auto].
  intros q' h Hh Hd [Hn Hi]. split; [apply remove_id_NoDup, Hn|].
  apply remove_id_keeps; [exact Hi|]. intros E.
  rewrite (NoDup_id_inj q' x h Hn Hi (head_in _ _ Hh) E) in Hl. congruence.
Qed.

Lemma discard_dead_head f q : (length q <= f)%nat ->
  match head (discard_dead f q) with None => True | Some h => e_live h = true end.
Proof.
  revert q. induction f as [|f IH]; intros q Hlen; cbn.
  - destruct q; [exact I|cbn in Hlen; lia].
  - destruct (head q) as [h|] eqn:Eh; [|rewrite Eh; exact I].
    destruct (e_live h) eqn:El; [rewrite Eh; exact El|].
    apply IH. pose proof (remove_id_length (e_id h) q (in_map e_id _ _ (head_in _ _ Eh))). lia.
Qed.

Lemma discard_dead_fix f q :
  match head q with None => True | Some h => e_live h = true end -> discard_dead f q = q.
Proof. destruct f as [|f]; cbn; [reflexivity|]. destruct (head q) as [h|]; [intros ->|]; reflexivity. Qed.

Definition dead (x : entry) : entry :=
  {| e_time := e_time x; e_id := e_id x; e_live := false; e_proc := e_proc x; e_elem := e_elem x; e_prog := e_prog x; e_rep := e_rep x |}.

Lemma dead_of_dead x : e_live x = false -> dead x = x.
Proof. destruct x; cbn; intros ->; reflexivity. Qed.

Lemma kill_ids i q : map e_id (kill i q) = map e_id q.
Proof. unfold kill. rewrite map_map. apply map_ext. intros x. destruct (e_id x =? i)%nat; reflexivity. Qed.

Lemma kill_in i q y : In y (kill i q) ->
  (In y q /\ e_id y <> i) \/ (exists x, In x q /\ e_id x = i /\ y = dead x).
Proof.
  unfold kill. rewrite in_map_iff. intros [x [Hy Hx]].
  destruct (Nat.eqb_spec (e_id x) i) as [E|E]; subst y.
  - right. exists x. auto.
  - left. auto.
Qed.

Lemma kill_live_in i q y : In y (kill i q) -> e_live y = true -> In y q /\ e_id y <> i.
Proof.
  intros H Hl. apply kill_in in H. destruct H as [H|[x [_ [_ ->]]]]; [exact H|discriminate].
Qed.

Lemma kill_keeps i q y : In y q -> e_id y <> i -> In y (kill i q).
Proof.
  intros H E. unfold kill. apply in_map_iff. exists y. split; [|exact H].
  destruct (Nat.eqb_spec (e_id y) i); [contradiction|reflexivity].
Qed.

Lemma kill_dead_in i q x : In x q -> e_id x = i -> In (dead x) (kill i q).
Proof.
  intros H E. unfold kill. apply in_map_iff. exists x. split; [|exact H].
  subst i. rewrite Nat.eqb_refl. reflexivity.
Qed.

Lemma find_live_some i q x : find_live i q = Some x -> In x q /\ e_id x = i /\ e_live x = true.
Proof.
  unfold find_live. intros H. apply find_some in H. destruct H as [H1 H2].
  apply andb_true_iff in H2. destruct H2 as [H2 H3]. apply Nat.eqb_eq in H2. auto.
Qed.

Lemma find_live_none i q : find_live i q = None <-> (forall x, In x q -> e_id x = i -> e_live x = false).
Proof.
  split.
  - intros H x Hx E. pose proof (find_none _ _ H x Hx) as H1. cbn in H1.
    rewrite E, Nat.eqb_refl in H1. exact H1.
  - intros H. destruct (find_live i q) as [x|] eqn:E; [|reflexivity].
    apply find_live_some in E. destruct E as [E1 [E2 E3]]. rewrite (H x E1 E2) in E3. discriminate.
Qed.

Lemma find_live_kill i q : find_live i (kill i q) = None.
Proof.
  apply find_live_none. intros y Hy E. apply kill_in in Hy.
  destruct Hy as [[_ Hne]|[x [_ [_ ->]]]]; [contradiction|reflexivity].
Qed.

(* what the queue invariants talk about: clock, next id, queue, output (newest first) *)
Definition core : Type := Q * nat * list entry * list obs.

Definition mk_entry (t : Q) (i p : nat) (e : elem) (prog : nat) (rep : option Q) : entry :=
  {| e_time := t; e_id := i; e_live := true; e_proc := p; e_elem := e; e_prog := prog; e_rep := rep |}.

(* the records user code may emit at will; the others are made by posting, un-posting, and by the
   kernel around a handler call *)
Definition neutral (x : obs) : bool :=
  match x with
  | OHandler _ _ _ _ _ | OTap _ _ _ _ | OPosted _ _ | OUnpost _ (Some (Some _)) => false
  | _ => true
  end.

(* the handler record and the tap record a fired posted entry leaves *)
Definition hrec (x : entry) : obs := OHandler (e_prog x) (e_time x) (e_time x) (e_elem x) None.
Definition trec (x : entry) : obs := OTap (e_time x) (e_proc x) (NPost (e_prog x)) (e_elem x).

(* the successor a repeating entry posts when it fires *)
Definition succ_of (x : entry) (ddt : Q) (y : entry) : Prop :=
  y = mk_entry (Qred (e_time x + ddt)) (e_id y) (e_proc x) (e_elem x) (e_prog x) (Some ddt).

Lemma succ_fields x ddt y : succ_of x ddt y ->
  e_time y = Qred (e_time x + ddt) /\ e_prog y = e_prog x /\ e_elem y = e_elem x /\ e_proc y = e_proc x /\
  e_rep y = Some ddt /\ e_live y = true.
Proof. intros ->. cbn [e_time e_prog e_elem e_proc e_rep e_live mk_entry]. auto 6. Qed.

Lemma succ_live x ddt y : succ_of x ddt y -> e_live y = true.
Proof. intros H. apply (succ_fields x ddt y H). Qed.

(* what user code (an action) can do to the core *)
Inductive umove : core -> core -> Prop :=
| um_emit c n q o x : neutral x = true -> umove (c, n, q, o) (c, n, q, x :: o)
| um_post c n q o t p e prog rep : c <= t ->
    umove (c, n, q, o) (c, S n, mk_entry t n p e prog rep :: q, o)
| um_posted c n q o x : In x q -> e_live x = true ->
    umove (c, n, q, o) (c, n, q, OPosted (e_id x) (e_time x) :: o)
| um_kill c n q o i x : find_live i q = Some x ->
    umove (c, n, q, o) (c, n, kill i q, OUnpost i (Some (Some (e_time x))) :: o).

(* case analysis of a user move H from (c, n, q, o) in a goal about its target:
   [elim H using umove_cases] *)
Lemma umove_cases (P : Q -> nat -> list entry -> list obs -> Prop) c n q o :
  (forall x, neutral x = true -> P c n q (x :: o)) ->
  (forall t p e prog rep, c <= t -> P c (S n) (mk_entry t n p e prog rep :: q) o) ->
  (forall x, In x q -> e_live x = true -> P c n q (OPosted (e_id x) (e_time x) :: o)) ->
  (forall i x, find_live i q = Some x -> P c n (kill i q) (OUnpost i (Some (Some (e_time x))) :: o)) ->
  forall c' n' q' o', umove (c, n, q, o) (c', n', q', o') -> P c' n' q' o'.
Proof. intros H1 H2 H3 H4 c' n' q' o' H. inversion H; subst; auto. Qed.

Inductive umoves : core -> core -> Prop :=
| us_refl k : umoves k k
| us_step k1 k2 k3 : umove k1 k2 -> umoves k2 k3 -> umoves k1 k3.

Lemma umoves_trans {k1 k2 k3} : umoves k1 k2 -> umoves k2 k3 -> umoves k1 k3.
Proof. induction 1; [auto|]. intros H3. eapply us_step; eauto. Qed.

Lemma umoves_one {k1 k2} : umove k1 k2 -> umoves k1 k2.
Proof. intros H. eapply us_step; [exact H|apply us_refl]. Qed.

Lemma umoves_inv (P : Q -> nat -> list entry -> list obs -> Prop) :
  (forall c n q o c' n' q' o', umove (c, n, q, o) (c', n', q', o') -> P c n q o -> P c' n' q' o') ->
  forall {c n q o c' n' q' o'}, umoves (c, n, q, o) (c', n', q', o') -> P c n q o -> P c' n' q' o'.
Proof.
  intros Hs.
  assert (G : forall k k', umoves k k' ->
            (let '(c, n, q, o) := k in P c n q o) -> let '(c, n, q, o) := k' in P c n q o).
  { induction 1 as [|[[[c n] q] o] [[[c' n'] q'] o'] k3 H _ IH]; [auto|].
    intros HP. apply IH, (Hs _ _ _ _ _ _ _ _ H HP). }
  intros c n q o c' n' q' o' U. exact (G _ _ U).
Qed.

Lemma umoves_clock {c n q o c' n' q' o'} : umoves (c, n, q, o) (c', n', q', o') -> c' = c.
Proof.
  intros U. refine (umoves_inv (fun c1 _ _ _ => c1 = c) _ U eq_refl).
  intros * H ->. elim H using umove_cases; reflexivity.
Qed.

(* what the kernel does: user moves, discarding dead heads, setting the clock, firing the live
   head (pop, handler record, user moves, tap), firing a stochastic event (handler record at
   the clock, user moves, tap at the clock).  The middle argument lists the entries fired. *)
Inductive kmove : core -> list entry -> core -> Prop :=
| km_u k k' : umoves k k' -> kmove k [] k'
| km_discard c n q o f : kmove (c, n, q, o) [] (c, n, discard_dead f q, o)
| km_clock c n q o c' : kmove (c, n, q, o) [] (c', n, q, o)
| km_posted c n q o h n2 q2 o2 : head q = Some h -> e_live h = true ->
    umoves (e_time h, n, remove_id (e_id h) q, hrec h :: o) (e_time h, n2, q2, o2) ->
    (forall ddt, e_rep h = Some ddt -> 0 <= ddt -> exists y, succ_of h ddt y /\ In y q2) ->
    kmove (c, n, q, o) [h] (e_time h, n2, q2, trec h :: o2)
| km_event c n q o k e m pi j n2 q2 o2 :
    umoves (c, n, q, OHandler k c c e (Some m) :: o) (c, n2, q2, o2) ->
    kmove (c, n, q, o) [] (c, n2, q2, OTap c pi (NEv pi j) e :: o2).

(* case analysis of a kernel move H from (c, n, q, o): [elim H using kmove_cases] *)
Lemma kmove_cases (P : list entry -> Q -> nat -> list entry -> list obs -> Prop) c n q o :
  (forall c' n' q' o', umoves (c, n, q, o) (c', n', q', o') -> P [] c' n' q' o') ->
  (forall f, P [] c n (discard_dead f q) o) ->
  (forall c', P [] c' n q o) ->
  (forall h n2 q2 o2, head q = Some h -> e_live h = true ->
     umoves (e_time h, n, remove_id (e_id h) q, hrec h :: o) (e_time h, n2, q2, o2) ->
     (forall ddt, e_rep h = Some ddt -> 0 <= ddt -> exists y, succ_of h ddt y /\ In y q2) ->
     P [h] (e_time h) n2 q2 (trec h :: o2)) ->
  (forall k e m pi j n2 q2 o2, umoves (c, n, q, OHandler k c c e (Some m) :: o) (c, n2, q2, o2) ->
     P [] c n2 q2 (OTap c pi (NEv pi j) e :: o2)) ->
  forall l c' n' q' o', kmove (c, n, q, o) l (c', n', q', o') -> P l c' n' q' o'.
Proof. intros H1 H2 H3 H4 H5 l c' n' q' o' H. inversion H; subst; eauto. Qed.

Inductive kmoves : core -> list entry -> core -> Prop :=
| ks_refl k : kmoves k [] k
| ks_step k1 l1 k2 l2 k3 : kmove k1 l1 k2 -> kmoves k2 l2 k3 -> kmoves k1 (l1 ++ l2) k3.

Lemma kmoves_trans {k1 l1 k2 l2 k3} : kmoves k1 l1 k2 -> kmoves k2 l2 k3 -> kmoves k1 (l1 ++ l2) k3.
Proof.
  induction 1 as [|k1 l1 k2 l2' k3' H _ IH]; [auto|]. intros H3. rewrite <- app_assoc.
  eapply ks_step; eauto.
Qed.

Lemma kmoves_one {k1 l k2} : kmove k1 l k2 -> kmoves k1 l k2.
Proof. intros H. rewrite <- (app_nil_r l). eapply ks_step; [exact H|apply ks_refl]. Qed.

Lemma kmoves_snoc {k l k1 l1 k2} : kmoves k l k1 -> kmove k1 l1 k2 -> kmoves k (l ++ l1) k2.
Proof. intros K H. exact (kmoves_trans K (kmoves_one H)). Qed.

Lemma kmoves_snoc_nil {k l k1 k2} : kmoves k l k1 -> kmove k1 [] k2 -> kmoves k l k2.
Proof. intros K H. rewrite <- (app_nil_r l). exact (kmoves_snoc K H). Qed.

Lemma kmoves_u {k k'} : umoves k k' -> kmoves k [] k'.
Proof. intros H. apply kmoves_one, km_u, H. Qed.

Lemma kmoves_inv (P : list entry -> Q -> nat -> list entry -> list obs -> Prop) :
  (forall lg c n q o l c' n' q' o', kmove (c, n, q, o) l (c', n', q', o') ->
     P lg c n q o -> P (lg ++ l) c' n' q' o') ->
  forall lg {c n q o l c' n' q' o'}, kmoves (c, n, q, o) l (c', n', q', o') ->
     P lg c n q o -> P (lg ++ l) c' n' q' o'.
Proof.
  intros Hs.
  assert (G : forall k l k', kmoves k l k' -> forall lg,
            (let '(c, n, q, o) := k in P lg c n q o) -> let '(c, n, q, o) := k' in P (lg ++ l) c n q o).
  { induction 1 as [[[[c n] q] o]|[[[c n] q] o] l1 [[[c' n'] q'] o'] l2 k3 H _ IH]; intros lg HP.
    - rewrite app_nil_r. exact HP.
    - rewrite app_assoc. apply IH, (Hs _ _ _ _ _ _ _ _ _ _ H HP). }
  intros lg c n q o l c' n' q' o' K. exact (G _ _ _ K lg).
Qed.

Section K.
Context {W : Type}.
Implicit Types s : st W.

Definition core_of s : core := (clock s, nextid s, queue s, out s).

Definition wf s : Prop := NoDup (map e_id (queue s)) /\ Forall (fun x => (e_id x < nextid s)%nat) (queue s).

Lemma of_core (K : Q -> nat -> list entry -> list obs -> Prop) {s c n q o} :
  core_of s = (c, n, q, o) -> K c n q o -> K (clock s) (nextid s) (queue s) (out s).
Proof. intros [= <- <- <- <-] H. exact H. Qed.

Lemma Qred_pred_lt c : Qltb (Qred (c - 1)) c = true.
Proof. apply Qltb_true. rewrite Qred_correct. lra. Qed.

Lemma do_action_umoves p t e a s : umoves (core_of s) (core_of (do_action p t e a s)).
Proof.
  unfold core_of. destruct a; cbn [do_action]; try apply us_refl.
  (* the three posting actions: rejected, or a post followed by a record *)
  1-3: unfold post; destruct (Qltb _ (clock s)) eqn:E; cbn;
         [apply umoves_one, um_emit; reflexivity|];
       apply Qltb_false in E; eapply us_step; [eapply um_post, E|]; apply umoves_one.
  - apply (um_posted _ _ _ _ (mk_entry (Qred (t + dt)) (nextid s) p e prog None)); [left|]; reflexivity.
  - apply (um_posted _ _ _ _ (mk_entry (Qred (t + dt)) (nextid s) p x prog None)); [left|]; reflexivity.
  - apply um_emit. reflexivity.
  - unfold post. rewrite Qred_pred_lt. apply umoves_one. cbn. apply um_emit. reflexivity.
  - destruct (ids s) as [|i0 l0]; [apply us_refl|].
    destruct (find_live _ (queue s)) as [x|] eqn:E; cbn; apply umoves_one.
    + apply um_kill. exact E.
    + apply um_emit. destruct fatal; reflexivity.
  - destruct (ids s) as [|i0 l0]; [apply us_refl|]. cbn. apply umoves_one, um_emit. reflexivity.
  - cbn. apply umoves_one, um_emit. reflexivity.
Qed.

Lemma run_actions_umoves p t e acts s : umoves (core_of s) (core_of (run_actions p t e acts s)).
Proof.
  unfold run_actions. revert s. induction acts as [|a acts IH]; intros s; cbn [fold_left]; [apply us_refl|].
  eapply umoves_trans; [apply do_action_umoves|apply IH].
Qed.

Lemma run_prog_umoves tb p k t e s : umoves (core_of s) (core_of (run_prog tb p k t e s)).
Proof.
  unfold run_prog. destruct (prog_of tb k t e (loci s) (world s)) as [w acts].
  apply (run_actions_umoves p t e acts (set_world w s)).
Qed.

Lemma core_clock {s s'} : umoves (core_of s) (core_of s') -> clock s' = clock s.
Proof. exact umoves_clock. Qed.

Lemma fire_umoves tb x s :
  umoves (clock s, nextid s, queue s, OHandler (e_prog x) (e_time x) (clock s) (e_elem x) None :: out s)
         (core_of (fire tb x s)).
Proof.
  unfold fire. cbv zeta.
  pose proof (run_prog_umoves tb (e_proc x) (e_prog x) (e_time x) (e_elem x)
                (emit (OHandler (e_prog x) (e_time x) (clock s) (e_elem x) None) s)) as H.
  set (s2 := run_prog _ _ _ _ _ _) in *.
  destruct (e_rep x) as [ddt|]; [|exact H].
  eapply umoves_trans; [exact H|]. unfold post, core_of.
  destruct (Qltb (Qred (e_time x + ddt)) (clock s2)) eqn:E; cbn; apply umoves_one.
  - apply um_emit. reflexivity.
  - apply Qltb_false in E. apply um_post, E.
Qed.

Lemma fire_clock tb x s : clock (fire tb x s) = clock s.
Proof. exact (umoves_clock (fire_umoves tb x s)). Qed.

Lemma fire_succ tb x s ddt : e_rep x = Some ddt -> 0 <= ddt -> clock s <= e_time x ->
  exists y, succ_of x ddt y /\ In y (queue (fire tb x s)).
Proof.
  intros Hr Hd Hc. unfold fire. rewrite Hr.
  set (s1 := emit (OHandler (e_prog x) (e_time x) (clock s) (e_elem x) None) s).
  pose proof (core_clock (run_prog_umoves tb (e_proc x) (e_prog x) (e_time x) (e_elem x) s1)) as Hc2.
  set (s2 := run_prog tb (e_proc x) (e_prog x) (e_time x) (e_elem x) s1) in *.
  unfold post. assert (E : Qltb (Qred (e_time x + ddt)) (clock s2) = false).
  { apply Qltb_false. rewrite Hc2, Qred_correct. subst s1. cbn [clock emit]. lra. }
  rewrite E. cbn [queue]. eexists. split; [|left; reflexivity]. reflexivity.
Qed.

(* user code never touches the oracle or [stuck] *)
Definition oracle_of s := (rands s, lns s, draws s, stuck s).

Lemma do_action_oracle p t e a s : oracle_of (do_action p t e a s) = oracle_of s.
Proof.
  destruct a; cbn [do_action]; try reflexivity.
  1-4: unfold post; destruct (Qltb _ _); reflexivity.
  - destruct (ids s); [reflexivity|]. destruct (find_live _ _); reflexivity.
  - destruct (ids s); reflexivity.
Qed.

Lemma run_actions_oracle p t e acts s : oracle_of (run_actions p t e acts s) = oracle_of s.
Proof.
  unfold run_actions. revert s. induction acts as [|a acts IH]; intros s; cbn [fold_left]; [reflexivity|].
  rewrite IH. apply do_action_oracle.
Qed.

(* an action does not touch the user state either; a program sets it ([run_prog]) before its actions run *)
Lemma do_action_world p t e a s : world (do_action p t e a s) = world s.
Proof.
  destruct a; cbn [do_action]; try reflexivity.
  1-4: unfold post; destruct (Qltb _ _); reflexivity.
  - destruct (ids s); [reflexivity|]. destruct (find_live _ _); reflexivity.
  - destruct (ids s); reflexivity.
Qed.

Lemma run_actions_world p t e acts s : world (run_actions p t e acts s) = world s.
Proof.
  unfold run_actions. revert s. induction acts as [|a acts IH]; intros s; cbn [fold_left]; [reflexivity|].
  rewrite IH. apply do_action_world.
Qed.

Lemma run_prog_oracle tb p k t e s : oracle_of (run_prog tb p k t e s) = oracle_of s.
Proof.
  unfold run_prog. destruct (prog_of tb k t e (loci s) (world s)) as [w acts].
  apply (run_actions_oracle p t e acts (set_world w s)).
Qed.

Lemma fire_oracle tb x s : oracle_of (fire tb x s) = oracle_of s.
Proof.
  transitivity (oracle_of (run_prog tb (e_proc x) (e_prog x) (e_time x) (e_elem x)
                  (emit (OHandler (e_prog x) (e_time x) (clock s) (e_elem x) None) s)));
    [|exact (run_prog_oracle tb _ _ _ _ (emit _ s))].
  unfold fire. destruct (e_rep x) as [ddt|]; [|reflexivity]. unfold post. destruct (Qltb _ _); reflexivity.
Qed.

Lemma fire_event_oracle tb x t e s : oracle_of (fire_event tb x t e s) = oracle_of s.
Proof.
  destruct x as [[pi j] ev].
  exact (run_prog_oracle tb pi (ev_prog ev) t e (emit (OHandler (ev_prog ev) t (clock s) e (Some (mem e (locus s (ev_locus ev))))) s)).
Qed.

Lemma fire_stuck tb x s : stuck (fire tb x s) = stuck s.
Proof. exact (f_equal snd (fire_oracle tb x s)). Qed.

Lemma fire_event_stuck tb x t e s : stuck (fire_event tb x t e s) = stuck s.
Proof. exact (f_equal snd (fire_event_oracle tb x t e s)). Qed.

Lemma fire_event_shape tb x t e s : exists k m pi j n2 q2 o2,
  umoves (clock s, nextid s, queue s, OHandler k t (clock s) e (Some m) :: out s) (clock s, n2, q2, o2)
  /\ core_of (fire_event tb x t e s) = (clock s, n2, q2, OTap t pi (NEv pi j) e :: o2).
Proof.
  destruct x as [[pi j] ev]. unfold fire_event.
  set (s1 := emit _ s).
  pose proof (run_prog_umoves tb pi (ev_prog ev) t e s1) as H.
  pose proof (core_clock H) as Hc.
  exists (ev_prog ev), (mem e (locus s (ev_locus ev))), pi, j.
  exists (nextid (run_prog tb pi (ev_prog ev) t e s1)), (queue (run_prog tb pi (ev_prog ev) t e s1)),
         (out (run_prog tb pi (ev_prog ev) t e s1)).
  unfold core_of in *. cbn [clock nextid queue out emit] in *. rewrite Hc in *. subst s1.
  cbn [clock nextid queue out emit] in *. split; [exact H|reflexivity].
Qed.

Lemma fire_event_kmove tb x t e s : clock s = t ->
  kmove (core_of s) [] (core_of (fire_event tb x t e s)).
Proof.
  intros <-. destruct (fire_event_shape tb x (clock s) e s) as (k & m & pi & j & n2 & q2 & o2 & U & ->).
  eapply km_event, U.
Qed.

Lemma fire_event_clock tb x t e s : clock (fire_event tb x t e s) = clock s.
Proof.
  destruct (fire_event_shape tb x t e s) as (k & m & pi & j & n2 & q2 & o2 & _ & E).
  injection E as -> _ _ _. reflexivity.
Qed.

(* one iteration of run_pending on a state whose dead heads have been discarded *)
Definition pend_step (tb : table W) (h : entry) (s0 : st W) : st W :=
  emit (trec h) (fire tb h (set_clock (e_time h) (set_queue (remove_id (e_id h) (queue s0)) s0))).

Lemma pend_step_oracle tb h s : oracle_of (pend_step tb h s) = oracle_of s.
Proof. exact (fire_oracle tb h (set_clock _ (set_queue _ s))). Qed.

(* run_pending, also returning the entries fired, in order *)
Fixpoint run_pendingL (tb : table W) (fuel : nat) (t : Q) (n : nat) (s : st W) : nat * st W * list entry :=
  match fuel with
  | O => (n, set_stuck s, [])
  | S f =>
      let s0 := discard s in
      match head (queue s0) with
      | None => (n, s0, [])
      | Some h =>
          if Qle_bool (e_time h) t then
            let '(n', s', l) := run_pendingL tb f t (S n) (pend_step tb h s0) in (n', s', h :: l)
          else (n, s0, [])
      end
  end.

Lemma run_pendingL_fst tb fuel t n s : fst (run_pendingL tb fuel t n s) = run_pending tb fuel t n s.
Proof.
  revert n s. induction fuel as [|f IH]; intros n s; cbn [run_pendingL run_pending]; [reflexivity|].
  destruct (head (queue (discard s))) as [h|]; [|reflexivity].
  destruct (Qle_bool (e_time h) t); [|reflexivity].
  rewrite <- IH. unfold pend_step, trec.
  destruct (run_pendingL tb f t (S n) _) as [[n' s'] l]. reflexivity.
Qed.

Lemma discard_head_live s h : head (queue (discard s)) = Some h -> e_live h = true.
Proof.
  intros H. pose proof (discard_dead_head (length (queue s)) (queue s) (le_n _)) as H1.
  unfold discard in H. cbn in H. rewrite H in H1. exact H1.
Qed.

Lemma discard_discard s : discard (discard s) = discard s.
Proof.
  unfold discard at 1. cbn [queue set_queue discard]. unfold discard. cbn.
  rewrite discard_dead_fix; [reflexivity|]. apply discard_dead_head. apply le_n.
Qed.

(* induction over run_pending: out of fuel; nothing queued is due; the live head [h] is due and fires *)
Lemma run_pendingL_ind (tb : table W) (t : Q) (P : nat -> st W -> nat -> st W -> list entry -> Prop) :
  (forall n s, P n s n (set_stuck s) []) ->
  (forall n s, (forall x, In x (queue (discard s)) -> t < e_time x) -> P n s n (discard s) []) ->
  (forall n s h n' s' l, head (queue (discard s)) = Some h -> e_live h = true -> e_time h <= t ->
     P (S n) (pend_step tb h (discard s)) n' s' l -> P n s n' s' (h :: l)) ->
  forall fuel n s n' s' l, run_pendingL tb fuel t n s = (n', s', l) -> P n s n' s' l.
Proof.
  intros H0 Hn Hs. induction fuel as [|f IH]; intros n s n' s' l; cbn [run_pendingL].
  - intros [= <- <- <-]. apply H0.
  - destruct (head (queue (discard s))) as [h|] eqn:Eh.
    2:{ intros [= <- <- <-]. apply Hn. apply head_none in Eh. rewrite Eh. intros x []. }
    destruct (Qle_bool (e_time h) t) eqn:Et.
    + destruct (run_pendingL tb f t (S n) _) as [[n1 s1] l1] eqn:E. intros [= <- <- <-].
      apply (Hs n s h n1 s1 l1 Eh (discard_head_live _ _ Eh)); [apply Qle_bool_iff, Et|apply IH, E].
    + intros [= <- <- <-]. apply Hn. intros x Hx. apply Qle_bool_false in Et.
      pose proof (notbefore_time_le _ _ (head_min _ _ Eh x Hx)). lra.
Qed.

Lemma run_pendingL_none_due {tb fuel t n s n' s' l} :
  run_pendingL tb fuel t n s = (n', s', l) -> stuck s' = false ->
  forall x, In x (queue s') -> e_live x = true -> t < e_time x.
Proof.
  apply (run_pendingL_ind tb t (fun _ _ _ s' _ => stuck s' = false ->
           forall x, In x (queue s') -> e_live x = true -> t < e_time x)).
  - discriminate.
  - intros _ s0 Hd _ x Hx _. exact (Hd x Hx).
  - auto.
Qed.

Lemma run_pendingL_fired_le {tb fuel t n s n' s' l} :
  run_pendingL tb fuel t n s = (n', s', l) -> forall x, In x l -> e_time x <= t /\ e_live x = true.
Proof.
  apply (run_pendingL_ind tb t (fun _ _ _ _ l => forall x, In x l -> e_time x <= t /\ e_live x = true)).
  - intros _ _ x [].
  - intros _ _ _ x [].
  - intros _ _ h _ _ l1 _ Hl Ht IH x [<-|Hx]; auto.
Qed.

Lemma run_pendingL_length {tb fuel t n s n' s' l} :
  run_pendingL tb fuel t n s = (n', s', l) -> n' = (n + length l)%nat.
Proof.
  apply (run_pendingL_ind tb t (fun n _ n' _ l => n' = (n + length l)%nat)).
  - intros. cbn. lia.
  - intros. cbn. lia.
  - intros n0 _ h n1 _ l1 _ _ _ ->. cbn. lia.
Qed.

Lemma pend_step_shape tb h s0 : exists n2 q2 o2,
  umoves (e_time h, nextid s0, remove_id (e_id h) (queue s0), hrec h :: out s0) (e_time h, n2, q2, o2)
  /\ core_of (pend_step tb h s0) = (e_time h, n2, q2, trec h :: o2).
Proof.
  unfold pend_step.
  set (s1 := set_clock (e_time h) (set_queue (remove_id (e_id h) (queue s0)) s0)).
  pose proof (fire_umoves tb h s1) as H. pose proof (fire_clock tb h s1) as Hc.
  exists (nextid (fire tb h s1)), (queue (fire tb h s1)), (out (fire tb h s1)).
  unfold core_of in *. cbn [clock nextid queue out emit] in *.
  subst s1. cbn [clock nextid queue out set_clock set_queue] in *. rewrite Hc in *.
  split; [exact H|reflexivity].
Qed.

Lemma pend_step_kmove tb h s0 : head (queue s0) = Some h -> e_live h = true ->
  kmove (core_of s0) [h] (core_of (pend_step tb h s0)).
Proof.
  intros Hh Hl. destruct (pend_step_shape tb h s0) as (n2 & q2 & o2 & U & E). rewrite E.
  apply (km_posted _ _ _ _ h _ _ _ Hh Hl U). injection E as _ _ <- _.
  intros ddt Hr Hd. apply (fire_succ tb h _ ddt Hr Hd). apply Qle_refl.
Qed.

End K.
