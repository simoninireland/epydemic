(* C08, lists: [forestL occ] says that the list of occupied edges grew as a forest (every entry
   joined a node no earlier entry touches to another node); it gives a unique infector per node,
   no cycle, a root for every infected node, and the infector's own entry earlier in the list.
   Then first-only marking: mark_occupied and mark_hit on fresh and on known nodes, and the fold
   [first_only] of a list of marks (the recorded hit of a node is its first mark).
   Nothing here speaks of a model table or of a run. *)
From Coq Require Import List ZArith QArith Bool Arith Relations Sorted.
From EpyV Require Import Lib.Lists Model.Kernel Model.Loci Model.Compart Proofs.CompartDiagram.
Import ListNotations.
Close Scope Q_scope.

Definition child (x : Z * Z * Q) : Z := fst (fst x).
Definition parent (x : Z * Z * Q) : Z := snd (fst x).

(* every entry joins a node that occurs in no earlier entry (as a brand-new leaf) to another node *)
Fixpoint forestL (occ : list (Z * Z * Q)) : Prop :=
  match occ with
  | [] => True
  | x :: rest => child x <> parent x
                 /\ (forall y, In y rest -> child y <> child x /\ child y <> parent x)
                 /\ forestL rest
  end.

Lemma forestL_snoc occ z : forestL occ -> child z <> parent z ->
  (forall x, In x occ -> child x <> child z /\ parent x <> child z) -> forestL (occ ++ [z]).
Proof.
  induction occ as [|x occ IH]; intros F Hz H; cbn [app forestL].
  - split; [exact Hz|]. split; [intros y []|exact I].
  - destruct F as (F1 & F2 & F3). split; [exact F1|]. split.
    + intros y Hy. apply in_app_or in Hy. destruct Hy as [Hy|[<-|[]]]; [apply F2, Hy|].
      destruct (H x (or_introl eq_refl)) as [A B]. split; congruence.
    + apply IH; [exact F3 | exact Hz|]. intros x' Hx'. apply H. right. exact Hx'.
Qed.

Lemma forestL_mid o1 x o2 : forestL (o1 ++ x :: o2) ->
  child x <> parent x
  /\ (forall y, In y o2 -> child y <> child x /\ child y <> parent x)
  /\ (forall y, In y o1 -> child x <> child y /\ child x <> parent y).
Proof.
  induction o1 as [|z o1 IH]; cbn [app forestL].
  - intros (F1 & F2 & _). split; [exact F1|]. split; [exact F2 | intros y []].
  - intros (F1 & F2 & F3). destruct (IH F3) as (I1 & I2 & I3). split; [exact I1|]. split; [exact I2|].
    intros y [<-|Hy]; [|apply I3, Hy]. apply F2, in_app_iff. right. left. reflexivity.
Qed.

Lemma forestL_child_NoDup occ : forestL occ -> NoDup (map child occ).
Proof.
  induction occ as [|x occ IH]; intros F; [constructor|]. destruct F as (_ & F2 & F3). cbn [map].
  constructor; [|apply IH, F3]. intros H. apply in_map_iff in H. destruct H as [y [E Hy]]. exact (proj1 (F2 y Hy) E).
Qed.

Lemma child_unique occ x y : forestL occ -> In x occ -> In y occ -> child x = child y -> x = y.
Proof.
  intros F Hx Hy E. destruct (in_split _ _ Hx) as [o1 [o2 ->]].
  destruct (forestL_mid _ _ _ F) as (_ & M2 & M3).
  apply in_app_or in Hy. destruct Hy as [Hy|[Hy|Hy]]; [|exact Hy|].
  - exfalso. exact (proj1 (M3 y Hy) E).
  - exfalso. apply (proj1 (M2 y Hy)). symmetry. exact E.
Qed.

(* the parent relation of the occupied edges *)
Definition par (occ : list (Z * Z * Q)) (n m : Z) : Prop := exists t, In (n, m, t) occ.

Lemma t1n_first {A} (R : relation A) a b : clos_trans_1n A R a b -> exists c, R a c.
Proof. intros H. destruct H as [y H|y z H _]; exists y; exact H. Qed.

(* the infector of the oldest entry is a root: it is the infected end of no entry *)
Lemma par_head_root x rest m : forestL (x :: rest) -> ~ par (x :: rest) (parent x) m.
Proof.
  intros (F1 & F2 & _) [t [E|H]]; [exact (F1 (f_equal child E)) | exact (proj2 (F2 _ H) eq_refl)].
Qed.

(* so a path either avoids the oldest entry altogether or ends at its infector *)
Lemma par_path_rest x rest a b : forestL (x :: rest) -> clos_trans_1n Z (par (x :: rest)) a b ->
  clos_trans_1n Z (par rest) a b \/ b = parent x.
Proof.
  intros F H. induction H as [a b [t Ht]|a k b [t Ht] Hkb IH].
  - destruct Ht as [->|Ht]; [right; reflexivity | left; apply t1n_step; exists t; exact Ht].
  - destruct IH as [IH| ->]; [|right; reflexivity]. destruct Ht as [->|Ht].
    + exfalso. destruct (t1n_first _ _ _ IH) as (k' & t' & Hk). exact (proj2 (proj1 (proj2 F) _ Hk) eq_refl).
    + left. apply (Relation_Operators.t1n_trans _ _ _ k); [exists t; exact Ht | exact IH].
Qed.

(* no cycles: the occupied edges, oriented infected -> infector, form a forest *)
Theorem forestL_acyclic occ : forestL occ -> forall n, ~ clos_trans Z (par occ) n n.
Proof.
  induction occ as [|x rest IH]; intros F n H; apply clos_trans_t1n in H.
  - destruct (t1n_first _ _ _ H) as (m & t & []).
  - destruct (par_path_rest x rest n n F H) as [H'| ->]; [exact (IH (proj2 (proj2 F)) n (clos_t1n_trans _ _ _ _ H'))|].
    destruct (t1n_first _ _ _ H) as [m Hm]. exact (par_head_root x rest m F Hm).
Qed.

Theorem forestL_functional occ : forestL occ -> forall n m m' t t', In (n, m, t) occ -> In (n, m', t') occ -> m = m' /\ t = t'.
Proof. intros F n m m' t t' H H'. pose proof (child_unique occ _ _ F H H' eq_refl) as E. inversion E. split; reflexivity. Qed.

(* following the parents from any infected node ends in a node that was never marked: the root of its tree *)
Theorem forestL_root occ : forestL occ -> forall n, In n (map child occ) ->
  exists r, clos_refl_trans Z (par occ) n r /\ ~ In r (map child occ).
Proof.
  induction occ as [|x occ IH]; intros F n Hn; [destruct Hn|].
  destruct F as (F1 & F2 & F3).
  assert (Root : ~ In (parent x) (map child (x :: occ))).
  { cbn [map In]. intros [E|E]; [exact (F1 E)|]. apply in_map_iff in E. destruct E as [y [E Hy]]. exact (proj2 (F2 y Hy) E). }
  assert (Px : par (x :: occ) (child x) (parent x)).
  { exists (snd x). left. destruct x as [[a b] t]. reflexivity. }
  assert (Sub : forall a b, clos_refl_trans Z (par occ) a b -> clos_refl_trans Z (par (x :: occ)) a b).
  { intros a b H. induction H as [a b [t Ht]|a|a b c _ I1 _ I2]; [apply rt_step; exists t; right; exact Ht | apply rt_refl | eapply rt_trans; eassumption]. }
  cbn [map In] in Hn. destruct Hn as [<-|Hn].
  - exists (parent x). split; [apply rt_step, Px | exact Root].
  - destruct (IH F3 n Hn) as [r [P R]]. destruct (Z.eq_dec r (child x)) as [-> |Hne].
    + exists (parent x). split; [eapply rt_trans; [apply Sub, P | apply rt_step, Px] | exact Root].
    + exists r. split; [apply Sub, P|]. cbn [map In]. intros [E|E]; [congruence | exact (R E)].
Qed.

Lemma parent_earlier o1 x o2 y : forestL (o1 ++ x :: o2) -> In y (o1 ++ x :: o2) -> child y = parent x -> In y o1.
Proof.
  intros F Hy E. destruct (forestL_mid _ _ _ F) as (M1 & M2 & _).
  apply in_app_or in Hy. destruct Hy as [Hy|[<-|Hy]]; [exact Hy | exfalso; exact (M1 E) | exfalso; exact (proj2 (M2 y Hy) E)].
Qed.

Lemma mark_hit_fresh n t hit : ~ In n (map fst hit) -> mark_hit n t hit = hit ++ [(n, t)].
Proof.
  intros H. unfold mark_hit. destruct (existsb (fun x => Z.eqb (fst x) n) hit) eqn:E; [|reflexivity].
  exfalso. apply existsb_exists in E. destruct E as [x [Hx Ex]]. apply Z.eqb_eq in Ex. apply H. rewrite <- Ex. apply in_map, Hx.
Qed.

Lemma mark_hit_known n t hit : In n (map fst hit) -> mark_hit n t hit = hit.
Proof.
  intros H. unfold mark_hit. destruct (existsb (fun x => Z.eqb (fst x) n) hit) eqn:E; [reflexivity|].
  exfalso. apply in_map_iff in H. destruct H as [x [Ex Hx]].
  assert (existsb (fun x => Z.eqb (fst x) n) hit = true) by (apply existsb_exists; exists x; split; [exact Hx | apply Z.eqb_eq, Ex]).
  congruence.
Qed.

Lemma undirected_eqb_spec a b : undirected_eqb a b = true <-> a = b \/ a = (snd b, fst b).
Proof. unfold undirected_eqb. rewrite orb_true_iff, !zpair_eqb_iff. tauto. Qed.

Lemma mark_occupied_fresh n m t occ : (forall x, In x occ -> child x <> n /\ parent x <> n) ->
  mark_occupied (n, m) t occ = occ ++ [(n, m, t)].
Proof.
  intros H. unfold mark_occupied. destruct (existsb (fun x => undirected_eqb (fst x) (n, m)) occ) eqn:E; [|reflexivity].
  exfalso. apply existsb_exists in E. destruct E as [[[a b] t'] [Hx Ex]]. apply undirected_eqb_spec in Ex. cbn [fst snd] in Ex.
  destruct (H _ Hx) as [H1 H2]. cbn [child parent fst snd] in H1, H2. destruct Ex as [Ex|Ex]; inversion Ex; congruence.
Qed.

(* the hits of a list of (node, time) marks applied first-only *)
Definition first_only (l : list (Z * Q)) (h0 : list (Z * Q)) : list (Z * Q) :=
  fold_left (fun h nt => mark_hit (fst nt) (snd nt) h) l h0.

Lemma mark_hit_keys n t hit : forall v, In v (map fst (mark_hit n t hit)) <-> In v (map fst hit) \/ v = n.
Proof.
  intros v. destruct (in_dec Z.eq_dec n (map fst hit)) as [H|H].
  - rewrite (mark_hit_known n t hit H). split; [tauto|]. intros [A| ->]; assumption.
  - rewrite (mark_hit_fresh n t hit H), map_app, in_app_iff. cbn. intuition.
Qed.

Lemma first_only_spec l : forall h0 n t, In (n, t) (first_only l h0) <->
  In (n, t) h0 \/ (~ In n (map fst h0) /\ exists l1 l2, l = l1 ++ (n, t) :: l2 /\ ~ In n (map fst l1)).
Proof.
  induction l as [|[n0 t0] l IH]; intros h0 n t; cbn [first_only fold_left].
  - split; [tauto|]. intros [H|[_ [l1 [l2 [E _]]]]]; [exact H | destruct l1; discriminate].
  - change (fold_left _ l ?h) with (first_only l h). rewrite IH. cbn [fst snd].
    destruct (in_dec Z.eq_dec n0 (map fst h0)) as [K|K].
    + rewrite (mark_hit_known n0 t0 h0 K). split.
      * intros [H|[H1 [l1 [l2 [E H2]]]]]; [left; exact H|]. right. split; [exact H1|].
        exists ((n0, t0) :: l1), l2. split; [rewrite E; reflexivity|]. cbn [map In fst]. intros [-> |H3]; tauto.
      * intros [H|[H1 [l1 [l2 [E H2]]]]]; [left; exact H|]. right. split; [exact H1|].
        destruct l1 as [|z l1]; [inversion E; subst; contradiction|]. inversion E; subst.
        exists l1, l2. split; [reflexivity|]. intros H3. apply H2. right. exact H3.
    + rewrite (mark_hit_fresh n0 t0 h0 K). rewrite in_app_iff, map_app, in_app_iff. cbn [In map fst]. split.
      * intros [[H|[H|[]]]|[H1 [l1 [l2 [E H2]]]]].
        -- left. exact H.
        -- inversion H; subst. right. split; [exact K|]. exists [], l. split; [reflexivity | intros []].
        -- right. split; [tauto|]. exists ((n0, t0) :: l1), l2. split; [rewrite E; reflexivity|].
           cbn [map In fst]. intros [-> |H3]; tauto.
      * intros [H|[H1 [l1 [l2 [E H2]]]]]; [left; left; exact H|].
        destruct l1 as [|z l1]; inversion E; subst.
        -- left. right. left. reflexivity.
        -- right. split; [|exists l1, l2; split; [reflexivity | intros H3; apply H2; right; exact H3]].
           intros [H3|[H3|[]]]; [exact (H1 H3)|]. apply H2. left. exact H3.
Qed.

Lemma first_only_NoDup l : forall h0, NoDup (map fst h0) -> NoDup (map fst (first_only l h0)).
Proof.
  induction l as [|[n0 t0] l IH]; intros h0 H; cbn [first_only fold_left]; [exact H|].
  apply IH. cbn [fst snd]. destruct (in_dec Z.eq_dec n0 (map fst h0)) as [K|K].
  - rewrite (mark_hit_known n0 t0 h0 K). exact H.
  - rewrite (mark_hit_fresh n0 t0 h0 K), map_app. cbn [map fst].
    apply NoDup_snoc; assumption.
Qed.
