(* The dynamic kernel (Model/KernelDyn.v), for every user state W and every dynamic table D:
   what an appended entry's call writes and changes; the per-element distribution; and a run of
   either loop as a sequence of scheduler-internal moves and CALLS of event functions ([DSteps],
   the counterpart of Proofs/CompartRun.v's [Steps] with a third kind of call, that of an
   appended entry).  Both loops test an appended entry's membership at the instant of the call
   (the Gillespie loop since repair F15), so [dcall_ok] records that test for every call.
   State invariants are lifted to runs through closure under [dsched] and [dafter]:
   [drun_pending_inv] for runPendingEvents here, the tranche and the loops in
   Proofs/KernelDynLoops.v, [DSteps_inv] for whole runs. *)
From Coq Require Import List ZArith QArith Qabs Bool Arith Lia.
From EpyV Require Import Model.Kernel Model.KernelDyn Proofs.KernelBase Proofs.KernelLoops Proofs.KernelMember
  Proofs.KernelSync Proofs.CompartSort Proofs.CompartRun Proofs.CompartInv.
Import ListNotations.
Open Scope Q_scope.

Section DK.
Context {W : Type}.
Variable D : dtable W.
Notation tb := (d_tb D).
Implicit Types s : st W.

Definition trans_p (x : trans W) : Q := match x with TStat y => ev_p (snd y) | TDyn _ d => de_p d end.

Lemma dper_from_In lc w : forall ps pi x, In x (dper_from D pi ps lc w) ->
  match x with
  | TStat y => In y (all_events_from pi ps) /\ ev_elem (snd y) = true
  | TDyn pi' d => In d (d_dyn D pi' lc w)
  end.
Proof.
  induction ps as [|p ps IH]; intros pi x H; cbn [dper_from] in H; [destruct H|].
  apply in_app_or in H. destruct H as [H|H].
  - apply in_map_iff in H. destruct H as [y [<- Hy]]. apply filter_In in Hy. destruct Hy as [Hy He].
    split; [|exact He]. cbn [all_events_from]. apply in_or_app. left. exact Hy.
  - apply in_app_or in H. destruct H as [H|H].
    + apply in_map_iff in H. destruct H as [d [<- Hd]]. exact Hd.
    + specialize (IH (S pi) x H). destruct x as [y|pi' d]; [|exact IH].
      destruct IH as [I1 I2]. split; [|exact I2]. cbn [all_events_from]. apply in_or_app. right. exact I1.
Qed.

Lemma dper_element_In lc w x : In x (dper_element D lc w) ->
  match x with
  | TStat y => In y (all_events tb) /\ ev_elem (snd y) = true
  | TDyn pi d => In d (d_dyn D pi lc w)
  end.
Proof. apply dper_from_In. Qed.

Lemma dtransitions_In lc w x : In x (dtransitions D lc w) ->
  match x with
  | TStat y => In y (all_events tb)
  | TDyn pi d => In d (d_dyn D pi lc w)
  end.
Proof.
  unfold dtransitions. intros H. apply in_app_or in H. destruct H as [H|H].
  - apply dper_element_In in H. destruct x; [exact (proj1 H) | exact H].
  - apply in_map_iff in H. destruct H as [y [<- Hy]]. apply fixed_rate_In. exact Hy.
Qed.

Lemma dper_from_static lc w : (forall pi, d_dyn D pi lc w = []) -> forall ps pi,
  dper_from D pi ps lc w = map TStat (filter (fun x => ev_elem (snd x)) (all_events_from pi ps)).
Proof.
  intros H. induction ps as [|p ps IH]; intros pi; cbn [dper_from all_events_from]; [reflexivity|].
  rewrite H, IH, filter_app, map_app. reflexivity.
Qed.

Inductive dcall :=
| DEv (x : nat * nat * event) (t : Q) (e : elem)     (* a registered stochastic / per-element event *)
| DDyn (pi : nat) (d : dyn_event W) (t : Q)          (* an appended entry, on its own element *)
| DPost (h : entry).                                 (* a posted event *)

Definition dafter (c : dcall) s : st W :=
  match c with
  | DEv x t e => fire_event tb x t e s
  | DDyn pi d t => fire_dyn D pi d t s
  | DPost h => pend_step tb h s
  end.

Definition dcall_args (c : dcall) : nat * Q * elem :=
  match c with
  | DEv x t e => (ev_prog (snd x), t, e)
  | DDyn _ d t => (de_prog d, t, de_value d)
  | DPost h => (e_prog h, e_time h, e_elem h)
  end.

(* the entry was produced by the table's generator in SOME state *)
Definition dyn_range (pi : nat) (d : dyn_event W) : Prop := exists lc w, In d (d_dyn D pi lc w).

(* the two records that bracket what the event function itself writes: the handler entry, carrying
   the outcome of the membership test at that instant, and the tap *)
Definition drec (c : dcall) s : obs :=
  match c with
  | DEv x t e => OHandler (ev_prog (snd x)) t (clock s) e (Some (mem e (locus s (ev_locus (snd x)))))
  | DDyn _ d t => OHandler (de_prog d) t (clock s) (de_value d) (Some (de_member d (loci s) (world s)))
  | DPost h => hrec h
  end.
Definition dtap (c : dcall) : obs :=
  match c with
  | DEv x t e => OTap t (fst (fst x)) (NEv (fst (fst x)) (snd (fst x))) e
  | DDyn pi d t => OTap t pi (NEv pi (de_name d)) (de_value d)
  | DPost h => trec h
  end.

Lemma dafter_out c s : exists l, Forall act_obs l /\ out (dafter c s) = dtap c :: l ++ drec c s :: out s.
Proof.
  destruct c as [[[pi j] ev] t e|pi d t|h]; cbn [dafter dtap drec fst snd].
  - destruct (fire_event_spec tb pi j ev t e s) as [_ H]. exact H.
  - unfold fire_dyn. cbn [out emit].
    destruct (run_prog_spec tb pi (de_prog d) t (de_value d)
                (emit (OHandler (de_prog d) t (clock s) (de_value d) (Some (de_member d (loci s) (world s)))) s)) as [_ [l [E A]]].
    exists l. split; [exact A | rewrite E; reflexivity].
  - unfold pend_step. cbn [out emit].
    destruct (fire_shape tb h (set_clock (e_time h) (set_queue (remove_id (e_id h) (queue s)) s))) as [l [A E]].
    exists l. split; [exact A | rewrite E; reflexivity].
Qed.

(* a stochastic / per-element event function or an appended entry leaves clock, oracle and [stuck] alone *)
Lemma dafter_frame c s : (forall h, c <> DPost h) -> frame s (dafter c s).
Proof.
  destruct c as [[[pi j] ev] t e|pi d t|h]; intros Hnp; cbn [dafter]; [| |exfalso; exact (Hnp h eq_refl)].
  - exact (proj1 (fire_event_spec tb pi j ev t e s)).
  - unfold fire_dyn.
    destruct (run_prog_spec tb pi (de_prog d) t (de_value d)
                (emit (OHandler (de_prog d) t (clock s) (de_value d) (Some (de_member d (loci s) (world s)))) s)) as [F _].
    exact F.
Qed.

Lemma dafter_lw c s :
  let '(k, t, e) := dcall_args c in
  loci (dafter c s) = fold_left (act_loci e) (snd (prog_of tb k t e (loci s) (world s))) (loci s)
  /\ world (dafter c s) = fst (prog_of tb k t e (loci s) (world s)).
Proof.
  destruct c as [x t e|pi d t|h]; cbn [dcall_args dafter].
  - exact (after_lw tb (CEv x t e) s).
  - exact (run_prog_lw tb pi (de_prog d) t (de_value d)
             (emit (OHandler (de_prog d) t (clock s) (de_value d) (Some (de_member d (loci s) (world s)))) s)).
  - exact (after_lw tb (CPost h) s).
Qed.

Section Runs.
(* Xtr: whatever else is established about every transition selected (e.g. positive probability) *)
Variable Xtr : trans W -> Prop.

Definition dcall_ok (c : dcall) s : Prop :=
  match c with
  | DEv x t e => In x (all_events tb) /\ mem e (locus s (ev_locus (snd x))) = true /\ clock s = t /\ Xtr (TStat x)
  | DDyn pi d t => dyn_range pi d /\ de_member d (loci s) (world s) = true /\ clock s = t /\ Xtr (TDyn pi d)
  | DPost h => head (queue s) = Some h /\ e_live h = true
  end.

(* a scheduler-internal move: touches neither loci nor user state nor output, adds no posted event *)
Definition dsched s s' : Prop :=
  loci s' = loci s /\ world s' = world s /\ out s' = out s /\ incl (queue s') (queue s).

Lemma dsched_loci s s' : dsched s s' -> loci s' = loci s.
Proof. intros H. apply H. Qed.
Lemma dsched_world s s' : dsched s s' -> world s' = world s.
Proof. intros H. apply H. Qed.
Lemma dsched_out s s' : dsched s s' -> out s' = out s.
Proof. intros H. apply H. Qed.
Lemma dsched_queue s s' : dsched s s' -> incl (queue s') (queue s).
Proof. intros H. apply H. Qed.

(* a posted call is of a queued entry *)
Lemma dcall_ok_queued h s : dcall_ok (DPost h) s -> In h (queue s).
Proof. intros [H _]. exact (head_in _ _ H). Qed.

Lemma dsched_refl s : dsched s s.
Proof. repeat split. apply incl_refl. Qed.

Lemma dsched_trans s1 s2 s3 : dsched s1 s2 -> dsched s2 s3 -> dsched s1 s3.
Proof.
  intros (a1 & a2 & a3 & a4) (b1 & b2 & b3 & b4).
  split; [congruence|]. split; [congruence|]. split; [congruence|]. eapply incl_tran; eassumption.
Qed.

Lemma dsched_same s s' : loci s' = loci s -> world s' = world s -> out s' = out s -> queue s' = queue s -> dsched s s'.
Proof. intros H1 H2 H3 H4. split; [exact H1|]. split; [exact H2|]. split; [exact H3|]. rewrite H4. apply incl_refl. Qed.

Lemma dsched_advance a b c s : dsched s (advance a b c s).
Proof. apply dsched_same; reflexivity. Qed.
Lemma dsched_set_clock t s : dsched s (set_clock t s).
Proof. apply dsched_same; reflexivity. Qed.
Lemma dsched_set_stuck s : dsched s (set_stuck s).
Proof. apply dsched_same; reflexivity. Qed.
Lemma dsched_discard s : dsched s (discard s).
Proof. unfold discard. split; [reflexivity|]. split; [reflexivity|]. split; [reflexivity|]. cbn [queue set_queue]. apply discard_dead_incl. Qed.
Lemma osame_loci s s' : osame s s' -> loci s' = loci s.
Proof. intros [_ [[L _] _]]. exact L. Qed.
Lemma osame_world s s' : osame s s' -> world s' = world s.
Proof. intros [_ [[_ [_ Wd]] _]]. exact Wd. Qed.
Lemma dsched_osame s s' : osame s s' -> dsched s s'.
Proof.
  intros H. pose proof (osame_core _ _ H) as C. unfold core_of in C. injection C as _ _ Cq Co.
  exact (dsched_same s s' (osame_loci s s' H) (osame_world s s' H) Co Cq).
Qed.

Inductive DSteps (s0 : st W) : list (st W * dcall) -> st W -> Prop :=
| dst_refl : DSteps s0 [] s0
| dst_sched cs s s' : DSteps s0 cs s -> dsched s s' -> DSteps s0 cs s'
| dst_call cs s c : DSteps s0 cs s -> dcall_ok c s -> DSteps s0 (cs ++ [(s, c)]) (dafter c s).

Lemma DSteps_inv (J : st W -> Prop) :
  (forall s s', J s -> dsched s s' -> J s') ->
  (forall s c, J s -> dcall_ok c s -> J (dafter c s)) ->
  forall s0 cs s, J s0 -> DSteps s0 cs s -> J s /\ Forall (fun sc => J (fst sc)) cs.
Proof.
  intros Hs Hc s0 cs s H0 H. induction H as [|cs s s' H IH Hsc|cs s c H IH Hok].
  - split; [exact H0 | constructor].
  - split; [eapply Hs; [exact (proj1 IH) | exact Hsc] | exact (proj2 IH)].
  - split; [apply Hc; [exact (proj1 IH) | exact Hok]|].
    apply Forall_app. split; [exact (proj2 IH)|]. constructor; [exact (proj1 IH) | constructor].
Qed.

Lemma DSteps_calls s0 cs s : DSteps s0 cs s -> Forall (fun sc => dcall_ok (snd sc) (fst sc)) cs.
Proof.
  intros H. induction H as [|cs s s' H IH Hsc|cs s c H IH Hok]; [constructor | exact IH |].
  apply Forall_app. split; [exact IH|]. constructor; [exact Hok | constructor].
Qed.

Lemma DSteps_inv_call (J : st W -> Prop) :
  (forall s s', J s -> dsched s s' -> J s') ->
  (forall s c, J s -> dcall_ok c s -> J (dafter c s)) ->
  forall s0 cs s s1 c, J s0 -> DSteps s0 cs s -> In (s1, c) cs -> J s1 /\ dcall_ok c s1.
Proof.
  intros Hs Hc s0 cs s s1 c H0 H Hin.
  pose proof (proj2 (DSteps_inv J Hs Hc s0 cs s H0 H)) as F1. pose proof (DSteps_calls s0 cs s H) as F2.
  rewrite Forall_forall in F1, F2. split; [exact (F1 _ Hin) | exact (F2 _ Hin)].
Qed.

(* being reachable from s0 is itself closed under moves and calls *)
Lemma dreach_sched s0 s s' : (exists cs, DSteps s0 cs s) -> dsched s s' -> exists cs, DSteps s0 cs s'.
Proof. intros [cs H] Hs. exists cs. exact (dst_sched s0 cs s s' H Hs). Qed.

Lemma dreach_call s0 s c : (exists cs, DSteps s0 cs s) -> dcall_ok c s -> exists cs, DSteps s0 cs (dafter c s).
Proof. intros [cs H] Hok. exists (cs ++ [(s, c)]). exact (dst_call s0 cs s c H Hok). Qed.

(* runPendingEvents makes scheduler moves and calls of live heads of the queue *)
Lemma drun_pending_inv (J : st W -> Prop) :
  (forall s s', J s -> dsched s s' -> J s') ->
  (forall s h, J s -> dcall_ok (DPost h) s -> J (dafter (DPost h) s)) ->
  forall fuel t n s, J s -> J (snd (run_pending tb fuel t n s)).
Proof.
  intros Hs Hc. induction fuel as [|f IH]; intros t n s Hj; cbn [run_pending].
  - exact (Hs _ _ Hj (dsched_set_stuck s)).
  - pose proof (Hs _ _ Hj (dsched_discard s)) as Hd.
    destruct (head (queue (discard s))) as [h|] eqn:Eh; [|exact Hd].
    destruct (Qle_bool (e_time h) t); [|exact Hd].
    apply IH. apply (Hc (discard s) h Hd). split; [exact Eh | exact (discard_head_live s h Eh)].
Qed.

End Runs.
End DK.

Arguments dsched_loci {W s s'}.
Arguments dsched_world {W s s'}.
Arguments dsched_out {W s s'}.
Arguments dsched_queue {W s s'}.
Arguments dcall_ok_queued {W D Xtr h s}.
