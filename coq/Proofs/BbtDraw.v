(* C09: the law of draw().  The only property of the tree that matters is that the stored sizes
   are the real sizes (Ok); with the BST order every member then has probability exactly 1/n.
   Last, [run_draw]: what every single run of draw() returns and which integers it asks for. *)
From Coq Require Import ZArith QArith List Bool Arith Lia.
From EpyV Require Import Model.Bbt Model.GF Proofs.GFSum Proofs.BbtRot Proofs.BbtSet.
Import ListNotations. Close Scope Z_scope. Close Scope Q_scope. Open Scope nat_scope.

Lemma inv_qn n : n <> 0 -> ((1 # Pos.of_nat n) * qn n == 1)%Q.
Proof.
  intros Hn. unfold qn, Qeq, Qmult, inject_Z. cbn [Qnum Qden].
  rewrite Pos.mul_1_r, Z.mul_1_r, Z.mul_1_l, Z.mul_1_l.
  destruct n as [|n]; [congruence|]. rewrite <- Pos.of_nat_succ, Zpos_P_of_succ_nat, Nat2Z.inj_succ. reflexivity.
Qed.

Lemma sumQ_app l1 l2 : (sumQ (l1 ++ l2) == sumQ l1 + sumQ l2)%Q.
Proof. induction l1 as [|x l1 IH]; cbn [app sumQ]; [ring|]. rewrite IH. ring. Qed.
Lemma sumQ_const (f : nat -> Q) (x : Q) l : (forall i, In i l -> (f i == x)%Q) -> (sumQ (map f l) == qn (length l) * x)%Q.
Proof.
  induction l as [|i l IH]; intros H; cbn [map sumQ length].
  - unfold qn. cbn. ring.
  - assert (H1 : (f i == x)%Q) by (apply H; left; reflexivity).
    assert (H2 : (sumQ (map f l) == qn (length l) * x)%Q) by (apply IH; intros; apply H; right; assumption).
    rewrite qn_S, H1, H2. ring.
Qed.

Lemma sum_three (f : nat -> Q) a b x y z :
  (forall i, i < a -> (f i == x)%Q) -> (f a == y)%Q -> (forall i, a < i -> (f i == z)%Q) ->
  (sumQ (map f (seq 0 (a + 1 + b))) == qn a * x + y + qn b * z)%Q.
Proof.
  intros Hx Hy Hz. rewrite !seq_app, !map_app, !sumQ_app. cbn [seq map sumQ plus].
  rewrite (sumQ_const f x), (sumQ_const f z), !seq_length, Hy.
  - ring.
  - intros i Hi. apply in_seq in Hi. apply Hz. lia.
  - intros i Hi. apply in_seq in Hi. apply Hx. lia.
Qed.

Lemma draw_count e t : Ok t ->
  (prob_ct (draw_ct t) e * qn (size t) == qn (count_occ Z.eq_dec (inorder t) e))%Q.
Proof.
  induction t as [|l IHl d h ls rs r IHr]; intros Ho; [reflexivity|].
  destruct Ho as (Hol & Hor & _ & -> & ->). specialize (IHl Hol). specialize (IHr Hor).
  cbn [draw_ct inorder size]. rewrite count_occ_app, (qn_add (count_occ _ _ _)).
  set (y := if (d =? e)%Z then 1%Q else 0%Q).
  assert (Hy : (qn (count_occ Z.eq_dec (d :: inorder r) e) == y + qn (count_occ Z.eq_dec (inorder r) e))%Q).
  { unfold y. cbn [count_occ]. destruct (Z.eqb_spec d e), (Z.eq_dec d e); try congruence; [rewrite qn_S; ring|ring]. }
  rewrite Hy. clear Hy.
  destruct (Nat.eqb_spec (size l + 1 + size r) 1) as [H1|H1].
  - rewrite H1, (size_0 l), (size_0 r) by lia. cbn [prob_ct inorder count_occ]. fold y. change (qn 1) with 1%Q. change (qn 0) with 0%Q. ring.
  - cbn [prob_ct]. rewrite (sum_three _ (size l) (size r) (prob_ct (draw_ct l) e) y (prob_ct (draw_ct r) e)).
    + rewrite (Qmult_comm (qn (size l))), IHl, (Qmult_comm (qn (size r))), IHr.
      rewrite <- Qmult_assoc, (Qmult_comm _ (qn _)), Qmult_assoc, inv_qn by lia. ring.
    + intros i Hi. destruct (Nat.ltb_spec i (size l)); [reflexivity|lia].
    + destruct (Nat.ltb_spec (size l) (size l)); [lia|]. rewrite Nat.eqb_refl. reflexivity.
    + intros i Hi. destruct (Nat.ltb_spec i (size l)); [lia|]. destruct (Nat.eqb_spec i (size l)); [lia|reflexivity].
Qed.

Lemma count_1 l e : NoDup l -> In e l -> count_occ Z.eq_dec l e = 1.
Proof.
  intros Hnd Hin. apply (NoDup_count_occ Z.eq_dec) with (x := e) in Hnd.
  apply (count_occ_In Z.eq_dec) in Hin. lia.
Qed.

(* the law of draw needs no order: occurrences over size, on every tree whose stored sizes are right
   (on Leaf both sides are 0) *)
Lemma draw_law e t : Ok t ->
  (prob_ct (draw_ct t) e == qn (count_occ Z.eq_dec (inorder t) e) * (1 # Pos.of_nat (size t)))%Q.
Proof.
  intros Ho. destruct (Nat.eq_dec (size t) 0) as [Hs|Hs]; [rewrite (size_0 t Hs); reflexivity|].
  rewrite <- (draw_count e t Ho), <- Qmult_assoc, (Qmult_comm (qn (size t))), inv_qn by exact Hs. ring.
Qed.

Theorem draw_uniform t e : Good t -> In e (inorder t) ->
  (prob_ct (draw_ct t) e == 1 # Pos.of_nat (size t))%Q.
Proof.
  intros [Hb [Ho _]] Hin. rewrite (draw_law e t Ho), (count_1 _ _ (sorted_NoDup _ Hb) Hin). apply Qmult_1_l.
Qed.
(* the same with the stored length, which is what the program computes *)
Theorem draw_uniform_len t e : Good t -> In e (inorder t) ->
  (prob_ct (draw_ct t) e == 1 # Pos.of_nat (len t))%Q.
Proof. intros H Hin. rewrite len_inorder, <- size_inorder by apply H. apply draw_uniform; assumption. Qed.

Lemma run_draw t : Ok t -> t <> Leaf -> forall ints,
  match fst (run_ct (draw_ct t) ints) with
  | Drew e => In e (inorder t)
  | Stuck => False
  | BadScript => True
  end /\ length (snd (run_ct (draw_ct t) ints)) <= ht t /\
  Forall (fun n => 2 <= n <= size t) (snd (run_ct (draw_ct t) ints)).
Proof.
  induction t as [|l IHl d h ls rs r IHr]; intros Ho Hne ints; [congruence|].
  destruct Ho as (Hol & Hor & _ & -> & ->). cbn [draw_ct inorder ht size].
  destruct (Nat.eqb_spec (size l + 1 + size r) 1) as [H1|H1].
  - cbn. split; [apply in_or_app; right; left; reflexivity|]. split; [lia|constructor].
  - cbn [run_ct]. destruct ints as [|i ints].
    + cbn. split; [exact I|]. split; [lia|]. constructor; [lia|constructor].
    + destruct (Nat.ltb_spec i (size l + 1 + size r)) as [Hi|Hi];
        [|cbn; split; [exact I|split; [lia|constructor; [lia|constructor]]]].
      destruct (Nat.ltb_spec i (size l)) as [Ha|Ha]; [|destruct (Nat.eqb_spec i (size l)) as [Hb|Hb]].
      * destruct (IHl Hol) with (ints := ints) as (I1 & I2 & I3); [intros ->; cbn in Ha; lia|].
        destruct (run_ct (draw_ct l) ints) as [res q]. cbn [fst snd length] in *.
        split; [destruct res; auto; apply in_or_app; left; assumption|]. split; [lia|].
        constructor; [lia|]. eapply Forall_impl; [|exact I3]. cbn. intros; lia.
      * cbn. split; [apply in_or_app; right; left; reflexivity|]. split; [lia|]. constructor; [lia|constructor].
      * destruct (IHr Hor) with (ints := ints) as (I1 & I2 & I3); [intros ->; cbn in Hi; lia|].
        destruct (run_ct (draw_ct r) ints) as [res q]. cbn [fst snd length] in *.
        split; [destruct res; auto; apply in_or_app; right; right; assumption|]. split; [lia|].
        constructor; [lia|]. eapply Forall_impl; [|exact I3]. cbn. intros; lia.
Qed.
