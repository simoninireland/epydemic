(* gf_from_network: the coefficients are the degree fractions, so a sum weighted by them is a mean
   over the nodes; the handshake lemma on the finite graph model. *)
From Coq Require Import List ZArith QArith Bool Arith Lia Setoid Morphisms.
From EpyV Require Import Lib.Lists Model.GF Model.GFNet Proofs.GFSum Proofs.GFCoeff Proofs.GFDeriv Proofs.GFEval.
Import ListNotations.
Open Scope Q_scope.

Lemma count_cons i d l : count i (d :: l) = ((if (i =? d)%nat then 1 else 0) + count i l)%nat.
Proof. unfold count. simpl. destruct (i =? d)%nat; reflexivity. Qed.

Lemma count_above l i : (list_max l < i)%nat -> count i l = O.
Proof.
  induction l as [|d l IH]; intros H; [reflexivity|]. simpl in H. rewrite count_cons, IH by lia.
  destruct (Nat.eqb_spec i d); [lia|reflexivity].
Qed.

Lemma hist_sum (w : nat -> Q) l n : (list_max l < n)%nat -> sumn n (fun i => w i * qn (count i l)) == lsum (map w l).
Proof.
  induction l as [|d l IH]; intros H.
  - apply sumn_zero. intros i _. apply Qmult_0_r.
  - simpl in H. cbn [map lsum fold_right]. rewrite <- IH, <- (sumn_pick n d w), <- sumn_add by lia.
    apply sumn_ext. intros i _. rewrite count_cons, qn_add.
    destruct (i =? d)%nat; [change (qn 1) with 1 | change (qn 0) with 0]; ring.
Qed.

Lemma sum_indicator (a : Z) l : NoDup l -> In a l -> list_sum (map (fun v => if (a =? v)%Z then 1%nat else O) l) = 1%nat.
Proof.
  induction 1 as [|x l Hx Hnd IH]; intros Hin; [contradiction|]. simpl.
  destruct (Z.eqb_spec a x) as [->|Hne].
  - rewrite (map_ext_in _ (fun _ => O)).
    + clear. induction l; simpl; auto.
    + intros v Hv. destruct (Z.eqb_spec x v); [subst; contradiction | reflexivity].
  - destruct Hin as [->|Hin]; [contradiction|]. rewrite IH by assumption. reflexivity.
Qed.

(* a self-loop contributes 2 to the degree of its node *)
Theorem handshake g : graph_wf g -> list_sum (degrees g) = (2 * length (g_edges g))%nat.
Proof.
  unfold degrees. intros [Hnd Hends]. revert Hends. induction (g_edges g) as [|e es IH]; intros Hends.
  - simpl. clear. induction (g_nodes g); simpl; auto.
  - cbn [degree length]. rewrite list_sum_map_add, IH by (intros e' He'; apply Hends; right; exact He').
    destruct (Hends e (or_introl eq_refl)) as [H1 H2].
    unfold ends_at. rewrite list_sum_map_add, (sum_indicator (fst e)), (sum_indicator (snd e)) by assumption. lia.
Qed.

Lemma gf_from_network_Some g f : gf_from_network g = Some f ->
  g_nodes g <> [] /\
  f = from_coeffs (map (fun i => qn (count i (degrees g)) / qn (length (g_nodes g))) (seq 0 (S (list_max (degrees g))))).
Proof.
  unfold gf_from_network. rewrite <- (map_length (degree (g_edges g)) (g_nodes g)). fold (degrees g).
  destruct (degrees g) as [|d ds] eqn:E; [discriminate|]. intros [= <-]. split; [|reflexivity].
  intros N. unfold degrees in E. rewrite N in E. discriminate.
Qed.

Theorem net_coeff g f : gf_from_network g = Some f ->
  forall i, coeff f i == qn (count i (degrees g)) / qn (length (g_nodes g)).
Proof.
  intros H i. apply gf_from_network_Some in H. destruct H as [_ ->].
  rewrite coeff_from_coeffs, nth_map_seq.
  destruct (Nat.ltb_spec i (S (list_max (degrees g)))); [reflexivity|].
  rewrite count_above by lia. reflexivity.
Qed.

(* the mean of w(degree) over the nodes, read off the coefficients *)
Lemma net_moment g f w n : gf_from_network g = Some f -> (list_max (degrees g) < n)%nat ->
  sumn n (fun i => w i * coeff f i) == lsum (map w (degrees g)) / qn (length (g_nodes g)).
Proof.
  intros H Hn. rewrite <- (hist_sum w _ n Hn). unfold Qdiv. rewrite <- sumn_scale_r.
  apply sumn_ext. intros i _. rewrite (net_coeff g f H). unfold Qdiv. ring.
Qed.

Lemma net_shape g f : gf_from_network g = Some f ->
  leaves_within (fun m => m) f /\ degb (fun m => m) f = S (list_max (degrees g)).
Proof.
  intros H. apply gf_from_network_Some in H. destruct H as [_ ->].
  split; [apply from_coeffs_within; lia | cbn [degb from_coeffs]; rewrite map_length; apply seq_length].
Qed.

Lemma net_nodes_nz g f : gf_from_network g = Some f -> ~ qn (length (g_nodes g)) == 0.
Proof.
  intros H. apply gf_from_network_Some in H. apply qn_pos. destruct (g_nodes g); [tauto | simpl; lia].
Qed.
