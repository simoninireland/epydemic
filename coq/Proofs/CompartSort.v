(* C07, kernel loci.  First, for the kernel alone: strictly ascending lists of kernel elements
   ([ssorted]; ins and del keep them, two with the same members are equal), and what the actions
   of a user program do to the loci and the world ([act_loci], do_action_lw, run_actions_lw).
   Then Model/Compart.v: ksort yields such a list, and the explicit add/discard actions an event
   function hands to the kernel ([sync_actions]) make the kernel's ordered copy of every locus
   equal to [ksort] of the contents the handlers of Model/Loci.v produced. *)
From Coq Require Import List ZArith QArith Bool Arith Lia.
From EpyV Require Import Model.Kernel Model.Loci Model.Compart Proofs.KernelBase Proofs.KernelMember.
Import ListNotations.

Local Notation kelem_t := Kernel.elem.

Lemma ltb_irrefl : forall x : kelem_t, elem_ltb x x = false.
Proof. intros [n|n m]; cbn; [apply Z.ltb_irrefl|]. rewrite !Z.ltb_irrefl, Z.eqb_refl. reflexivity. Qed.

Lemma ltb_trans : forall x y z : kelem_t, elem_ltb x y = true -> elem_ltb y z = true -> elem_ltb x z = true.
Proof.
  intros [a|a1 a2] [b|b1 b2] [c|c1 c2]; cbn; try discriminate; try reflexivity.
  - rewrite !Z.ltb_lt. lia.
  - rewrite !orb_true_iff, !andb_true_iff, !Z.ltb_lt, !Z.eqb_eq. lia.
Qed.

Lemma ltb_total : forall x y : kelem_t, elem_ltb x y = false -> Kernel.elem_eqb x y = false -> elem_ltb y x = true.
Proof.
  intros [a|a1 a2] [b|b1 b2]; cbn; try discriminate; try reflexivity.
  - rewrite Z.ltb_ge, Z.eqb_neq, Z.ltb_lt. lia.
  - rewrite orb_false_iff, !andb_false_iff, orb_true_iff, andb_true_iff, !Z.ltb_ge, !Z.eqb_neq, !Z.ltb_lt, Z.eqb_eq. lia.
Qed.

Fixpoint ssorted (l : list kelem_t) : Prop :=
  match l with
  | [] => True
  | x :: l' => (forall y, In y l' -> elem_ltb x y = true) /\ ssorted l'
  end.

Lemma ins_In : forall x l y, In y (ins x l) <-> y = x \/ In y l.
Proof.
  intros x l y. induction l as [|z l IH]; cbn [ins].
  - cbn. intuition.
  - destruct (elem_ltb x z); [cbn; intuition|].
    destruct (Kernel.elem_eqb x z) eqn:E.
    + apply elem_eqb_eq in E. subst z. cbn. intuition.
    + cbn [In]. rewrite IH. intuition.
Qed.

Lemma ins_ssorted : forall x l, ssorted l -> ssorted (ins x l).
Proof.
  intros x l. induction l as [|z l IH]; intros H; cbn [ins].
  - cbn. split; [intros y []|exact I].
  - destruct H as [H1 H2]. destruct (elem_ltb x z) eqn:L.
    + cbn [ssorted]. split; [|split; assumption].
      intros y [<-|Hy]; [exact L | eapply ltb_trans; [exact L | apply H1, Hy]].
    + destruct (Kernel.elem_eqb x z) eqn:E; [split; assumption|].
      cbn [ssorted]. split; [|apply IH, H2].
      intros y Hy. apply ins_In in Hy. destruct Hy as [->|Hy]; [apply ltb_total; [exact L | exact E] | apply H1, Hy].
Qed.

Lemma ssorted_notin : forall x l, ssorted (x :: l) -> ~ In x l.
Proof. intros x l [H _] Hin. apply H in Hin. rewrite ltb_irrefl in Hin. discriminate. Qed.

Lemma del_In : forall x l y, ssorted l -> (In y (del x l) <-> In y l /\ y <> x).
Proof.
  intros x l y. induction l as [|z l IH]; intros H; cbn [del].
  - cbn. intuition.
  - destruct (Kernel.elem_eqb x z) eqn:E.
    + apply elem_eqb_eq in E. subst z. pose proof (ssorted_notin _ _ H) as Hn. cbn [In]. split.
      * intros Hy. split; [right; exact Hy | intros ->; contradiction].
      * intros [[->|Hy] Hne]; [congruence | exact Hy].
    + destruct H as [H1 H2]. cbn [In]. rewrite (IH H2). split.
      * intros [<-|[Hy Hne]]; [|tauto]. split; [left; reflexivity|]. intros ->.
        rewrite (proj2 (elem_eqb_eq x x) eq_refl) in E. discriminate.
      * intros [[<-|Hy] Hne]; [left; reflexivity | right; tauto].
Qed.

Lemma del_ssorted : forall x l, ssorted l -> ssorted (del x l).
Proof.
  intros x l. induction l as [|z l IH]; intros H; cbn [del]; [exact I|].
  destruct H as [H1 H2]. destruct (Kernel.elem_eqb x z); [exact H2|].
  cbn [ssorted]. split; [|apply IH, H2]. intros y Hy. apply del_In in Hy; [|exact H2]. apply H1, Hy.
Qed.

Lemma ssorted_ext : forall a b, ssorted a -> ssorted b -> (forall x, In x a <-> In x b) -> a = b.
Proof.
  induction a as [|x a IH]; intros b Ha Hb Hab.
  - destruct b as [|y b]; [reflexivity|]. exfalso. apply (proj2 (Hab y)). left. reflexivity.
  - destruct b as [|y b]; [exfalso; apply (proj1 (Hab x)); left; reflexivity|].
    assert (Hxy : x = y).
    { destruct (proj1 (Hab x) (or_introl eq_refl)) as [E|Hx]; [symmetry; exact E|].
      destruct (proj2 (Hab y) (or_introl eq_refl)) as [E|Hy]; [exact E|].
      apply (proj1 Ha) in Hy. apply (proj1 Hb) in Hx.
      pose proof (ltb_trans _ _ _ Hx Hy) as C. rewrite ltb_irrefl in C. discriminate. }
    subst y. f_equal. apply IH; [exact (proj2 Ha) | exact (proj2 Hb)|].
    intros z. pose proof (ssorted_notin _ _ Ha) as Na. pose proof (ssorted_notin _ _ Hb) as Nb. split; intros Hz.
    + destruct (proj1 (Hab z) (or_intror Hz)) as [E|H]; [subst z; contradiction | exact H].
    + destruct (proj2 (Hab z) (or_intror Hz)) as [E|H]; [subst z; contradiction | exact H].
Qed.

Lemma fold_ins_In : forall (A : list kelem_t) l y, In y (fold_left (fun acc x => ins x acc) A l) <-> In y A \/ In y l.
Proof.
  induction A as [|a A IH]; intros l y; cbn [fold_left]; [cbn; tauto|].
  rewrite IH, ins_In. cbn [In]. intuition.
Qed.
Lemma fold_ins_ssorted : forall (A : list kelem_t) l, ssorted l -> ssorted (fold_left (fun acc x => ins x acc) A l).
Proof. induction A as [|a A IH]; intros l H; cbn [fold_left]; [exact H|]. apply IH, ins_ssorted, H. Qed.

Lemma ksort_fold : forall l acc, fold_left (fun acc x => ins (kelem x) acc) l acc
                               = fold_left (fun acc x => ins x acc) (map kelem l) acc.
Proof. induction l as [|x l IH]; intros acc; cbn; [reflexivity | apply IH]. Qed.

Lemma ksort_ssorted : forall l, ssorted (ksort l).
Proof. intros l. unfold ksort. rewrite ksort_fold. apply fold_ins_ssorted. exact I. Qed.

Lemma ksort_In : forall l y, In y (ksort l) <-> In y (map kelem l).
Proof. intros l y. unfold ksort. rewrite ksort_fold, fold_ins_In. cbn. tauto. Qed.

Lemma kelem_inj : forall a b, kelem a = kelem b -> a = b.
Proof. intros [n|n m] [n'|n' m']; cbn; intros E; inversion E; reflexivity. Qed.

Lemma ksort_In_kelem : forall l x, In (kelem x) (ksort l) <-> In x l.
Proof.
  intros l x. rewrite ksort_In, in_map_iff. split.
  - intros [z [E Hz]]. apply kelem_inj in E. subst. exact Hz.
  - intros H. exists x. split; [reflexivity | exact H].
Qed.

Lemma ksort_nil_iff : forall l, ksort l = [] <-> l = [].
Proof.
  intros l. split; [|intros ->; reflexivity]. intros H. destruct l as [|x l]; [reflexivity|].
  exfalso. assert (Hx : In (kelem x) (ksort (x :: l))) by (apply ksort_In_kelem; left; reflexivity).
  rewrite H in Hx. destruct Hx.
Qed.

Lemma fold_del_spec : forall (D : list kelem_t) l, ssorted l ->
  ssorted (fold_left (fun acc x => del x acc) D l) /\
  forall y, In y (fold_left (fun acc x => del x acc) D l) <-> In y l /\ ~ In y D.
Proof.
  induction D as [|d D IH]; intros l H; cbn [fold_left]; [split; [exact H | cbn; tauto]|].
  destruct (IH (del d l) (del_ssorted d l H)) as [S1 S2]. split; [exact S1|].
  intros y. rewrite S2, (del_In d l y H). cbn [In]. intuition.
Qed.

(* what the actions [sync_from] emits for one locus (kernel copy o, new contents ns) make of a list o' *)
Definition sync1 (o ns : list kelem_t) (o' : list kelem_t) : list kelem_t :=
  fold_left (fun acc x => ins x acc) (filter (fun x => negb (kmem x o)) ns)
            (fold_left (fun acc x => del x acc) (filter (fun x => negb (kmem x ns)) o) o').

Lemma sync1_eq : forall o ns, ssorted o -> ssorted ns -> sync1 o ns o = ns.
Proof.
  intros o ns Ho Hn. unfold sync1.
  destruct (fold_del_spec (filter (fun x => negb (kmem x ns)) o) o Ho) as [S1 S2].
  apply ssorted_ext; [apply fold_ins_ssorted, S1 | exact Hn|].
  intros y. rewrite fold_ins_In, S2, !filter_In, !negb_true_iff. split.
  - intros [[H _]|[H1 H2]]; [exact H|].
    destruct (kmem y ns) eqn:E; [apply mem_In, E | exfalso; apply H2; split; [exact H1 | reflexivity]].
  - intros Hy. destruct (kmem y o) eqn:E; [|left; split; [exact Hy | reflexivity]].
    right. split; [apply mem_In, E|]. intros [_ C]. pose proof (proj2 (mem_In y ns) Hy : kmem y ns = true). congruence.
Qed.

Definition act_loci (e : kelem_t) (L : list (list kelem_t)) (a : action) : list (list kelem_t) :=
  match a with
  | ALAdd l x => Kernel.upd_nth l (ins x) L
  | ALDiscard l x => Kernel.upd_nth l (del x) L
  | ALAddSelf l => Kernel.upd_nth l (ins e) L
  | ALDiscardSelf l => Kernel.upd_nth l (del e) L
  | _ => L
  end.

Section K.
Context {W : Type}.
Implicit Types s : st W.

(* lw: loci and world *)
Lemma do_action_lw p t e a s : loci (do_action p t e a s) = act_loci e (loci s) a /\ world (do_action p t e a s) = world s.
Proof.
  split; [|apply do_action_world].
  destruct a; cbn [do_action act_loci]; unfold post; try reflexivity; try (destruct (Qltb _ _); reflexivity).
  - destruct (ids s); [reflexivity|]. destruct (find_live _ _); reflexivity.
  - destruct (ids s); reflexivity.
Qed.

Lemma run_actions_lw p t e acts s :
  loci (run_actions p t e acts s) = fold_left (act_loci e) acts (loci s) /\ world (run_actions p t e acts s) = world s.
Proof.
  unfold run_actions. revert s. induction acts as [|a acts IH]; intros s; cbn [fold_left]; [split; reflexivity|].
  destruct (IH (do_action p t e a s)) as [-> ->]. destruct (do_action_lw p t e a s) as [-> ->]. split; reflexivity.
Qed.
End K.

Lemma kupd_nth_id : forall A i (L : list A), Kernel.upd_nth i (fun x => x) L = L.
Proof. intros A i L. revert i. induction L as [|x L IH]; intros [|i]; cbn; try reflexivity. rewrite IH. reflexivity. Qed.

Lemma kupd_nth_comp : forall A i (f g : A -> A) L,
  Kernel.upd_nth i f (Kernel.upd_nth i g L) = Kernel.upd_nth i (fun x => f (g x)) L.
Proof. intros A i f g L. revert i. induction L as [|x L IH]; intros [|i]; cbn; try reflexivity. rewrite IH. reflexivity. Qed.

Lemma kupd_nth_app_len : forall A (f : A -> A) pre x post,
  Kernel.upd_nth (length pre) f (pre ++ x :: post) = pre ++ f x :: post.
Proof. intros A f pre x post. induction pre as [|y pre IH]; cbn; [reflexivity|]. rewrite IH. reflexivity. Qed.

Lemma fold_upd e i (mk : kelem_t -> action) (f : kelem_t -> list kelem_t -> list kelem_t) :
  (forall x L, act_loci e L (mk x) = Kernel.upd_nth i (f x) L) -> forall (D : list kelem_t) L,
  fold_left (act_loci e) (map mk D) L = Kernel.upd_nth i (fun o => fold_left (fun acc x => f x acc) D o) L.
Proof.
  intros H. induction D as [|d D IH]; intros L; cbn [map fold_left]; [symmetry; apply kupd_nth_id|].
  rewrite IH, H, kupd_nth_comp. reflexivity.
Qed.

Lemma fold_discards : forall e i (D : list kelem_t) L,
  fold_left (act_loci e) (map (fun x => ALDiscard i x) D) L
  = Kernel.upd_nth i (fun o => fold_left (fun acc x => del x acc) D o) L.
Proof. intros e i. exact (fold_upd e i (fun x => ALDiscard i x) del (fun x L => eq_refl)). Qed.

Lemma fold_adds : forall e i (A : list kelem_t) L,
  fold_left (act_loci e) (map (fun x => ALAdd i x) A) L
  = Kernel.upd_nth i (fun o => fold_left (fun acc x => ins x acc) A o) L.
Proof. intros e i. exact (fold_upd e i (fun x => ALAdd i x) ins (fun x L => eq_refl)). Qed.

Lemma sync_from_spec : forall e new pre old, length old = length new -> Forall ssorted old ->
  fold_left (act_loci e) (sync_from (length pre) old new) (pre ++ old) = pre ++ map ksort new.
Proof.
  intros e. induction new as [|n new IH]; intros pre old Hlen Hs.
  - destruct old; [reflexivity | discriminate].
  - destruct old as [|o old]; [discriminate|]. inversion Hs as [|? ? Ho Hs']; subst.
    cbn [sync_from tl map]. rewrite !fold_left_app, fold_discards, fold_adds, kupd_nth_comp, kupd_nth_app_len.
    change (fold_left (fun a1 x1 => ins x1 a1) (filter (fun x2 => negb (kmem x2 o)) (ksort n))
              (fold_left (fun a3 x3 => del x3 a3) (filter (fun x4 => negb (kmem x4 (ksort n))) o) o))
      with (sync1 o (ksort n) o).
    rewrite (sync1_eq o (ksort n) Ho (ksort_ssorted n)).
    replace (pre ++ ksort n :: old) with ((pre ++ [ksort n]) ++ old) by (rewrite <- app_assoc; reflexivity).
    replace (S (length pre)) with (length (pre ++ [ksort n])) by (rewrite app_length; cbn; lia).
    rewrite IH; [rewrite <- app_assoc; reflexivity | cbn in Hlen; lia | exact Hs'].
Qed.

Theorem sync_actions_spec : forall e pre old new, length old = length new -> Forall ssorted old ->
  fold_left (act_loci e) (sync_actions (length pre) (pre ++ old) new) (pre ++ old) = pre ++ map ksort new.
Proof.
  intros e pre old new Hl Hs. unfold sync_actions. rewrite skipn_app, skipn_all, Nat.sub_diag. exact (sync_from_spec e new pre old Hl Hs).
Qed.
