(* Time along a Gillespie run of the dynamic kernel (Model/KernelDyn.v), for every user state W and
   dynamic table D: with probabilities >= 0 on the states reached and every ln(1/r) served > 0, a
   run that did not exhaust its fuel or oracle calls its stochastic event functions - registered
   events and appended entries - at strictly increasing times.  The invariant [TS] and its lemmas
   about runPendingEvents are Proofs/ContactStoch.v's (they are about Model/Kernel.v's state and
   generic in the table); this file has the call of an appended entry, the dynamic loop, and the loop
   of Model/Kernel.v as the case of a table without appended entries. *)
From Coq Require Import List ZArith QArith Bool Arith Lqa Sorted.
From EpyV Require Import Model.Kernel Model.KernelDyn Proofs.KernelBase Proofs.KernelLoops Proofs.KernelMember
  Proofs.KernelTime Proofs.CompartRun Proofs.ContactStoch Proofs.KernelDyn Proofs.KernelDynLoops
  Proofs.KernelDynStatic.
Import ListNotations.
Close Scope Q_scope.

Section DT.
Context {W : Type}.
Variable D : dtable W.
Notation tb := (d_tb D).
Implicit Types s : st W.
Notation Xt := (fun _ : trans W => True).

(* the times of the stochastic calls of a run, oldest first *)
Definition dctimes (cs : list (st W * @dcall W)) : list Q :=
  flat_map (fun sc => match snd sc with DEv _ t _ | DDyn _ _ t => [t] | DPost _ => [] end) cs.

Lemma dafter_htimes c s : htimes false (out (dafter D c s)) = dctimes [(s, c)] ++ htimes false (out s).
Proof.
  destruct (dafter_out D c s) as [l [A ->]].
  change (dtap c :: l ++ drec c s :: out s) with ([dtap c] ++ l ++ [drec c s] ++ out s).
  rewrite !htimes_app, (htimes_act false l A). destruct c; reflexivity.
Qed.

Lemma dctimes_one s c : (forall h, c <> DPost h) -> dctimes [(s, c)] = [snd (fst (dcall_args c))].
Proof. destruct c as [x t e|pi d t|h]; intros Hnp; [reflexivity | reflexivity | exfalso; exact (Hnp h eq_refl)]. Qed.

Lemma DSteps_htimes Xtr s0 cs s : DSteps D Xtr s0 cs s -> htimes false (out s) = rev (dctimes cs) ++ htimes false (out s0).
Proof.
  intros H. induction H as [|cs s s' H IH Hs|cs s c H IH Hok]; [reflexivity| |].
  - rewrite (dsched_out Hs). exact IH.
  - unfold dctimes. rewrite dafter_htimes, IH, flat_map_app, rev_app_distr, app_assoc. do 2 f_equal.
    destruct c; reflexivity.
Qed.

Lemma tinv_dafter c s : (forall h, c <> DPost h) -> clock s = snd (fst (dcall_args c)) ->
  tinv_st (clock s) s -> tinv_st (clock s) (dafter D c s).
Proof.
  destruct c as [x t e|pi d t|h]; intros Hnp Hc T; cbn [dafter dcall_args fst snd] in *; [| |exfalso; exact (Hnp h eq_refl)].
  - rewrite Hc in *. apply tinv_fire_event; [exact Hc | exact T].
  - rewrite Hc in *. unfold fire_dyn. set (s1 := emit _ s).
    assert (T1 : tinv_st t s1)
      by (unfold tinv_st, s1; cbn [clock queue out emit]; apply tinv_emit_at; [reflexivity | cbn; lra | exact T]).
    pose proof (tinv_umoves (run_prog_umoves tb pi (de_prog d) t (de_value d) s1) T1) as T2.
    unfold tinv_st. cbn [clock queue out emit]. apply tinv_emit_at; [reflexivity | cbn; lra | exact T2].
Qed.

(* B: what makes the probabilities >= 0, kept by scheduler moves and calls *)
Variable B : st W -> Prop.
Hypothesis B_sched : forall s s', B s -> dsched s s' -> B s'.
Hypothesis B_call : forall s c, B s -> dcall_ok D Xt c s -> B (dafter D c s).
Hypothesis B_nonneg : forall s, B s -> dnonneg D (loci s) (world s).
Variable pf : nat.

Theorem dstoch_loop_TS fuel t ev s t' ev' s' : dstoch_loop D pf fuel t ev s = (t', ev', s') -> B s /\ TS t s -> B s' /\ TS t' s'.
Proof.
  apply (dstoch_loop_inv D pf (fun t1 s1 => B s1 /\ TS t1 s1)).
  - intros t1 s1 [Hb [Hl _]]. split; [exact (B_sched _ _ Hb (dsched_set_stuck s1))|]. split; [exact Hl | left; reflexivity].
  - (* no stochastic event possible: jump to the next posted event, or leave *)
    intros t1 s1 [Hb [Hl Hg]] _. pose proof (B_sched _ _ Hb (dsched_discard s1)) as Hbd.
    destruct (head (queue (discard s1))) as [h|] eqn:Eh.
    + split; [exact (drun_pending_inv D Xt B B_sched (fun s2 h2 => B_call s2 (DPost h2)) pf _ 0 _ Hbd)|].
      destruct (run_pending tb pf (e_time h) 0 (discard s1)) as [n s2] eqn:Ep. cbn [snd].
      destruct (run_pending_oracle tb _ _ _ _ _ _ Ep) as (El & Es & Eo).
      split; [rewrite El; exact Hl|]. destruct (stuck s2) eqn:Es2; [left; reflexivity | right].
      destruct Hg as [Hg|[T F]]; [rewrite (Es eq_refl : stuck s1 = false) in Hg; discriminate|].
      destruct (tinv_jump tb pf t1 s1 h n s2 T Eh Ep Es2) as [Hth T']. split; [exact T'|].
      unfold fired_before. rewrite Eo. exact (fired_before_mono t1 _ _ Hth F).
    + split; [exact Hbd|]. split; [exact Hl|].
      destruct Hg as [Hg|[T F]]; [left; exact Hg | right; split; [apply tinv_st_discard, T | exact F]].
  - (* a stochastic event: nt > t, the posted events up to nt call nothing stochastic, then at most one call at nt *)
    intros t1 s1 x dt s3 ev1 [Hb [Hl Hg]] Ha Es.
    destruct (dstoch_select_shape D s1 x dt s3 Es) as (Hx & Edt & nr & E3). set (nt := Qred (t1 + dt)).
    assert (B3 : B s3) by (rewrite E3; exact (B_sched _ _ Hb (dsched_advance nr 1 0 s1))).
    pose proof (drun_pending_inv D Xt B B_sched (fun s2 h2 => B_call s2 (DPost h2)) pf nt 0 _ B3) as B4.
    destruct (run_pending tb pf nt 0 s3) as [n s4] eqn:Ep. cbn [snd] in *.
    destruct (run_pending_oracle tb _ _ _ _ _ _ Ep) as (El4 & Es4 & Eo4).
    set (s5 := set_clock nt s4). pose proof (B_sched _ _ B4 (dsched_set_clock nt s4) : B s5) as B5.
    assert (L5 : Forall (Qlt 0) (lns s5)) by (change (lns s5) with (lns s4); rewrite El4, E3; apply Forall_skipn; exact Hl).
    assert (Core : stuck s4 = false -> (t1 < nt)%Q /\ tinv_st nt s5 /\ fired_before t1 (out s5)).
    { intros E4. pose proof (Es4 E4) as Es3. rewrite E3 in Es3. unfold advance in Es3. cbn [stuck] in Es3.
      rewrite !orb_false_iff in Es3. destruct Es3 as [[[Es1 _] Hne] _]. destruct Hg as [Hg|[T F]]; [congruence|].
      assert (Hdt : (0 < dt)%Q).
      { rewrite Edt, Qred_correct. pose proof (dsum_rates_pos D s1 (B_nonneg s1 Hb) Ha) as Hapos.
        destruct (lns s1) as [|l0 ls]; [discriminate Hne|]. cbn [hd]. inversion Hl as [|? ? Hl0 _]; subst.
        apply Qmult_lt_0_compat; [|exact Hl0]. unfold Qdiv. rewrite Qmult_1_l. apply Qinv_lt_0_compat, Hapos. }
      assert (Hnt : (t1 < nt)%Q) by (unfold nt; rewrite Qred_correct; lra).
      split; [exact Hnt|]. split.
      - apply (tinv_run_pending tb t1 pf nt 0 s3 n s4); [rewrite E3; exact (tinv_core t1 s1 _ eq_refl T) | lra | exact Ep | exact E4].
      - unfold fired_before, s5. cbn [out set_clock]. rewrite Eo4, E3. exact F. }
    destruct (dstoch_fire_call D Xt _ _ x nt ev1 s5 Hx I eq_refl) as [->|(k & c & Hok & Hnp & Ec & ->)]; cbn [snd].
    + split; [exact B5|]. split; [exact L5|]. destruct (stuck s4) eqn:E4; [left; exact E4 | right].
      destruct (Core eq_refl) as (Hnt & T5 & F5). split; [exact T5 | apply (fired_before_mono t1); [lra | exact F5]].
    + set (s6 := advance 0 0 k s5) in *. destruct (dafter_frame D c s6 Hnp) as (_ & _ & Fl & _ & Fs).
      split; [exact (B_call _ c (B_sched _ _ B5 (dsched_advance 0 0 k s5)) Hok)|]. split; [rewrite Fl; exact L5|].
      rewrite Fs. destruct (stuck s6) eqn:Es6; [left; reflexivity | right].
      assert (E4 : stuck s4 = false) by (unfold s6, advance in Es6; cbn [stuck] in Es6; rewrite !orb_false_iff in Es6; exact (proj1 (proj1 (proj1 Es6)))).
      destruct (Core E4) as (Hnt & T5 & F5 & B5').
      split; [exact (tinv_dafter c s6 Hnp (eq_sym Ec : clock s6 = _) (tinv_core nt s5 s6 eq_refl T5))|].
      unfold fired_before. rewrite dafter_htimes, (dctimes_one s6 c Hnp), Ec.
      cbn [app]. change (out s6) with (out s5). split.
      * constructor; [exact F5|]. eapply Forall_impl; [|exact B5']. intros u Hu. cbv beta in *. lra.
      * constructor; [apply Qle_refl|]. eapply Forall_impl; [|exact B5']. intros u Hu. cbv beta in *. lra.
Qed.

(* an unstuck Gillespie run calls its stochastic event functions at strictly increasing times *)
Theorem dstoch_ctimes_strict Xtr fuel rs ls ds cs : B (setup_state tb rs ls ds) -> Forall (Qlt 0) ls ->
  let r := dstoch_run D pf fuel rs ls ds in
  r_stuck r = false -> DSteps D Xtr (setup_state tb rs ls ds) cs (r_final r) -> StronglySorted Qlt (dctimes cs).
Proof.
  intros Hb Hls. cbv zeta. unfold dstoch_run.
  destruct (dstoch_loop D pf fuel 0 0 (setup_state tb rs ls ds)) as [[t ev] s] eqn:E. cbn [r_final r_stuck]. intros Hs H.
  destruct (dstoch_loop_TS fuel 0 0 _ t ev s E (conj Hb (setup_TS tb rs ls ds Hls))) as (_ & _ & [Hst|(_ & F & _)]); [congruence|].
  rewrite (DSteps_htimes Xtr _ _ _ H), (htimes_act _ _ (proj1 (setup_state_out tb rs ls ds))), app_nil_r in F.
  apply ss_rev in F. rewrite rev_involutive in F. exact F.
Qed.

End DT.

(* ------------------------------------------------------------------ the static kernel as the case without appended entries *)
Section Static.
Context {W : Type}.
Variable tb : table W.
Variable pf : nat.
Hypothesis Hnn : nonneg_tb tb.
Implicit Types s : st W.

Lemma static_dnonneg s : dnonneg (static_dtable tb) (loci s) (world s).
Proof.
  intros x Hx. rewrite dtransitions_static in Hx. apply in_map_iff in Hx. destruct Hx as [y [<- Hy]].
  exact (proj1 (Forall_forall _ _) (transitions_nonneg tb Hnn) y Hy).
Qed.

Theorem stoch_loop_TS fuel t ev s t' ev' s' : stoch_loop tb pf fuel t ev s = (t', ev', s') -> TS t s -> TS t' s'.
Proof.
  rewrite <- dstoch_loop_static. intros E H.
  exact (proj2 (dstoch_loop_TS (static_dtable tb) (fun _ => True) (fun _ _ _ _ => I) (fun _ _ _ _ => I) (fun s1 _ => static_dnonneg s1)
                  pf fuel t ev s t' ev' s' E (conj I H))).
Qed.

(* an unstuck Gillespie run calls its stochastic event functions at strictly increasing times *)
Theorem stoch_ctimes_strict fuel rs ls ds cs : Forall (Qlt 0) ls ->
  let r := stoch_run tb pf fuel rs ls ds in
  r_stuck r = false -> Steps tb (setup_state tb rs ls ds) cs (r_final r) -> StronglySorted Qlt (ctimes false cs).
Proof.
  intros Hls. cbv zeta. unfold stoch_run.
  destruct (stoch_loop tb pf fuel 0 0 (setup_state tb rs ls ds)) as [[t ev] s] eqn:E. cbn [r_final r_stuck]. intros Hs H.
  destruct (stoch_loop_TS fuel 0 0 _ t ev s E (setup_TS tb rs ls ds Hls)) as (_ & [Hst|(_ & F & _)]); [congruence|].
  pose proof (Steps_htimes tb false _ _ _ H) as Eo. rewrite (htimes_act _ _ (proj1 (setup_state_out tb rs ls ds))), app_nil_r in Eo.
  rewrite Eo in F. apply ss_rev in F. rewrite rev_involutive in F. exact F.
Qed.

End Static.
