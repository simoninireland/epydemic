(* Basic facts about the executable model Model/Loci.v: list-sets, what a handler does to the contents
   of a locus ([adds], [drops]), dispatch through the registration table ([hits], [regs]), adjacency,
   matches. *)
From Coq Require Import List ZArith Bool Arith Lia.
From EpyV Require Import Lib.Prelude Lib.Lists Model.Loci.
Import ListNotations.

Lemma elem_eqb_eq : forall x y, elem_eqb x y = true <-> x = y.
Proof.
  intros [a|a b] [c|c d]; cbn; split; intro H; try discriminate; try congruence.
  - apply Z.eqb_eq in H. congruence.
  - inversion H. apply Z.eqb_refl.
  - apply andb_true_iff in H. destruct H as [H1 H2]. apply Z.eqb_eq in H1, H2. congruence.
  - inversion H. rewrite !Z.eqb_refl. reflexivity.
Qed.

Lemma elem_eqb_neq : forall x y, elem_eqb x y = false <-> x <> y.
Proof.
  intros x y. split.
  - intros H E. apply elem_eqb_eq in E. congruence.
  - intro H. destruct (elem_eqb x y) eqn:E; [|reflexivity]. apply elem_eqb_eq in E. contradiction.
Qed.

Lemma elem_dec : forall x y : elem, {x = y} + {x <> y}.
Proof. intros x y. destruct (elem_eqb x y) eqn:E; [left; apply elem_eqb_eq; exact E | right; apply elem_eqb_neq; exact E]. Qed.

(* zmem and lmem are Prelude's memb at Z.eqb and elem_eqb *)
Lemma zmem_In : forall c l, zmem c l = true <-> In c l.
Proof. exact (memb_In Z.eqb Z.eqb_eq). Qed.

Lemma zmem_false : forall c l, zmem c l = false <-> ~ In c l.
Proof.
  intros c l. split.
  - intros H HI. apply zmem_In in HI. congruence.
  - intro H. destruct (zmem c l) eqn:E; [|reflexivity]. apply zmem_In in E. contradiction.
Qed.

Lemma znodup_In : forall c l, In c (znodup l) <-> In c l.
Proof.
  intros c l. induction l as [|x t IH]; cbn [znodup In]; [tauto|].
  destruct (zmem x t) eqn:E; cbn [In]; rewrite IH; [|tauto].
  split; [tauto|]. intros [<-|H]; [apply zmem_In; exact E | exact H].
Qed.

Lemma lmem_In : forall x l, lmem x l = true <-> In x l.
Proof. exact (memb_In elem_eqb elem_eqb_eq). Qed.

Lemma ladd_In : forall x l y, In y (ladd x l) <-> In y l \/ y = x.
Proof.
  intros x l y. unfold ladd. destruct (lmem x l) eqn:E.
  - apply lmem_In in E. split; [tauto|]. intros [H|H]; [exact H | subst; exact E].
  - rewrite in_app_iff. cbn. split; [intros [H|[H|[]]]; [left; exact H | right; congruence] | intros [H|H]; [left; exact H | right; left; congruence]].
Qed.

Lemma ladd_NoDup : forall x l, NoDup l -> NoDup (ladd x l).
Proof.
  intros x l H. unfold ladd. destruct (lmem x l) eqn:E; [exact H|].
  apply NoDup_app_iff. split; [exact H|]. split; [constructor; [intros [] | constructor]|].
  intros y Hy [<-|[]]. apply lmem_In in Hy. congruence.
Qed.

Lemma ldiscard_In : forall x l y, In y (ldiscard x l) <-> In y l /\ y <> x.
Proof.
  intros x l y. unfold ldiscard. rewrite filter_In. split; intros [H1 H2]; split; try exact H1.
  - intro HE. subst. rewrite (proj2 (elem_eqb_eq x x) eq_refl) in H2. discriminate.
  - apply negb_true_iff, elem_eqb_neq. congruence.
Qed.

Lemma ldiscard_NoDup : forall x l, NoDup l -> NoDup (ldiscard x l).
Proof. intros x l H. unfold ldiscard. apply NoDup_filter. exact H. Qed.

Lemma enodup_In : forall x l, In x (enodup l) <-> In x l.
Proof.
  intros x l. induction l as [|a t IH]; cbn [enodup In]; [tauto|].
  destruct (lmem a t) eqn:E; cbn [In]; rewrite IH; [|tauto].
  split; [tauto|]. intros [<-|H]; [apply lmem_In; exact E | exact H].
Qed.

Lemma enodup_NoDup : forall l, NoDup (enodup l).
Proof.
  induction l as [|a t IH]; cbn; [constructor|].
  destruct (lmem a t) eqn:E; [exact IH|].
  constructor; [|exact IH]. rewrite enodup_In. intro H. apply lmem_In in H. congruence.
Qed.

(* what a handler does to the contents of a locus, whatever they are: it puts in exactly the elements
   of A, or takes out exactly those of D, and keeps the list duplicate-free *)
Definition adds (h : list elem -> list elem) (A : elem -> Prop) : Prop :=
  (forall l x, In x (h l) <-> In x l \/ A x) /\ (forall l, NoDup l -> NoDup (h l)).
Definition drops (h : list elem -> list elem) (D : elem -> Prop) : Prop :=
  (forall l x, In x (h l) <-> In x l /\ ~ D x) /\ (forall l, NoDup l -> NoDup (h l)).

Lemma adds_iter : forall h A k, adds h A -> adds (Nat.iter k h) (fun x => k <> 0 /\ A x).
Proof.
  intros h A k [HA HN]. split.
  - intros l x. induction k as [|k IH]; cbn; [tauto|]. rewrite HA, IH. split.
    + intros [[H|[_ H]]|H]; [left; exact H | right; split; [discriminate | exact H] ..].
    + intros [H|[_ H]]; [left; left; exact H | right; exact H].
  - intros l Hl. induction k as [|k IH]; cbn; [exact Hl | apply HN, IH].
Qed.

Lemma drops_iter : forall h D k, drops h D -> drops (Nat.iter k h) (fun x => k <> 0 /\ D x).
Proof.
  intros h D k [HD HN]. split.
  - intros l x. induction k as [|k IH]; cbn; [tauto|]. rewrite HD, IH. split.
    + intros [[H1 _] H2]. split; [exact H1 | intros [_ H]; exact (H2 H)].
    + intros [H1 H2]. split; [split; [exact H1|] |]; intro H; apply H2; [destruct H as [_ H] |]; split; try discriminate; exact H.
  - intros l Hl. induction k as [|k IH]; cbn; [exact Hl | apply HN, IH].
Qed.

Lemma iter_id : forall A (f : A -> A), (forall x, f x = x) -> forall k x, Nat.iter k f x = x.
Proof. intros A f H k x. induction k as [|k IH]; [reflexivity|]. cbn. rewrite H. exact IH. Qed.

Lemma adds_id : adds (fun l => l) (fun _ => False).
Proof. split; [intros; tauto | auto]. Qed.
Lemma drops_id : drops (fun l => l) (fun _ => False).
Proof. split; [intros; tauto | auto]. Qed.

Lemma drops_fold : forall (B : Type) (step : list elem -> B -> list elem) (D : B -> elem -> Prop),
  (forall b, drops (fun l => step l b) (D b)) ->
  forall bs, drops (fun l => fold_left step bs l) (fun x => exists b, In b bs /\ D b x).
Proof.
  intros B step D H bs. split.
  - induction bs as [|b t IH]; intros l x; cbn.
    + split; [intro Hx; split; [exact Hx | intros [b [[] _]]] | tauto].
    + rewrite IH, (proj1 (H b)). split.
      * intros [[H1 H2] H3]. split; [exact H1|]. intros [b' [[<-|Hb] Hd]]; [exact (H2 Hd) | apply H3; exists b'; tauto].
      * intros [H1 H2]. split; [split; [exact H1|] |]; [intro Hd | intros [b' [Hb Hd]]]; apply H2; [exists b | exists b']; cbn; tauto.
  - induction bs as [|b t IH]; intros l Hl; cbn; [exact Hl | apply IH, (H b), Hl].
Qed.

Lemma adds_fold : forall (B : Type) (step : list elem -> B -> list elem) (A : B -> elem -> Prop),
  (forall b, adds (fun l => step l b) (A b)) ->
  forall bs, adds (fun l => fold_left step bs l) (fun x => exists b, In b bs /\ A b x).
Proof.
  intros B step A H bs. split.
  - induction bs as [|b t IH]; intros l x; cbn.
    + split; [tauto | intros [Hx|[b [[] _]]]; exact Hx].
    + rewrite IH, (proj1 (H b)). split.
      * intros [[H1|H1]|[b' [H1 H2]]]; [left; exact H1 | right; exists b; cbn; tauto | right; exists b'; cbn; tauto].
      * intros [H1|[b' [[<-|H1] H2]]]; [left; left; exact H1 | left; right; exact H2 | right; exists b'; tauto].
  - induction bs as [|b t IH]; intros l Hl; cbn; [exact Hl | apply IH, (H b), Hl].
Qed.

Lemma upd_nth_length : forall A i (f : A -> A) l, length (upd_nth i f l) = length l.
Proof. intros A i f l. revert i. induction l as [|x t IH]; intros [|i]; cbn; try reflexivity. rewrite IH. reflexivity. Qed.

Lemma upd_nth_nth : forall A (d : A) i f l j, j < length l ->
  nth j (upd_nth i f l) d = if Nat.eqb j i then f (nth j l d) else nth j l d.
Proof.
  intros A d i f l. revert i. induction l as [|x t IH]; intros i j Hj; cbn in Hj; [lia|].
  destruct i as [|i]; destruct j as [|j]; cbn; try reflexivity.
  apply IH. lia.
Qed.

Fixpoint cnt (i : nat) (l : list nat) : nat :=
  match l with [] => 0 | x :: t => (if Nat.eqb i x then 1 else 0) + cnt i t end.

Lemma cnt_app : forall i a b, cnt i (a ++ b) = cnt i a + cnt i b.
Proof. intros i a b. induction a as [|x t IH]; cbn; [reflexivity | rewrite IH; lia]. Qed.

Lemma fold_upd_length : forall A (g : nat -> A -> A) is (L : list A),
  length (fold_left (fun L i => upd_nth i (g i) L) is L) = length L.
Proof. intros A g is. induction is as [|i t IH]; intros L; cbn; [reflexivity | rewrite IH, upd_nth_length; reflexivity]. Qed.

Lemma iter_succ_r : forall A (f : A -> A) k x, Nat.iter (S k) f x = Nat.iter k f (f x).
Proof. intros A f k x. induction k as [|k IH]; cbn; [reflexivity|]. cbn in IH. rewrite IH. reflexivity. Qed.

Lemma fold_upd_nth : forall A (d : A) (g : nat -> A -> A) is (L : list A) j, j < length L ->
  nth j (fold_left (fun L i => upd_nth i (g i) L) is L) d = Nat.iter (cnt j is) (g j) (nth j L d).
Proof.
  intros A d g is. induction is as [|i t IH]; intros L j Hj; cbn; [reflexivity|].
  rewrite IH by (rewrite upd_nth_length; exact Hj).
  rewrite upd_nth_nth by exact Hj.
  destruct (Nat.eqb j i) eqn:E; cbn; [|reflexivity].
  apply Nat.eqb_eq in E. subst i. rewrite <- iter_succ_r. reflexivity.
Qed.

Fixpoint zcount (c : Z) (l : list Z) : nat :=
  match l with [] => 0 | x :: t => (if Z.eqb c x then 1 else 0) + zcount c t end.

Lemma cnt_const : forall i j (l : list Z), cnt i (map (fun _ => j) l) = if Nat.eqb i j then length l else 0.
Proof. intros i j l. induction l as [|x t IH]; cbn; [destruct (Nat.eqb i j); reflexivity | rewrite IH; destruct (Nat.eqb i j); reflexivity]. Qed.

Lemma filter_eqb_length : forall c l, length (filter (Z.eqb c) l) = zcount c l.
Proof. intros c l. induction l as [|x t IH]; cbn; [reflexivity|]. destruct (Z.eqb c x); cbn; rewrite IH; reflexivity. Qed.

Lemma cnt_effects_below : forall tbl s c j, j < s -> cnt j (effects_from s tbl c) = 0.
Proof.
  induction tbl as [|sp t IH]; intros s c j H; cbn [effects_from]; [reflexivity|].
  rewrite cnt_app, cnt_const, (proj2 (Nat.eqb_neq j s) (Nat.lt_neq _ _ H)). apply IH, Nat.lt_lt_succ_r, H.
Qed.

Lemma cnt_effects_from : forall tbl s c j, j < length tbl ->
  cnt (s + j) (effects_from s tbl c) = zcount c (compartments_of (nth j tbl default_spec)).
Proof.
  induction tbl as [|sp t IH]; intros s c j H; cbn [length] in H; [inversion H|].
  cbn [effects_from]. rewrite cnt_app, cnt_const, filter_eqb_length. destruct j as [|j]; cbn [nth].
  - rewrite Nat.add_0_r, Nat.eqb_refl, cnt_effects_below by apply Nat.lt_succ_diag_r. apply Nat.add_0_r.
  - rewrite (proj2 (Nat.eqb_neq (s + S j) s)) by lia. rewrite <- Nat.add_succ_comm. apply IH, Nat.succ_lt_mono, H.
Qed.

Lemma cnt_effects : forall tbl c j, j < length tbl ->
  cnt j (effects tbl c) = zcount c (compartments_of (nth j tbl default_spec)).
Proof. intros tbl c j. exact (cnt_effects_from tbl 0 c j). Qed.

(* number of handler calls a locus receives for a list of (current) compartments *)
Fixpoint hits (sp : spec) (cs : list (option Z)) : nat :=
  match cs with
  | [] => 0
  | None :: t => hits sp t
  | Some c :: t => zcount c (compartments_of sp) + hits sp t
  end.

Lemma run_handlers_length : forall tbl h cs L, length (run_handlers tbl h cs L) = length L.
Proof.
  intros tbl h cs. unfold run_handlers. induction cs as [|c t IH]; intros L; cbn; [reflexivity|].
  rewrite IH. destruct c; [apply fold_upd_length | reflexivity].
Qed.

Lemma iter_plus : forall A (f : A -> A) a b x, Nat.iter (a + b) f x = Nat.iter b f (Nat.iter a f x).
Proof.
  intros A f a b x. rewrite Nat.add_comm. induction b as [|b IH]; [reflexivity|].
  change (f (Nat.iter (b + a) f x) = f (Nat.iter b f (Nat.iter a f x))). rewrite IH. reflexivity.
Qed.

Lemma run_handlers_nth : forall tbl h cs L j, length L = length tbl -> j < length tbl ->
  nth j (run_handlers tbl h cs L) [] =
  Nat.iter (hits (nth j tbl default_spec) cs) (h (nth j tbl default_spec)) (nth j L []).
Proof.
  intros tbl h cs. unfold run_handlers. induction cs as [|c t IH]; intros L j HL Hj; cbn [fold_left hits]; [reflexivity|].
  destruct c as [c|].
  - rewrite IH by (rewrite ?fold_upd_length; assumption).
    rewrite (fold_upd_nth _ [] (fun i => h (nth i tbl default_spec))) by (rewrite HL; exact Hj).
    rewrite cnt_effects by exact Hj. rewrite iter_plus. reflexivity.
  - apply IH; assumption.
Qed.

(* which compartments a locus is registered under *)
Definition regs (sp : spec) (c : Z) : Prop :=
  match sp with
  | NodeLocus c0 => c = c0
  | EdgeLocus l r => c = l \/ c = r
  | MultiEdgeLocus l rs => In c rs
  end.

Lemma zcount_pos : forall c l, zcount c l <> 0 <-> In c l.
Proof.
  intros c l. induction l as [|x t IH]; cbn; [split; [congruence | intros []]|].
  destruct (Z.eqb c x) eqn:E.
  - apply Z.eqb_eq in E. subst. split; [intros _; left; reflexivity | intros _; discriminate].
  - apply Z.eqb_neq in E. cbn. rewrite IH. split; [intro H; right; exact H | intros [H|H]; [congruence | exact H]].
Qed.

Lemma compartments_regs : forall sp c, In c (compartments_of sp) <-> regs sp c.
Proof.
  intros [c0|l r|l rs] c; cbn.
  - split; [intros [H|[]]; congruence | intro H; left; congruence].
  - split; [intros [H|[H|[]]]; [left|right]; congruence | intros [H|H]; [left|right;left]; congruence].
  - apply znodup_In.
Qed.

Lemma hits_pos : forall sp cs, hits sp cs <> 0 <-> exists c, In (Some c) cs /\ regs sp c.
Proof.
  intros sp cs. induction cs as [|[c|] t IH]; cbn.
  - split; [congruence | intros [c [[] _]]].
  - split.
    + intro H. destruct (zcount c (compartments_of sp)) eqn:E.
      * cbn in H. apply IH in H. destruct H as [c' [H1 H2]]. exists c'. split; [right; exact H1 | exact H2].
      * exists c. split; [left; reflexivity|]. apply compartments_regs, zcount_pos. rewrite E. discriminate.
    + intros [c' [[H1|H1] H2]].
      * inversion H1. subst c'. apply compartments_regs, zcount_pos in H2. lia.
      * assert (H : hits sp t <> 0) by (apply IH; exists c'; split; assumption). lia.
  - rewrite IH. split; intros [c [H1 H2]]; exists c; (split; [|exact H2]).
    + right. exact H1.
    + destruct H1 as [H1|H1]; [discriminate | exact H1].
Qed.

Definition adj (s : state) (a b : Z) : Prop := adjb (st_edges s) a b = true.

Lemma same_edge_spec : forall a b e, same_edge a b e = true <-> e = (a, b) \/ e = (b, a).
Proof.
  intros a b [x y]. unfold same_edge. cbn. rewrite orb_true_iff, !andb_true_iff, !Z.eqb_eq.
  split; [intros [[-> ->]|[-> ->]]; [left|right]; reflexivity | intros [H|H]; inversion H; [left|right]; split; reflexivity].
Qed.

Lemma adjb_spec : forall es a b, adjb es a b = true <-> In (a, b) es \/ In (b, a) es.
Proof.
  intros es a b. unfold adjb. rewrite existsb_exists. split.
  - intros [e [He Hs]]. apply same_edge_spec in Hs. destruct Hs; subst; tauto.
  - intros [H|H]; [exists (a, b) | exists (b, a)]; (split; [exact H | apply same_edge_spec; tauto]).
Qed.

Lemma adjb_sym : forall es a b, adjb es a b = adjb es b a.
Proof.
  intros es a b. destruct (adjb es a b) eqn:E1, (adjb es b a) eqn:E2; try reflexivity.
  - apply adjb_spec in E1. assert (H : adjb es b a = true) by (apply adjb_spec; tauto). congruence.
  - apply adjb_spec in E2. assert (H : adjb es a b = true) by (apply adjb_spec; tauto). congruence.
Qed.

Lemma adjb_filter : forall (f : Z * Z -> bool) es a b, f (b, a) = f (a, b) ->
  (adjb (filter f es) a b = true <-> adjb es a b = true /\ f (a, b) = true).
Proof.
  intros f es a b Hf. rewrite !adjb_spec, !filter_In, Hf. split.
  - intros [[H F]|[H F]]; (split; [|exact F]); [left|right]; exact H.
  - intros [[H|H] F]; [left|right]; split; assumption.
Qed.

Lemma same_edge_sym : forall n m a b, same_edge n m (b, a) = same_edge n m (a, b).
Proof.
  intros n m a b. unfold same_edge. cbn [fst snd].
  rewrite orb_comm, (andb_comm (Z.eqb b m)), (andb_comm (Z.eqb b n)). reflexivity.
Qed.

Lemma adjb_snoc : forall es n m a b,
  adjb (es ++ [(n, m)]) a b = true <-> adjb es a b = true \/ (a = n /\ b = m) \/ (a = m /\ b = n).
Proof.
  intros es n m a b. unfold adjb. rewrite existsb_app, orb_true_iff. cbn [existsb]. rewrite orb_false_r, same_edge_spec.
  split.
  - intros [H|[H|H]]; [left; exact H | right; left | right; right]; inversion H; split; reflexivity.
  - intros [H|[[-> ->]|[-> ->]]]; [left; exact H | right; left; reflexivity | right; right; reflexivity].
Qed.

Lemma incident_In : forall es n e, In e (incident es n) <-> fst e = n /\ adjb es n (snd e) = true.
Proof.
  intros es n [x y]. unfold incident. rewrite in_flat_map. cbn. split.
  - intros [[a b] [He Hi]]. cbn in Hi.
    destruct (Z.eqb a n) eqn:E1.
    + apply Z.eqb_eq in E1. subst a. destruct Hi as [Hi|[]]. inversion Hi. subst. split; [reflexivity|]. apply adjb_spec. left. exact He.
    + destruct (Z.eqb b n) eqn:E2; [|destruct Hi].
      apply Z.eqb_eq in E2. subst b. destruct Hi as [Hi|[]]. inversion Hi. subst. split; [reflexivity|]. apply adjb_spec. right. exact He.
  - intros [Hx Ha]. subst x. apply adjb_spec in Ha. destruct Ha as [Ha|Ha].
    + exists (n, y). split; [exact Ha|]. cbn. rewrite Z.eqb_refl. left. reflexivity.
    + exists (y, n). split; [exact Ha|]. cbn. destruct (Z.eqb y n) eqn:E.
      * apply Z.eqb_eq in E. subst. left. reflexivity.
      * rewrite Z.eqb_refl. left. reflexivity.
Qed.

Lemma matches_qual : forall sp s n m,
  match matches sp (getc s n) (getc s m) with
  | Fwd => qual sp s n m = true
  | Bwd => qual sp s m n = true
  | NoMatch => qual sp s n m = false /\ qual sp s m n = false
  end.
Proof.
  intros [c|l r|l rs] s n m; cbn [matches qual]; [split; reflexivity | |].
  - rewrite (andb_comm (ceq (getc s m) l)). destruct (ceq (getc s n) r && ceq (getc s m) l); [reflexivity|].
    destruct (ceq (getc s n) l && ceq (getc s m) r); [reflexivity | split; reflexivity].
  - rewrite (andb_comm (ceq (getc s m) l)). destruct (ceq (getc s n) l && cin (getc s m) rs); [reflexivity|].
    destruct (cin (getc s n) rs && ceq (getc s m) l); [reflexivity | split; reflexivity].
Qed.

Lemma is_match_qual : forall sp s n m,
  is_match (matches sp (getc s n) (getc s m)) = true <-> qual sp s n m = true \/ qual sp s m n = true.
Proof.
  intros sp s n m. pose proof (matches_qual sp s n m) as H.
  destruct (matches sp (getc s n) (getc s m)); cbn [is_match]; [tauto | tauto |].
  destruct H as [-> ->]. split; [discriminate | intros [H|H]; discriminate].
Qed.

Lemma ceq_true : forall a c, ceq a c = true <-> a = Some c.
Proof. intros [x|] c; cbn; [rewrite Z.eqb_eq; split; congruence | split; discriminate]. Qed.
Lemma cin_true : forall a rs, cin a rs = true <-> exists c, a = Some c /\ In c rs.
Proof.
  intros [x|] rs; cbn.
  - rewrite zmem_In. split; [intro H; exists x; tauto | intros [c [H1 H2]]; congruence].
  - split; [discriminate | intros [c [H _]]; discriminate].
Qed.

Lemma qual_true : forall sp s a b, qual sp s a b = true <->
  match sp with
  | NodeLocus _ => False
  | EdgeLocus l r => getc s a = Some l /\ getc s b = Some r
  | MultiEdgeLocus l rs => getc s a = Some l /\ exists c, getc s b = Some c /\ In c rs
  end.
Proof.
  intros [c|l r|l rs] s a b; cbn [qual].
  - split; [discriminate | intros []].
  - rewrite andb_true_iff, !ceq_true. reflexivity.
  - rewrite andb_true_iff, ceq_true, cin_true. reflexivity.
Qed.

Lemma qual_regs : forall sp s a b, wf_spec sp = true -> qual sp s a b = true ->
  exists ca cb, getc s a = Some ca /\ getc s b = Some cb /\ regs sp ca /\ regs sp cb.
Proof.
  intros sp s a b Hwf H. apply qual_true in H. destruct sp as [c|l r|l rs]; cbn [regs].
  - destruct H.
  - exists l, r. tauto.
  - destruct H as [H1 [c [H2 H3]]]. exists l, c. apply zmem_In in Hwf. tauto.
Qed.

Lemma qual_ext : forall sp s s' a b, getc s a = getc s' a -> getc s b = getc s' b -> qual sp s a b = qual sp s' a b.
Proof. intros [c|l r|l rs] s s' a b H1 H2; cbn; rewrite ?H1, ?H2; reflexivity. Qed.
