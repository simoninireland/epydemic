(* C08, times: the marking calls of a run are among its stochastic calls, at their call times;
   so whatever relation orders the call times (read off the output, where C03 speaks of them:
   Proofs/KernelTime.v, Properties/C03.v) orders the hitting times of infector and infected. *)
From Coq Require Import List ZArith QArith Bool Arith Sorted.
From EpyV Require Import Model.Kernel Model.Loci Model.Compart Proofs.KernelLoops Proofs.KernelMember Proofs.KernelTime
  Proofs.CompartRun Proofs.CompartInv Proofs.CompartDiagram Proofs.ContactBase Proofs.ContactInv.
Import ListNotations.
Open Scope Q_scope.

Lemma htimes_handlers o : htimes true o = map time_of (filter is_handler o).
Proof.
  induction o as [|x o IH]; [reflexivity|]. destruct x as [k t c e m| | | | | | |]; try exact IH.
  destruct m; cbn; f_equal; exact IH.
Qed.

Lemma ss_app_inv {A} (R : A -> A -> Prop) l1 l2 : StronglySorted R (l1 ++ l2) ->
  StronglySorted R l1 /\ StronglySorted R l2 /\ forall x y, In x l1 -> In y l2 -> R x y.
Proof.
  induction l1 as [|a l1 IH]; cbn [app]; intros H; [split; [constructor | split; [exact H | intros x y []]]|].
  inversion H as [|? ? H1 H2]; subst. destruct (IH H1) as (I1 & I2 & I3). apply Forall_app in H2. destruct H2 as [H2 H3].
  split; [constructor; assumption|]. split; [exact I2|]. intros x y [<-|Hx] Hy; [exact (proj1 (Forall_forall _ _) H3 y Hy) | exact (I3 x y Hx Hy)].
Qed.

(* g lists, element by element, nothing or what h lists *)
Lemma SS_flat_sub {A B} (R : B -> B -> Prop) (g h : A -> list B) l :
  (forall x, In x l -> g x = [] \/ g x = h x) -> StronglySorted R (flat_map h l) -> StronglySorted R (flat_map g l).
Proof.
  induction l as [|x l IH]; intros Hg H; [constructor|]. cbn [flat_map] in *. destruct (ss_app_inv R _ _ H) as (H1 & H2 & H3).
  assert (IH' : StronglySorted R (flat_map g l)) by (apply IH; [intros z Hz; apply Hg; right; exact Hz | exact H2]).
  destruct (Hg x (or_introl eq_refl)) as [-> | ->]; [exact IH'|]. apply ss_app; [exact H1 | exact IH'|].
  intros a b Ha Hb. apply (H3 a b Ha). apply in_flat_map in Hb. destruct Hb as [z [Hz Hb]]. apply in_flat_map. exists z. split; [exact Hz|].
  destruct (Hg z (or_intror Hz)) as [E|E]; rewrite E in Hb; [destruct Hb | exact Hb].
Qed.

Section CT.
Variable cm : cmodel.
Variables (nodes : list Z) (edges : list (Z * Z)) (init : list (Z * Z)) (maxtime : Q) (monitor : option Q).
Let tb := mk_table cm nodes edges init maxtime monitor.

Lemma nonneg_mk_table : (forall ev, In ev (cm_events cm) -> 0 <= ce_p ev) -> nonneg_tb tb.
Proof.
  intros H. unfold nonneg_tb, tb, mk_table. cbn [t_procs].
  assert (M : Forall (fun ev => 0 <= ev_p ev) (map (fun x => mk_ev (fst x) (snd x)) (combine (seq 0 (length (cm_events cm))) (cm_events cm)))).
  { apply Forall_forall. intros ev Hev. apply in_map_iff in Hev. destruct Hev as [[j cev] [<- Hx]]. apply H. exact (in_combine_r _ _ _ _ Hx). }
  destruct monitor; repeat constructor; exact M.
Qed.

Lemma run_ctimes p rs ls ds cs (s : st cworld) : Steps tb (setup_state tb rs ls ds) cs s -> ctimes p cs = rev (htimes p (out s)).
Proof.
  intros H. rewrite (Steps_htimes tb p _ _ _ H), (htimes_act _ _ (proj1 (setup_state_out tb rs ls ds))), app_nil_r, rev_involutive.
  reflexivity.
Qed.

Section Along.
Variables (rs ls : list Q) (ds : list nat) (cs : list (st cworld * call)) (s : st cworld).
Hypothesis Hwf : wf_model cm = true.
Hypothesis Ho : once_model cm = true.
Hypothesis Hg : graph_okb nodes edges = true.
Hypothesis Hi : init_ok cm nodes init = true.
Hypothesis H : Steps tb (setup_state tb rs ls ds) cs s.

(* only stochastic calls mark (posted event functions sit on nodes), at their call time: the times
   of the marking calls are a subsequence of the times of the stochastic calls, and of all calls *)
Lemma infection_times_sorted (R : Q -> Q -> Prop) p : StronglySorted R (ctimes p cs) -> StronglySorted R (map snd (infections cm cs)).
Proof.
  intros Hs. unfold infections. rewrite flat_map_concat_map, concat_map, map_map, <- flat_map_concat_map.
  revert Hs. apply SS_flat_sub. intros [s1 c] Hsc. destruct (K_at_call rs ls ds cs s s1 c Hwf Ho Hg Hi H Hsc) as [Hk Hok].
  unfold infection. cbn [snd]. destruct (call_kind cm c) as [h|] eqn:Ek; [|left; reflexivity].
  destruct (marks h (snd (call_args c))) as [[n m]|] eqn:Em; [|left; reflexivity]. right.
  destruct (marking_call cm nodes edges init maxtime monitor s1 c h n m Hwf Ho Hk Hok Ek Em) as ((x & ->) & _). reflexivity.
Qed.

(* whatever relation orders the times of the calls of the run (all of them, or the stochastic ones)
   relates the hitting time of an infector to that of the node it infected *)
Theorem times_by_calls (R : Q -> Q -> Prop) p : StronglySorted R (ctimes p cs) ->
  forall n m t t', In (n, m, t) (cw_occ (world s)) -> In (m, t') (cw_hit (world s)) -> R t' t.
Proof.
  intros Hs. exact (times_along_tree R rs ls ds cs s Hwf Ho Hg Hi H (infection_times_sorted R p Hs)).
Qed.
End Along.

(* with what C03 says of the output of an unstuck run of either scheduler *)
Theorem times_nondecreasing rs ls ds (r : result cworld) : wf_model cm = true -> once_model cm = true ->
  graph_okb nodes edges = true -> init_ok cm nodes init = true ->
  (exists cs, Steps tb (setup_state tb rs ls ds) cs (r_final r)) -> rev (out (r_final r)) = r_out r ->
  StronglySorted Qle (map time_of (filter is_handler (r_out r))) ->
  forall n m t t', In (n, m, t) (cw_occ (world (r_final r))) -> In (m, t') (cw_hit (world (r_final r))) -> t' <= t.
Proof.
  intros Hwf Ho Hg Hi [cs H] <- Hs. apply (times_by_calls rs ls ds cs _ Hwf Ho Hg Hi H Qle true).
  rewrite (run_ctimes true rs ls ds cs _ H), htimes_handlers, <- map_rev, <- filter_rev'. exact Hs.
Qed.

End CT.

Arguments times_by_calls {cm nodes edges init maxtime monitor}.
Arguments times_nondecreasing {cm nodes edges init maxtime monitor}.
Arguments infection_times_sorted {cm nodes edges init maxtime monitor}.
