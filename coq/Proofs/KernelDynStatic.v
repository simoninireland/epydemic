(* The dynamic kernel is a conservative extension of Model/Kernel.v: on a table without appended
   entries both of its loops compute exactly what Model/Kernel.v's loops compute (hence the same
   result record: CVI_conservative_stoch, C05_dyn_conservative_sync).  So the scheduler code duplicated in
   Model/KernelDyn.v is tied to the one the properties C02-C06 are proved about and that the
   kernel tie co-executes. *)
From Coq Require Import List ZArith QArith Qabs Bool Arith Lia.
From EpyV Require Import Model.Kernel Model.KernelDyn Proofs.KernelDyn.
Import ListNotations.
Open Scope Q_scope.

Section S.
Context {W : Type}.
Variable tb : table W.
Notation D := (static_dtable tb).
Implicit Types s : st W.

Lemma dtransitions_static lc w : dtransitions D lc w = map TStat (transitions tb).
Proof.
  unfold dtransitions, dper_element, transitions, per_element, all_events.
  rewrite (dper_from_static D lc w (fun _ => eq_refl)), map_app. reflexivity.
Qed.

Lemma dsum_rates_static s l : dsum_rates s (map TStat l) = sum_rates s l.
Proof.
  unfold dsum_rates, sum_rates. generalize 0. induction l as [|x l IH]; intros a; cbn [map fold_left]; [reflexivity|].
  apply IH.
Qed.

Lemma select_static s xc l : forall xs cur,
  select (drate s) xc xs (TStat cur) (map TStat l) = TStat (select (rate s) xc xs cur l).
Proof.
  induction l as [|x l IH]; intros xs cur; cbn [map select]; [reflexivity|].
  cbn [drate]. destruct (Qltb xc (xs + rate s x)); [reflexivity | apply IH].
Qed.

Lemma dstoch_loop_static pf : forall fuel t ev s, dstoch_loop D pf fuel t ev s = stoch_loop tb pf fuel t ev s.
Proof.
  induction fuel as [|f IH]; intros t ev s; [reflexivity|].
  cbn [dstoch_loop stoch_loop]. cbn [static_dtable d_tb].
  destruct (Qle_bool (t_maxtime tb) t || t_equil tb (loci s) (world s)); [reflexivity|].
  rewrite dtransitions_static, dsum_rates_static.
  destruct (Qeq_bool (sum_rates s (transitions tb)) 0).
  - destruct (next_pending_time s) as [[et|] s']; [|reflexivity].
    destruct (run_pending tb pf et 0 s') as [n s'']. apply IH.
  - destruct (next_rand s) as [r1 s1]. destruct (next_ln s1) as [ln s2].
    destruct (transitions tb) as [|x0 rest]; [reflexivity|]. cbn [map].
    destruct rest as [|x1 rest]; cbn [map].
    + destruct (run_pending tb pf _ 0 s2) as [n s4].
      destruct (locus (set_clock _ s4) (ev_locus (snd x0))); [apply IH|].
      destruct (next_draw _) as [k s6]. apply IH.
    + destruct (next_rand s2) as [r2 s3].
      change (TStat x0 :: TStat x1 :: map TStat rest) with (map (@TStat W) (x0 :: x1 :: rest)).
      rewrite select_static.
      destruct (run_pending tb pf _ 0 s3) as [n s4].
      destruct (locus (set_clock _ s4) _); [apply IH|].
      destruct (next_draw _) as [k s6]. apply IH.
Qed.

Lemma dtranche_elem_static : forall evs s,
  dtranche_elem (map TStat evs) s = (map lift_sel (fst (tranche_elem evs s)), snd (tranche_elem evs s)).
Proof.
  induction evs as [|x evs IH]; intros s; cbn [map dtranche_elem tranche_elem]; [reflexivity|].
  destruct (locus s (ev_locus (snd x))) as [|e0 l0].
  - rewrite IH. destruct (tranche_elem evs s) as [sel' s2]. reflexivity.
  - destruct (Qltb 0 (ev_p (snd x))).
    + destruct (trials (ev_p (snd x)) x (e0 :: l0) s) as [sel s1]. rewrite IH.
      destruct (tranche_elem evs s1) as [sel' s2]. cbn [fst snd]. rewrite map_app. reflexivity.
    + rewrite IH. destruct (tranche_elem evs s) as [sel' s2]. reflexivity.
Qed.

Lemma dtranche_static s : dtranche D s = (map lift_sel (fst (tranche tb s)), snd (tranche tb s)).
Proof.
  unfold dtranche, tranche, dper_element. cbn [static_dtable d_tb].
  rewrite (dper_from_static D (loci s) (world s) (fun _ => eq_refl)).
  change (filter (fun x : nat * nat * event => ev_elem (snd x)) (all_events_from 0 (t_procs tb))) with (per_element tb).
  rewrite dtranche_elem_static. destruct (tranche_elem (per_element tb) s) as [a s1]. cbn [fst snd].
  destruct (tranche_fixed (fixed_rate tb) s1) as [b s2]. cbn [fst snd]. rewrite map_app. reflexivity.
Qed.

Lemma dfire_tranche_static t : forall evs nev s,
  dfire_tranche D t (map lift_sel evs) nev s = fire_tranche tb t evs nev s.
Proof.
  induction evs as [|[x e] evs IH]; intros nev s; [reflexivity|].
  cbn [map lift_sel fst snd dfire_tranche fire_tranche]. cbn [static_dtable d_tb].
  destruct (mem e (locus s (ev_locus (snd x)))); apply IH.
Qed.

Lemma dsync_loop_static pf : forall fuel t ev k s, dsync_loop D pf fuel t ev k s = sync_loop tb pf fuel t ev k s.
Proof.
  induction fuel as [|f IH]; intros t ev k s; [reflexivity|].
  cbn [dsync_loop sync_loop]. cbn [static_dtable d_tb].
  destruct (Qle_bool (t_maxtime tb) t || t_equil tb (loci s) (world s)); [reflexivity|].
  destruct (run_pending tb pf t 0 (set_clock t s)) as [n s1].
  rewrite dtranche_static. destruct (tranche tb (set_clock t s1)) as [evs s2]. cbn [fst snd].
  rewrite dfire_tranche_static. destruct (fire_tranche tb t evs n s2) as [nev s3]. apply IH.
Qed.

End S.
