(* SIR_VariableInfection (Model/CompartVI.v) run by the dynamic kernel (Model/KernelDyn.v); the
   statements claimed for C05/C07 are in Properties/C05.v and C07.v, this file has what they are made of,
   per call and along whole runs:
     - its programs are Model/Compart.v's event functions on the base part of the state;
     - for the shipped class no event function posts and set-up posts only Monitor.observe, which is
       inert;
     - the per-element distribution is the registered events followed by one entry per element
       of the SI locus, in ascending order, with that edge's infectivity, and every entry passes
       its own membership test in the state it is generated from; C05 for Gillespie runs
       (vi_stoch_member);
     - the run invariant of Proofs/CompartInv.v (kernel loci = sorted handler loci, C01 loci
       invariant, fixed network, every node in a compartment of the model) holds on every state
       of every run, by the SAME step lemma (sinv_handler) as for the static tables;
     - every compartment change made by a call is an arrow  left(locus) -> target  of the event
       function called; the SI locus holds exactly the S-I edges of the network.
   For every vimodel, network, initial assignment, infectivities, oracle and fuel. *)
From Coq Require Import List ZArith QArith Bool Arith Lia.
From EpyV Require Import Model.Kernel Model.KernelDyn Model.Loci Model.Compart Model.CompartVI Proofs.KernelMember
  Proofs.LociBase Proofs.LociLocus Proofs.CompartSort Proofs.CompartInv Proofs.CompartDiagram Proofs.KernelDyn
  Proofs.KernelDynLoops Proofs.KernelDynRun.
Import ListNotations.
Close Scope Q_scope.

(* no event function of the model posts an event, and set-up posts nothing (the shipped class) *)
Definition kind_nopost (h : hkind) : bool := match h with HLeft _ _ (Some _) => false | _ => true end.
Definition vi_nopost (vm : vimodel) : bool :=
  forallb kind_nopost (map ce_kind (vim_events vm)) && kind_nopost (vim_infect vm)
  && match vim_seed_post vm with None => true | Some _ => false end.

(* the arrows of the model: left compartment of the locus -> target of the event function, for the
   registered events and for the appended infection entries *)
Definition vi_arrows (vm : vimodel) : list (Z * Z) :=
  flat_map (fun cev => map (fun c => (locus_left (nth (ce_locus cev) (vim_specs vm) default_spec), c)) (kind_target (ce_kind cev)))
           (vim_events vm)
  ++ map (fun c => (locus_left (nth (vim_si vm) (vim_specs vm) default_spec), c)) (kind_target (vim_infect vm)).

Lemma lift_prog_fst p t e kl w :
  fst (lift_prog p t e kl w) = {| vi_base := fst (p t e kl (vi_base w)); vi_inf := vi_inf w |}.
Proof. unfold lift_prog. destruct (p t e kl (vi_base w)); reflexivity. Qed.
Lemma lift_prog_snd p t e kl w : snd (lift_prog p t e kl w) = snd (p t e kl (vi_base w)).
Proof. unfold lift_prog. destruct (p t e kl (vi_base w)); reflexivity. Qed.

Lemma handler_posts_ok P tbl off h t e kl w : kind_nopost h = true -> Forall (posts_okE P e) (snd (handler tbl off h t e kl w)).
Proof.
  intros Hn.
  assert (S : forall new, Forall (posts_okE P e) (sync_actions off kl new)).
  { intros new. unfold sync_actions. eapply Forall_impl; [|apply sync_from_loci_only]. intros a Ha. destruct a; cbn in Ha |- *; tauto. }
  destruct h as [c|c mark [[T k]|]| |], e as [n|n m]; cbn [handler snd]; try discriminate; try constructor; try apply S; try constructor.
  rewrite app_nil_r. apply S.
Qed.

(* the kernel state with the user state cut down to its base part: a state of Model/Compart.v's tables *)
Definition proj (s : st viworld) : st cworld :=
  {| clock := clock s; nextid := nextid s; queue := queue s; loci := loci s; world := vi_base (world s); ids := ids s;
     out := out s; rands := rands s; lns := lns s; draws := draws s; stuck := stuck s |}.

Section VI.
Variable vm : vimodel.
Variables (nodes : list Z) (edges : list (Z * Z)) (init : list (Z * Z)) (inf : list (Z * Z * Q)) (maxtime : Q) (monitor : option Q).
Let cm := vi_cm vm.
Let tb0 := mk_table cm nodes edges init maxtime monitor.
Let D := mk_vitable vm nodes edges init inf maxtime monitor.
Let specs := vim_specs vm.
Let si := vim_si vm.
Implicit Types s : st viworld.

Lemma kinds_eq : cm_kinds cm = map ce_kind (vim_events vm) ++ [vim_infect vm; HObs].
Proof. reflexivity. Qed.

Lemma t_progs_kinds : t_progs tb0 = map (handler specs 0) (cm_kinds cm).
Proof.
  unfold tb0, mk_table. cbn [t_progs]. unfold cm_kinds. rewrite !map_app, map_map. reflexivity.
Qed.

Lemma vi_prog_of k :
  prog_of (d_tb D) k = match nth_error (cm_kinds cm) k with Some h => lift_prog (handler specs 0 h) | None => static [] end.
Proof.
  unfold prog_of, D, mk_vitable. cbn [d_tb t_progs]. fold cm. fold tb0. rewrite t_progs_kinds, map_map.
  apply nth_map_error.
Qed.

(* the class of programs that are ever posted: Monitor.observe *)
Definition vi_posted (k : nat) : Prop := k = (length (vim_events vm) + 1)%nat.

Lemma kobs_kind : nth_error (cm_kinds cm) (length (vim_events vm) + 1) = Some HObs.
Proof.
  rewrite kinds_eq, nth_error_app2; rewrite map_length; [|lia].
  replace (length (vim_events vm) + 1 - length (vim_events vm))%nat with 1%nat by lia. reflexivity.
Qed.

Lemma nopost_kinds h : vi_nopost vm = true -> In h (cm_kinds cm) -> kind_nopost h = true.
Proof.
  unfold vi_nopost. rewrite !andb_true_iff, forallb_forall. intros [[H1 H2] _] Hin. rewrite kinds_eq in Hin.
  apply in_app_or in Hin. destruct Hin as [Hin|[<-|[<-|[]]]]; [apply H1, Hin | exact H2 | reflexivity].
Qed.

Lemma vi_progs_posts P : vi_nopost vm = true ->
  forall k t e lc w, Forall (posts_okE P e) (snd (prog_of (d_tb D) k t e lc w)).
Proof.
  intros Hn k t e lc w. rewrite vi_prog_of. destruct (nth_error (cm_kinds cm) k) as [h|] eqn:E; [|constructor].
  rewrite lift_prog_snd. apply handler_posts_ok. apply (nopost_kinds h Hn). eapply nth_error_In. exact E.
Qed.

Lemma vi_setup_posts : vi_nopost vm = true -> forall p, In p (t_procs (d_tb D)) -> Forall (posts_ok vi_posted) (p_setup p).
Proof.
  intros Hn. assert (Hs : vim_seed_post vm = None).
  { unfold vi_nopost in Hn. rewrite !andb_true_iff in Hn. destruct Hn as [_ Hn]. destruct (vim_seed_post vm); [discriminate | reflexivity]. }
  unfold D, mk_vitable, mk_table. cbn [d_tb t_procs cm_seed_post vi_cm]. rewrite Hs.
  destruct monitor as [delta|]; cbn [In]; intros p [<-|[<-|[]]] || intros p [<-|[]]; cbn [p_setup]; try constructor.
  - cbn [posts_ok]. unfold vi_posted. reflexivity.
  - constructor.
Qed.

Lemma vi_posted_inert : forall k, vi_posted k -> forall t e lc w,
  fst (prog_of (d_tb D) k t e lc w) = w /\ fold_left (act_loci e) (snd (prog_of (d_tb D) k t e lc w)) lc = lc.
Proof.
  intros k -> t e lc w. rewrite vi_prog_of, kobs_kind. destruct w as [b i]. split; reflexivity.
Qed.

Lemma vi_dyn_shape {pi lc w d} : In d (d_dyn D pi lc w) ->
  pi = vi_mpi monitor /\ exists e, In e (nth si lc []) /\ d = vi_entry vm w e.
Proof.
  unfold D, mk_vitable. cbn [d_dyn]. destruct (Nat.eqb_spec pi (vi_mpi monitor)) as [->|]; [|intros []].
  intros H. apply in_map_iff in H. destruct H as [e [<- He]]. split; [reflexivity|]. exists e. split; [exact He | reflexivity].
Qed.

(* SingletonLocus.__contains__ holds of an entry in the state it is generated from *)
Lemma vi_dyn_sound pi lc w d : In d (d_dyn D pi lc w) -> de_member d lc w = true.
Proof.
  intros H. destruct (vi_dyn_shape H) as [_ [e [He ->]]]. cbn [vi_entry de_member]. apply mem_In. exact He.
Qed.

(* C05 under stochastic dynamics: every event function entered from the scheduler passed its membership test *)
Theorem vi_stoch_member pf fuel rs ls ds k t c e m :
  In (OHandler k t c e (Some m)) (r_out (dstoch_run D pf fuel rs ls ds)) -> m = true.
Proof. exact (dstoch_run_member D pf fuel rs ls ds k t c e m). Qed.

Lemma all_events_eq : all_events (d_tb D) = all_events tb0.
Proof. reflexivity. Qed.

Theorem vi_dper_element lc w :
  dper_element D lc w = map TStat (per_element (d_tb D)) ++ map (fun e => TDyn (vi_mpi monitor) (vi_entry vm w e)) (nth si lc []).
Proof.
  unfold dper_element, per_element, all_events, D, mk_vitable, mk_table. cbn [d_tb t_procs d_dyn].
  destruct monitor as [delta|]; cbn [dper_from all_events_from d_dyn vi_mpi Nat.eqb p_events index_events filter map app].
  - rewrite !app_nil_r, map_map. reflexivity.
  - rewrite !app_nil_r, map_map. reflexivity.
Qed.

(* Proofs/CompartInv.v's [J] of the projected state *)
Definition VJ s : Prop := SInv cm nodes edges (cw_st (vi_base (world s))) (loci s).

Lemma VJ_nodes s : VJ s -> st_nodes (cw_st (vi_base (world s))) = nodes.
Proof. intros H. apply H. Qed.
Lemma VJ_edges s : VJ s -> st_edges (cw_st (vi_base (world s))) = edges.
Proof. intros H. apply H. Qed.
Lemma VJ_comp s v : VJ s -> In v nodes -> exists c, getc (cw_st (vi_base (world s))) v = Some c /\ In c (cm_comps cm).
Proof. intros H. apply H. Qed.

Lemma VJ_dsched s s' : VJ s -> dsched s s' -> VJ s'.
Proof. intros H Hs. unfold VJ. rewrite (dsched_loci Hs), (dsched_world Hs). exact H. Qed.

Lemma VJ_dafter c s : wf_loci specs = true -> VJ s -> VJ (dafter D c s).
Proof.
  intros Hwf H. pose proof (dafter_lw D c s) as A. destruct (dcall_args c) as [[k t] e]. destruct A as [A1 A2].
  unfold VJ. rewrite A1, A2, vi_prog_of. destruct (nth_error (cm_kinds cm) k) as [h|] eqn:E; [|exact H].
  rewrite lift_prog_fst, lift_prog_snd. cbn [vi_base].
  apply (sinv_handler cm nodes edges h t e (loci s) (vi_base (world s)) Hwf); [eapply nth_error_In; exact E | exact H].
Qed.

Lemma vi_post_only p : In p (t_procs (d_tb D)) -> Forall post_only (p_setup p).
Proof. exact (mk_table_post_only cm nodes edges init maxtime monitor p). Qed.

Lemma vi_setup_world rs ls ds : world (setup_state (d_tb D) rs ls ds) = t_world (d_tb D).
Proof. exact (proj2 (setup_state_lw (d_tb D) rs ls ds vi_post_only)). Qed.

Theorem VJ_setup rs ls ds : wf_loci specs = true -> graph_okb nodes edges = true -> init_ok cm nodes init = true ->
  VJ (setup_state (d_tb D) rs ls ds).
Proof.
  intros Hwf Hg Hi. unfold VJ.
  destruct (setup_state_lw (d_tb D) rs ls ds vi_post_only) as [A B]. rewrite A, B.
  pose proof (J_setup cm nodes edges init maxtime monitor rs ls ds Hwf Hg Hi) as H0. unfold J in H0.
  destruct (setup_state_lw tb0 rs ls ds (mk_table_post_only cm nodes edges init maxtime monitor)) as [A0 B0].
  fold tb0 in H0. rewrite A0, B0 in H0. exact H0.
Qed.

Theorem VJ_dsteps {Xtr rs ls ds cs s} : wf_loci specs = true -> graph_okb nodes edges = true -> init_ok cm nodes init = true ->
  DSteps D Xtr (setup_state (d_tb D) rs ls ds) cs s -> VJ s /\ Forall (fun sc => VJ (fst sc)) cs.
Proof.
  intros Hwf Hg Hi H.
  apply (DSteps_inv D Xtr VJ (fun s s' => @VJ_dsched s s') (fun s c Hj _ => VJ_dafter c s Hwf Hj) _ cs s (VJ_setup rs ls ds Hwf Hg Hi) H).
Qed.

Lemma sinv_member st kl li e : SInv cm nodes edges st kl -> mem e (nth li kl []) = true ->
  exists x, e = kelem x /\ truthP (nth li specs default_spec) st x.
Proof.
  intros (Hk & [_ [Hlen Hl]] & _) Hm. apply mem_In in Hm.
  assert (Hli : li < length specs).
  { destruct (Nat.lt_ge_cases li (length specs)) as [L|L]; [exact L|]. exfalso.
    rewrite nth_overflow in Hm; [destruct Hm|]. rewrite Hk, map_length, Hlen. exact L. }
  rewrite Hk in Hm. change (@nil Kernel.elem) with (ksort []) in Hm. rewrite map_nth in Hm.
  apply ksort_In, in_map_iff in Hm. destruct Hm as [x [<- Hx]]. exists x. split; [reflexivity|].
  destruct (Hl li Hli) as [_ [Hs _]]. apply Hs, Hx.
Qed.

(* with a locus that cannot match both ways round, membership IS the tracked condition *)
Lemma sinv_member_iff st kl li e : SInv cm nodes edges st kl -> li < length specs ->
  single_spec (nth li specs default_spec) = true ->
  (mem e (nth li kl []) = true <-> exists x, e = kelem x /\ truthP (nth li specs default_spec) st x).
Proof.
  intros H Hli Hs. split.
  - exact (sinv_member st kl li e H).
  - intros [x [-> T]]. destruct H as (Hk & [_ [Hlen Hl]] & _). apply mem_In. rewrite Hk.
    change (@nil Kernel.elem) with (ksort []). rewrite map_nth. apply ksort_In_kelem.
    destruct (winv1_sinv1 _ _ _ Hs (Hl li Hli)) as [_ Hiff]. apply Hiff. exact T.
Qed.

Lemma sinv_sorted st kl li : SInv cm nodes edges st kl -> ssorted (nth li kl []).
Proof.
  intros (Hk & _). rewrite Hk. change (@nil Kernel.elem) with (ksort []). rewrite map_nth. apply ksort_ssorted.
Qed.

Lemma handler_arrow li h t e kl w : SInv cm nodes edges (cw_st w) kl -> mem e (nth li kl []) = true ->
  forall v, getc (cw_st (fst (handler specs 0 h t e kl w))) v <> getc (cw_st w) v ->
  exists c, getc (cw_st w) v = Some (locus_left (nth li specs default_spec))
    /\ getc (cw_st (fst (handler specs 0 h t e kl w))) v = Some c /\ In c (kind_target h).
Proof.
  intros H Hm v Hne. destruct (sinv_member _ _ _ _ H Hm) as [x [He Ht]].
  rewrite handler_st in *. destruct (moved h e) as [[n c]|] eqn:M; [|congruence].
  rewrite cc_getc in *. destruct (getc_raises (cw_st w) n); [congruence|].
  destruct (Z.eqb_spec v n) as [->|_]; [|congruence].
  exists c. split; [|split; [reflexivity | eapply moved_target; exact M]].
  destruct h as [c1|c1 mark post| |], e as [n1|n1 m1]; cbn in M; try discriminate; inversion M; subst n1 c1.
  - destruct x as [u|u z]; cbn in He; inversion He; subst u. exact (proj2 (truthP_node_facts _ _ n Ht)).
  - destruct x as [u|u z]; cbn in He; inversion He; subst u z. exact (proj1 (proj2 (truthP_edge_facts _ _ n m1 Ht))).
Qed.

Lemma all_events_vi {pi j ev} : In (pi, j, ev) (all_events (d_tb D)) ->
  pi = vi_mpi monitor /\ exists cev, nth_error (vim_events vm) j = Some cev /\ ev = mk_ev j cev.
Proof. rewrite all_events_eq. intros H. apply (all_events_mk cm nodes edges init maxtime monitor) in H. exact H. Qed.

Lemma arrows_event cev c : In cev (vim_events vm) -> In c (kind_target (ce_kind cev)) ->
  In (locus_left (nth (ce_locus cev) specs default_spec), c) (vi_arrows vm).
Proof.
  intros H1 H2. unfold vi_arrows. apply in_or_app. left. apply in_flat_map. exists cev. split; [exact H1|].
  apply in_map_iff. exists c. split; [reflexivity | exact H2].
Qed.

Lemma arrows_infect c : In c (kind_target (vim_infect vm)) -> In (locus_left (nth si specs default_spec), c) (vi_arrows vm).
Proof. intros H. unfold vi_arrows. apply in_or_app. right. apply in_map_iff. exists c. split; [reflexivity | exact H]. Qed.

Lemma infect_kind : nth_error (cm_kinds cm) (vi_infect_prog vm) = Some (vim_infect vm).
Proof.
  unfold vi_infect_prog. rewrite kinds_eq, nth_error_app2; rewrite map_length; [|lia]. rewrite Nat.sub_diag. reflexivity.
Qed.

(* C07_diagram for every call of a stochastic / per-element event function or appended entry:
   whatever compartment changes is an arrow of the model *)
Theorem vi_call_diagram {Xtr c s} : VJ s -> dcall_ok D Xtr c s -> (forall h, c <> DPost h) ->
  forall v, getc (cw_st (vi_base (world (dafter D c s)))) v <> getc (cw_st (vi_base (world s))) v ->
  exists l c', getc (cw_st (vi_base (world s))) v = Some l /\ getc (cw_st (vi_base (world (dafter D c s)))) v = Some c'
    /\ In (l, c') (vi_arrows vm).
Proof.
  intros Hj Hok Hnp v Hne. pose proof (dafter_lw D c s) as A.
  destruct c as [[[pi j] ev] t e|pi d t|h]; [| |exfalso; exact (Hnp h eq_refl)];
    cbn [dcall_args snd] in A; destruct A as [_ A]; rewrite A in *; clear A.
  - destruct Hok as (Hx & Hm & _). destruct (all_events_vi Hx) as [-> [cev [En ->]]].
    cbn [mk_ev ev_prog ev_locus snd] in *. rewrite vi_prog_of, (event_kind cm j cev En), lift_prog_fst in *. cbn [vi_base] in *.
    destruct (handler_arrow (ce_locus cev) (ce_kind cev) t e (loci s) (vi_base (world s)) Hj Hm v Hne) as [c' [G1 [G2 G3]]].
    exists (locus_left (nth (ce_locus cev) specs default_spec)), c'. split; [exact G1|]. split; [exact G2|].
    apply arrows_event; [eapply nth_error_In; exact En | exact G3].
  - destruct Hok as ([lc [w Hr]] & Hm & _). destruct (vi_dyn_shape Hr) as [_ [e [_ ->]]].
    cbn [vi_entry de_prog de_value de_member] in *. rewrite vi_prog_of, infect_kind, lift_prog_fst in *. cbn [vi_base] in *.
    destruct (handler_arrow si (vim_infect vm) t e (loci s) (vi_base (world s)) Hj Hm v Hne) as [c' [G1 [G2 G3]]].
    exists (locus_left (nth si specs default_spec)), c'. split; [exact G1|]. split; [exact G2|]. apply arrows_infect. exact G3.
Qed.

(* the entries of the distribution, read with the invariant: one per S-I edge of the network, ascending *)
Theorem vi_entries_truth s l r : VJ s -> si < length specs -> nth si specs default_spec = EdgeLocus l r -> Z.eqb l r = false ->
  ssorted (nth si (loci s) []) /\
  forall e, In e (nth si (loci s) []) <->
    exists n m, e = EE n m /\ (In (n, m) edges \/ In (m, n) edges)
      /\ getc (cw_st (vi_base (world s))) n = Some l /\ getc (cw_st (vi_base (world s))) m = Some r.
Proof.
  intros Hj Hsi Hsp Hlr. split; [exact (sinv_sorted _ _ si Hj)|]. intros e. rewrite <- mem_In.
  rewrite (sinv_member_iff _ _ si e Hj Hsi); [|fold si; rewrite Hsp; cbn [single_spec]; rewrite Hlr; reflexivity].
  fold si. rewrite Hsp. pose proof (VJ_edges s Hj) as Hedges. split.
  - intros [x [-> Ht]]. destruct x as [u|n m]; [destruct Ht|]. exists n, m. split; [reflexivity|].
    destruct (truthP_edge_facts _ _ n m Ht) as (Ha & Hl & Hrr). cbn [locus_left right_ok] in Hl, Hrr.
    apply adjb_spec in Ha. rewrite Hedges in Ha. tauto.
  - intros (n & m & -> & Ha & Hl & Hrr). exists (E n m). split; [reflexivity|]. cbn [truthP qual]. split.
    + unfold adj. apply adjb_spec. rewrite Hedges. exact Ha.
    + rewrite Hl, Hrr. cbn [ceq]. rewrite !Z.eqb_refl. reflexivity.
Qed.

End VI.

Arguments vi_dyn_shape {vm nodes edges init inf maxtime monitor pi lc w d}.
Arguments vi_setup_world {vm nodes edges init inf maxtime monitor rs ls ds}.
Arguments all_events_vi {vm nodes edges init inf maxtime monitor pi j ev}.
Arguments vi_call_diagram {vm nodes edges init inf maxtime monitor Xtr c s}.
Arguments VJ_dsteps {vm nodes edges init inf maxtime monitor Xtr rs ls ds cs s}.
Arguments VJ_nodes {vm nodes edges s}.
Arguments VJ_edges {vm nodes edges s}.
Arguments VJ_comp {vm nodes edges s} v.
