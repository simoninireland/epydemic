(* Evaluation: for trees whose leaves vanish above a degree that the 301-term loop reaches,
   evaluate() is the value of the polynomial given by the coefficients; also for derivatives
   and for whole programs over the operators. *)
From Coq Require Import List ZArith QArith Bool Arith Lia Setoid Morphisms.
From EpyV Require Import Model.GF Proofs.GFSum Proofs.GFCoeff Proofs.GFDeriv.
Import ListNotations.
Open Scope Q_scope.

Lemma eval_terms_sum m c x : eval_terms m c x == sumn (S m) (fun i => c i * qpow x i).
Proof. unfold eval_terms. rewrite (fold_left_sum (fun i => c i * qpow x i)), Qplus_0_l. apply lsum_seq. Qed.

(* every leaf coefficient function is 0 above the last term [cut m] that is summed for it *)
Fixpoint leaves_within (cut : nat -> nat) (g : gf) : Prop :=
  match g with
  | Fn c m => forall i, (cut m < i)%nat -> c i == 0
  | Sum a b | Prod a b => leaves_within cut a /\ leaves_within cut b
  end.

(* a bound on the degree of the tree when each leaf has degree <= cut m *)
Fixpoint degb (cut : nat -> nat) (g : gf) : nat :=
  match g with
  | Fn _ m => cut m
  | Sum a b => Nat.max (degb cut a) (degb cut b)
  | Prod a b => (degb cut a + degb cut b)%nat
  end.

Lemma coeff_vanish cut g : leaves_within cut g -> forall i, (degb cut g < i)%nat -> coeff g i == 0.
Proof.
  induction g as [c m|a IHa b IHb|a IHa b IHb]; intros H i Hi.
  - apply H. exact Hi.
  - destruct H as [Ha Hb]. cbn [degb] in Hi. cbn [coeff]. rewrite IHa, IHb by (assumption || lia). ring.
  - destruct H as [Ha Hb]. cbn [degb] in Hi. rewrite coeff_Prod. apply sumn_zero. intros j Hj.
    destruct (le_lt_dec j (degb cut a)).
    + rewrite (IHb Hb (i - j)%nat) by lia. ring.
    + rewrite (IHa Ha j) by lia. ring.
Qed.

(* evaluate() with every leaf summed as far as its coefficients go is the polynomial Σ coeff_i x^i *)
Theorem eval_cut_poly cut g x : leaves_within cut g ->
  forall N, (degb cut g <= N)%nat -> eval_cut cut g x == sumn (S N) (fun i => coeff g i * qpow x i).
Proof.
  intros H. induction g as [c m|a IHa b IHb|a IHa b IHb]; intros N HN.
  - cbn [eval_cut coeff degb] in *. rewrite eval_terms_sum.
    symmetry. apply (sumn_extend (S (cut m)) (S N)) ; [lia|].
    intros i Hi. rewrite (H i) by lia. ring.
  - destruct H as [Ha Hb]. cbn [degb] in HN. cbn [eval_cut coeff].
    rewrite (IHa Ha N), (IHb Hb N) by lia. rewrite <- sumn_add. apply sumn_ext. intros; ring.
  - destruct H as [Ha Hb]. cbn [degb] in HN. cbn [eval_cut].
    rewrite (IHa Ha N), (IHb Hb N) by lia.
    rewrite (poly_mul_sum (coeff a) (coeff b) x (degb cut a) (degb cut b) N); [| apply coeff_vanish; assumption | apply coeff_vanish; assumption | exact HN].
    apply sumn_ext. intros n _. rewrite coeff_Prod. reflexivity.
Qed.

(* where the loops stop does not matter once they are past the leaves' degrees *)
Theorem eval_cut_indep cut cut' g x : leaves_within cut g -> leaves_within cut' g -> eval_cut cut g x == eval_cut cut' g x.
Proof.
  intros H H'. set (N := Nat.max (degb cut g) (degb cut' g)).
  rewrite (eval_cut_poly cut g x H N), (eval_cut_poly cut' g x H' N) by (unfold N; lia). reflexivity.
Qed.

Lemma scale_within cut n g : leaves_within cut g -> leaves_within cut (scale n g).
Proof.
  induction g; simpl.
  - intros H i Hi. rewrite H by exact Hi. ring.
  - intros [? ?]; split; auto.
  - intros [? ?]; split; auto.
Qed.
Lemma scale_degb cut n g : degb cut (scale n g) = degb cut g.
Proof. induction g; simpl; congruence. Qed.

Lemma derives_within_degb cut k g d : derives k g d -> leaves_within cut g ->
  leaves_within cut d /\ (degb cut d <= degb cut g)%nat.
Proof.
  induction 1 as [k c m | k a b a' b' _ IHa _ IHb | a b | k a b a1 b1 r _ IHa _ IHb _ IHr]; cbn [leaves_within degb].
  - intros H. split; [|reflexivity]. intros i Hi. rewrite dcoef_ffq, (H (i + k)%nat) by lia. ring.
  - intros [Ha Hb]. destruct (IHa Ha), (IHb Hb). split; [split; assumption | lia].
  - intros H. split; [exact H | reflexivity].
  - intros [Ha Hb]. destruct (IHa Ha) as [Va Da], (IHb Hb) as [Vb Db].
    destruct IHr as [Vr Dr]; [cbn [leaves_within]; tauto|]. split; [exact Vr|].
    cbn [degb] in Dr. lia.
Qed.

Lemma deriv_within_degb cut k g : leaves_within cut g -> leaves_within cut (deriv k g) /\ (degb cut (deriv k g) <= degb cut g)%nat.
Proof. exact (derives_within_degb cut k g _ (deriv_derives k g)). Qed.

(* a coefficient list is within its own _maxTerm = len(cs), whatever its length *)
Lemma from_coeffs_within cs cut : (pred (length cs) <= cut (length cs))%nat -> leaves_within cut (from_coeffs cs).
Proof. intros H i Hi. simpl. rewrite nth_overflow by lia. reflexivity. Qed.

Lemma from_function_within cs cut : (pred (length cs) <= cut max_term)%nat -> leaves_within cut (from_function (fun i => nth i cs 0)).
Proof. intros H i Hi. simpl. rewrite nth_overflow by lia. reflexivity. Qed.

Theorem eval_deriv cut k g x : leaves_within cut g ->
  forall N, (degb cut g <= N)%nat ->
  eval_cut cut (deriv k g) x == sumn (S N) (fun i => ffq i k * coeff g (i + k)%nat * qpow x i).
Proof.
  intros H N HN. destruct (deriv_within_degb cut k g H) as [V D].
  rewrite (eval_cut_poly cut (deriv k g) x V N) by lia.
  apply sumn_ext. intros i _. rewrite coeff_deriv. reflexivity.
Qed.

(* the reference: exact polynomial arithmetic on coefficient sequences *)
Fixpoint sem (e : expr) : nat -> Q :=
  match e with
  | ECoeffs cs | EFunc cs => fun i => nth i cs 0
  | EAdd a b => fun i => sem a i + sem b i
  | EAddN a n => fun i => sem a i + (if (i =? 0)%nat then n else 0)
  | ESub a b => fun i => sem a i - sem b i
  | ESubN a n => fun i => sem a i - (if (i =? 0)%nat then n else 0)
  | EMul a b => fun i => sumn (S i) (fun j => sem a j * sem b (i - j)%nat)
  | EMulN a n => fun i => n * sem a i
  | EDiv a n => fun i => sem a i / n
  | EDx a k => fun i => qn (fact (i + k)) / qn (fact i) * sem a (i + k)%nat
  end.

Fixpoint divides_by_zero (e : expr) : Prop :=
  match e with
  | ECoeffs _ | EFunc _ => False
  | EAdd a b | ESub a b | EMul a b => divides_by_zero a \/ divides_by_zero b
  | EAddN a _ | ESubN a _ | EMulN a _ | EDx a _ => divides_by_zero a
  | EDiv a n => divides_by_zero a \/ n == 0
  end.

Lemma build_None e : build e = None <-> divides_by_zero e.
Proof.
  induction e as [cs | cs | a IHa b IHb | a IHa n | a IHa b IHb | a IHa n | a IHa b IHb | a IHa n | a IHa n | a IHa k];
    cbn [build divides_by_zero].
  all: try (destruct (build a) as [f|]; [|cbn [obind]; try destruct (build b); intuition discriminate]).
  all: try (destruct (build b) as [g|]; [|cbn [obind]; intuition discriminate]).
  all: cbn [obind].
  - (* ECoeffs *) split; [discriminate | tauto].
  - (* EFunc *) split; [discriminate | tauto].
  - (* EAdd *) intuition discriminate.
  - (* EAddN *) intuition discriminate.
  - (* ESub *) intuition discriminate.
  - (* ESubN *) intuition discriminate.
  - (* EMul *) intuition discriminate.
  - (* EMulN *) intuition discriminate.
  - (* EDiv *) destruct (Qeq_dec n 0) as [Hn|Hn]; [rewrite (gdiv_zero f n Hn) | rewrite (gdiv_nonzero f n Hn)]; intuition discriminate.
  - (* EDx *) intuition discriminate.
Qed.

(* whatever the operators preserve holds of what a program builds *)
Lemma build_ind (P : expr -> gf -> Prop) :
  (forall cs, P (ECoeffs cs) (from_coeffs cs)) ->
  (forall cs, P (EFunc cs) (from_function (fun i => nth i cs 0))) ->
  (forall a b f g, P a f -> P b g -> P (EAdd a b) (Sum f g)) ->
  (forall a n f, P a f -> P (EAddN a n) (gadd_num f n)) ->
  (forall a b f g, P a f -> P b g -> P (ESub a b) (gsub f g)) ->
  (forall a n f, P a f -> P (ESubN a n) (gsub_num f n)) ->
  (forall a b f g, P a f -> P b g -> P (EMul a b) (Prod f g)) ->
  (forall a n f, P a f -> P (EMulN a n) (scale n f)) ->
  (forall a n f, P a f -> ~ n == 0 -> P (EDiv a n) (scale (1 / n) f)) ->
  (forall a k f, P a f -> P (EDx a k) (deriv k f)) ->
  forall e g, build e = Some g -> P e g.
Proof.
  intros Hc Hf Hadd Haddn Hsub Hsubn Hmul Hmuln Hdiv Hdx.
  induction e as [cs | cs | a IHa b IHb | a IHa n | a IHa b IHb | a IHa n | a IHa b IHb | a IHa n | a IHa n | a IHa k];
    intros g'; cbn [build].
  all: try (destruct (build a) as [f|]; [|discriminate]).
  all: try (destruct (build b) as [g|]; [|discriminate]).
  all: cbn [obind].
  - (* ECoeffs *) intros [= <-]. apply Hc.
  - (* EFunc *) intros [= <-]. apply Hf.
  - (* EAdd *) intros [= <-]. apply Hadd; auto.
  - (* EAddN *) intros [= <-]. apply Haddn; auto.
  - (* ESub *) intros [= <-]. apply Hsub; auto.
  - (* ESubN *) intros [= <-]. apply Hsubn; auto.
  - (* EMul *) intros [= <-]. apply Hmul; auto.
  - (* EMulN *) intros [= <-]. apply Hmuln; auto.
  - (* EDiv *) destruct (Qeq_dec n 0) as [Hn|Hn]; [rewrite (gdiv_zero f n Hn) | rewrite (gdiv_nonzero f n Hn)]; [discriminate|].
    intros [= <-]. apply Hdiv; auto.
  - (* EDx *) intros [= <-]. apply Hdx; auto.
Qed.

(* every coefficient list of the program ends by the term [cut m] to which its leaf is summed
   (a number operand is the one-entry list, which always does) *)
Fixpoint leaves_ok (cut : nat -> nat) (e : expr) : Prop :=
  match e with
  | ECoeffs cs => (pred (length cs) <= cut (length cs))%nat
  | EFunc cs => (pred (length cs) <= cut max_term)%nat
  | EAdd a b | ESub a b | EMul a b => leaves_ok cut a /\ leaves_ok cut b
  | EAddN a _ | ESubN a _ | EMulN a _ | EDiv a _ | EDx a _ => leaves_ok cut a
  end.

Lemma build_within cut e g : build e = Some g -> leaves_ok cut e -> leaves_within cut g.
Proof.
  revert e g. apply (build_ind (fun e g => leaves_ok cut e -> leaves_within cut g)); cbn [leaves_ok].
  - intros cs. apply from_coeffs_within.
  - intros cs. apply from_function_within.
  - intros a b f g Hf Hg [Ha Hb]. split; auto.
  - intros a n f Hf Ha. split; [auto | apply from_coeffs_within; simpl; lia].
  - intros a b f g Hf Hg [Ha Hb]. split; [|apply scale_within]; auto.
  - intros a n f Hf Ha. split; [auto | apply from_coeffs_within; simpl; lia].
  - intros a b f g Hf Hg [Ha Hb]. split; auto.
  - intros a n f Hf Ha. apply scale_within; auto.
  - intros a n f Hf _ Ha. apply scale_within; auto.
  - intros a k f Hf Ha. apply deriv_within_degb; auto.
Qed.

(* two instances: every leaf summed to the same term N >= max_len e - 1 (what tie B runs) ... *)
Lemma max_len_leaves_ok N e : (max_len e <= S N)%nat -> leaves_ok (fun _ => N) e.
Proof.
  induction e as [cs | cs | a IHa b IHb | a IHa n | a IHa b IHb | a IHa n | a IHa b IHb | a IHa n | a IHa n | a IHa k];
    cbn [max_len leaves_ok]; intros H.
  (* the binary operators, the unary ones, the leaves *)
  all: try (split; [apply IHa | apply IHb]; lia).
  all: try (apply IHa; lia).
  all: lia.
Qed.

(* ... and every leaf summed to its own _maxTerm: lists always, coefficient functions when they end by term 300 *)
Lemma funcs_short_leaves_ok e : funcs_short e -> leaves_ok (fun m => m) e.
Proof. induction e; cbn [funcs_short leaves_ok]; try tauto; lia. Qed.

Theorem build_coeff e g : build e = Some g -> forall i, coeff g i == sem e i.
Proof.
  revert e g. apply (build_ind (fun e g => forall i, coeff g i == sem e i)); cbn [sem].
  - reflexivity.
  - reflexivity.
  - intros a b f g Hf Hg i. rewrite coeff_Sum, Hf, Hg. reflexivity.
  - intros a n f Hf i. rewrite coeff_gadd_num, Hf. reflexivity.
  - intros a b f g Hf Hg i. rewrite coeff_gsub, Hf, Hg. reflexivity.
  - intros a n f Hf i. rewrite coeff_gsub_num, Hf. reflexivity.
  - intros a b f g Hf Hg i. rewrite coeff_Prod. apply cauchy_ext; assumption.
  - intros a n f Hf i. rewrite coeff_scale, Hf. reflexivity.
  - intros a n f Hf Hn i. rewrite coeff_scale, Hf. field. exact Hn.
  - intros a k f Hf i. rewrite coeff_deriv_fact, Hf. reflexivity.
Qed.
