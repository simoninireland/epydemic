(* Proofs about Model/Percolate.v (C14): undirected edges by a canonical representative ([norm], [NoDupU]);
   the shuffle oracle ([is_perm], [apply_perm_Permutation]); removing the unoccupied part of a split edge
   list leaves the occupied part ([remove_edges_app]); floor(M * T) as a natural number ([occ_of_le], [occ_of_0],
   [occ_of_1]); the case T = 1; and for one run of percolate the partition, the edges kept and their number. *)
From Coq Require Import List ZArith QArith Qround Bool Arith Lia Permutation.
From EpyV Require Import Lib.Prelude Lib.Lists Model.Percolate.
Import ListNotations.

(* a canonical representative of an undirected edge *)
Definition norm (e : edge) : edge := if (fst e <=? snd e)%Z then e else (snd e, fst e).

Lemma norm_flip a b : norm (b, a) = norm (a, b).
Proof.
  unfold norm; cbn [fst snd]. destruct (Z.leb_spec b a) as [H1|H1], (Z.leb_spec a b) as [H2|H2]; try reflexivity.
  - rewrite (Z.le_antisymm _ _ H1 H2). reflexivity.
  - destruct (Z.lt_asymm _ _ H1 H2).
Qed.

Lemma same_edge_norm e f : same_edge e f = true <-> norm e = norm f.
Proof.
  destruct e as [a b], f as [c d]. unfold same_edge. cbn [fst snd]. rewrite orb_true_iff, !zpair_eqb_iff. split.
  - intros [-> | ->]; [reflexivity | apply norm_flip].
  - unfold norm; cbn [fst snd]. destruct (a <=? b)%Z, (c <=? d)%Z; intros [= -> ->]; auto.
Qed.

Lemma same_edge_refl e : same_edge e e = true.
Proof. apply same_edge_norm; reflexivity. Qed.

(* a networkx edge list never names the same undirected edge twice *)
Definition NoDupU (es : list edge) : Prop := NoDup (map norm es).

Lemma NoDupU_perm a b : Permutation a b -> NoDupU a -> NoDupU b.
Proof. unfold NoDupU; intros P H. eapply Permutation_NoDup; [apply Permutation_map; exact P | exact H]. Qed.

Lemma NoDupU_NoDup es : NoDupU es -> NoDup es.
Proof. unfold NoDupU. apply NoDup_map_inv. Qed.

Lemma NoDupU_app o u : NoDupU (o ++ u) -> NoDupU o /\ forall e, In e o -> existsb (same_edge e) u = false.
Proof.
  unfold NoDupU. rewrite map_app, NoDup_app_iff. intros (Ho & _ & Hd). split; [exact Ho|].
  intros e He. apply not_true_iff_false. intros E.
  apply existsb_exists in E. destruct E as (f & Hf & Hs). apply same_edge_norm in Hs.
  apply (Hd (norm e)); [|rewrite Hs]; apply in_map; assumption.
Qed.

(* what the shuffle oracle hands over: the indices 0..n-1 in some order *)
Definition is_perm (perm : list nat) (n : nat) : Prop := Permutation perm (seq 0 n).

Lemma is_perm_by_In perm n : NoDup perm -> (forall x, In x perm <-> x < n)%nat -> is_perm perm n.
Proof.
  intros ND H. apply NoDup_Permutation; [exact ND | apply seq_NoDup|]. intros x. rewrite H, in_seq. lia.
Qed.

Lemma apply_perm_Permutation {A} (d : A) l perm :
  is_perm perm (length l) -> Permutation (apply_perm d l perm) l.
Proof.
  intros P. unfold apply_perm.
  transitivity (map (fun i => nth i l d) (seq 0 (length l)));
    [apply Permutation_map; exact P | rewrite map_nth_seq; reflexivity].
Qed.

Lemma remove_edges_app o u es :
  NoDupU es -> Permutation (o ++ u) es -> Permutation (remove_edges es u) o.
Proof.
  intros ND P. destruct (NoDupU_app o u (NoDupU_perm _ _ (Permutation_sym P) ND)) as [Ho Hd].
  apply NoDup_Permutation; [apply NoDup_filter, NoDupU_NoDup, ND | apply NoDupU_NoDup, Ho|].
  intros e. unfold remove_edges. rewrite filter_In, negb_true_iff. split.
  - intros [He Hu]. apply (Permutation_in _ (Permutation_sym P)), in_app_or in He.
    destruct He as [He|He]; [exact He|].
    rewrite (proj2 (existsb_exists _ _)) in Hu; [discriminate | exists e; split; [exact He | apply same_edge_refl]].
  - intros He. split; [apply (Permutation_in _ P), in_or_app; left; exact He | exact (Hd e He)].
Qed.

(* int(M * x) in exact arithmetic, as a natural number: [occ_of] here, [imax_of] in Model/Shuffle.v *)
Lemma floor_nat_spec q : (0 <= q)%Q ->
  (inject_Z (Z.of_nat (Z.to_nat (Qfloor q))) <= q)%Q /\ (q < inject_Z (Z.of_nat (Z.to_nat (Qfloor q))) + 1)%Q.
Proof.
  intros Hq. assert (Hf : (0 <= Qfloor q)%Z) by (change 0%Z with (Qfloor 0); apply Qfloor_resp_le, Hq).
  rewrite Z2Nat.id by exact Hf. split; [apply Qfloor_le|].
  change 1%Q with (inject_Z 1). rewrite <- inject_Z_plus. apply Qlt_floor.
Qed.

Lemma inj_nonneg M : (0 <= inject_Z (Z.of_nat M))%Q.
Proof. change 0%Q with (inject_Z 0). rewrite <- Zle_Qle. lia. Qed.

Lemma occ_of_le M T : (0 <= T)%Q -> (T <= 1)%Q -> (occ_of M T <= M)%nat.
Proof.
  intros H0 H1. unfold occ_of.
  assert (Hm : (inject_Z (Z.of_nat M) * T <= inject_Z (Z.of_nat M))%Q).
  { rewrite Qmult_comm. setoid_replace (inject_Z (Z.of_nat M)) with (1 * inject_Z (Z.of_nat M))%Q at 2 by (rewrite Qmult_1_l; reflexivity).
    apply Qmult_le_compat_r; [exact H1 | apply inj_nonneg]. }
  apply Qfloor_resp_le in Hm. rewrite Qfloor_Z in Hm. lia.
Qed.

Lemma occ_of_0 M : occ_of M 0%Q = 0%nat.
Proof. unfold occ_of. rewrite Qmult_0_r. reflexivity. Qed.

Lemma occ_of_1 M : occ_of M 1%Q = M.
Proof. unfold occ_of. rewrite Qmult_1_r, Qfloor_Z. apply Nat2Z.id. Qed.

(* T = 1 (like T = 0) needs less than the general case: no edge may repeat there, here any edge list will do *)
Lemma edges_after_1 nodes es perm : length perm = length es -> edges_after (percolate nodes es perm 1%Q) = es.
Proof.
  intros Hl. unfold percolate. rewrite occ_of_1. cbn.
  rewrite skipn_all2 by (unfold apply_perm; rewrite map_length, Hl; reflexivity).
  apply filter_all. reflexivity.
Qed.

Section Percolate.
  Variables (nodes : list Z) (es : list edge) (perm : list nat) (T : Q).
  Hypothesis Hnd : NoDupU es.
  Hypothesis Hperm : is_perm perm (length es).
  Let m := percolate nodes es perm T.
  Let occ := occ_of (length es) T.

  Lemma partition_perm : Permutation (occupied m ++ unoccupied m) es.
  Proof. unfold m, percolate; cbn. rewrite firstn_skipn. apply apply_perm_Permutation. exact Hperm. Qed.

  Lemma edges_after_perm : Permutation (edges_after m) (occupied m).
  Proof. exact (remove_edges_app _ _ es Hnd partition_perm). Qed.

  Lemma edges_after_count : length (edges_after m) = Nat.min occ (length es).
  Proof.
    rewrite (Permutation_length edges_after_perm). unfold m, percolate; cbn.
    rewrite firstn_length, (Permutation_length (apply_perm_Permutation _ es perm Hperm)). reflexivity.
  Qed.
End Percolate.
