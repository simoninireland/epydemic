(* C10: the life cycle of an experiment object (Model/Lifecycle.v): set-up overwrites every per-run
   field, so the state at simulationStarted does not depend on the history; the prototype
   network is never written; the generator's quota; the protocol of one run. *)
From Coq Require Import List ZArith QArith Bool Arith String Lia.
From EpyV Require Import Model.Kernel Model.Lifecycle.
Import ListNotations.
Close Scope Q_scope.
Open Scope list_scope.

Section Proofs.
Variables G W P : Type.
Variable u : user G W P.
Notation state := (state G W P).

Lemma h_get_alloc (a : nat) (g : G) (h : heap G) :
  h_get a (snd (h_alloc g h)) = if Nat.eqb a (h_next h) then Some g else h_get a h.
Proof. reflexivity. Qed.
Lemma h_get_set (a b : nat) (g : G) (h : heap G) :
  h_get a (h_set b g h) = if Nat.eqb a b then Some g else h_get a h.
Proof. reflexivity. Qed.

(* the prototype holds g0, the working network (if any) is another object, addresses are allocated *)
Definition Inv (g0 : G) (s : state) : Prop :=
  h_get (s_proto s) (s_heap s) = Some g0
  /\ s_proto s < h_next (s_heap s)
  /\ match s_graph s with Some a => a <> s_proto s /\ a < h_next (s_heap s) | None => True end.

Definition can_generate (s : state) : bool :=
  match s_remaining s with Some O => false | _ => true end.

Lemma Inv_eq g0 (s s' : state) :
  s_proto s' = s_proto s -> s_heap s' = s_heap s -> s_graph s' = s_graph s -> Inv g0 s -> Inv g0 s'.
Proof. unfold Inv. intros -> -> ->. tauto. Qed.
Lemma Inv_drop g0 (s s' : state) :
  s_proto s' = s_proto s -> s_heap s' = s_heap s -> s_graph s' = None -> Inv g0 s -> Inv g0 s'.
Proof. unfold Inv. intros -> -> ->. tauto. Qed.
Lemma Inv_hset g0 (s s' : state) a g' :
  s_graph s = Some a -> s_proto s' = s_proto s -> s_heap s' = h_set a g' (s_heap s) -> s_graph s' = s_graph s ->
  Inv g0 s -> Inv g0 s'.
Proof.
  unfold Inv. intros Eg -> -> ->. rewrite Eg. intros (H1 & H2 & Hne & Hlt). rewrite h_get_set.
  destruct (Nat.eqb_spec (s_proto s) a) as [E|_]; [congruence|]. repeat split; assumption.
Qed.
Lemma Inv_put g0 g (s : state) : Inv g0 s -> Inv g0 (put_graph g s).
Proof.
  intros (H1 & H2 & _). unfold Inv. cbn. unfold h_get. cbn.
  destruct (Nat.eqb_spec (s_proto s) (h_next (s_heap s))) as [E|_]; [lia|].
  split; [exact H1|]. split; [lia|]. split; lia.
Qed.

(* user code reaches only the working network *)
Lemma Inv_act g0 (f : st W * G -> st W * G) (s : state) : Inv g0 s -> Inv g0 (act f s).
Proof.
  intro HI. unfold act. destruct (s_graph s) as [a|] eqn:Eg; [|exact HI].
  destruct (h_get a (s_heap s)) as [g|]; [|exact HI].
  apply (Inv_hset g0 s _ a (snd (f (s_k s, g))) Eg); try reflexivity. exact HI.
Qed.

Lemma act_fields (f : st W * G -> st W * G) (s : state) :
  s_proto (act f s) = s_proto s /\ s_remaining (act f s) = s_remaining s /\ s_generated (act f s) = s_generated s.
Proof. unfold act. destruct (s_graph s) as [a|]; [destruct (h_get a (s_heap s))|]; repeat split. Qed.

Lemma act_trace (f : st W * G -> st W * G) (s : state) : s_trace (act f s) = s_trace s.
Proof. unfold act. destruct (s_graph s) as [a|]; [destruct (h_get a (s_heap s))|]; reflexivity. Qed.

Inductive net_case (params : P) (inj : option fail) (s : state) : state * bool -> Prop :=
| NC_exhausted : s_remaining s = Some O -> net_case params inj s (no_graph (drop_graph params s), false)
| NC_generator_raised : s_remaining s <> Some O -> inj = Some FGenerate ->
    net_case params inj s (take_quota (drop_graph params s), true)
| NC_no_prototype : s_remaining s <> Some O -> inj <> Some FGenerate -> h_get (s_proto s) (s_heap s) = None ->
    net_case params inj s (drop_graph params s, true)
| NC_generated g : s_remaining s <> Some O -> inj <> Some FGenerate -> h_get (s_proto s) (s_heap s) = Some g ->
    net_case params inj s (put_graph g (take_quota (drop_graph params s)), false).

Lemma net_setup_case params inj s : net_case params inj s (net_setup params inj s).
Proof.
  unfold net_setup. destruct (s_remaining s) as [[|n]|] eqn:Er; [apply NC_exhausted; exact Er| |].
  all: destruct inj as [[| | | | | |]|].
  all: try (apply NC_generator_raised; congruence).
  all: destruct (h_get (s_proto s) (s_heap s)) as [g|] eqn:Eg;
       [apply NC_generated; congruence|apply NC_no_prototype; congruence].
Qed.

Inductive dyn_case (i : nat) (params : P) (inj : option fail) (s : state) : state * bool -> Prop :=
| DC_reset : inj = Some FReset -> dyn_case i params inj s (log TReset (clear_stream u i s), true)
| DC_build : inj = Some FBuild ->
    dyn_case i params inj s (act (u_partial u FBuild params) (log TBuild (reset_proc u i (clear_stream u i s))), true)
| DC_no_network : inj <> Some FReset -> inj <> Some FBuild ->
    (s_graph s = None \/ exists a, s_graph s = Some a /\ h_get a (s_heap s) = None) ->
    dyn_case i params inj s (log TBuild (reset_proc u i (clear_stream u i s)), true)
| DC_proc_setup a g : inj = Some FProcSetUp -> s_graph s = Some a -> h_get a (s_heap s) = Some g ->
    dyn_case i params inj s
      (act (u_partial u FProcSetUp params)
           (log TProcSetUp (built u i (u_table u params g) (reset_proc u i (clear_stream u i s)))), true)
| DC_ok a g : inj <> Some FReset -> inj <> Some FBuild -> inj <> Some FProcSetUp ->
    s_graph s = Some a -> h_get a (s_heap s) = Some g ->
    dyn_case i params inj s
      (proc_setup u i a (u_decorate u params g) (u_table u params g)
                  (built u i (u_table u params g) (reset_proc u i (clear_stream u i s))), false).

Lemma dyn_setup_case i params inj s : dyn_case i params inj s (dyn_setup u i params inj s).
Proof.
  unfold dyn_setup.
  destruct inj as [[| | | | | |]|]; try (apply DC_reset; reflexivity); try (apply DC_build; reflexivity).
  all: destruct (s_graph s) as [a|] eqn:Eg; [|apply DC_no_network; [congruence|congruence|left; exact Eg]].
  all: destruct (h_get a (s_heap s)) as [g|] eqn:Ea;
       [|apply DC_no_network; [congruence|congruence|right; exists a; split; [exact Eg|exact Ea]]].
  all: try (apply (DC_ok i params _ s a g); try congruence; assumption).
  apply (DC_proc_setup i params _ s a g); [reflexivity|exact Eg|exact Ea].
Qed.

Lemma Inv_net_setup g0 params inj s : Inv g0 s -> Inv g0 (fst (net_setup params inj s)).
Proof.
  intro HI. destruct (net_setup_case params inj s); cbn [fst].
  - apply (Inv_drop g0 s); try reflexivity. exact HI.
  - apply (Inv_drop g0 s); try reflexivity. exact HI.
  - apply (Inv_drop g0 s); try reflexivity. exact HI.
  - apply Inv_put. apply (Inv_drop g0 s); try reflexivity. exact HI.
Qed.

Lemma Inv_dyn_setup g0 i params inj s : Inv g0 s -> Inv g0 (fst (dyn_setup u i params inj s)).
Proof.
  intro HI. destruct (dyn_setup_case i params inj s); cbn [fst].
  - apply (Inv_eq g0 s); try reflexivity. exact HI.
  - apply Inv_act. apply (Inv_eq g0 s); try reflexivity. exact HI.
  - apply (Inv_eq g0 s); try reflexivity. exact HI.
  - apply Inv_act. apply (Inv_eq g0 s); try reflexivity. exact HI.
  - apply (Inv_hset g0 s _ a (u_decorate u params g)); try reflexivity; assumption.
Qed.

Lemma Inv_setup g0 i params inj s : Inv g0 s -> Inv g0 (fst (setup u i params inj s)).
Proof.
  intro HI. unfold setup.
  assert (H1 : Inv g0 (fst (net_setup params inj (prologue s)))).
  { apply Inv_net_setup. apply (Inv_eq g0 s); try reflexivity. exact HI. }
  destruct (snd (net_setup params inj (prologue s))); [exact H1|]. apply Inv_dyn_setup. exact H1.
Qed.

Lemma Inv_after_started g0 params o (s : state) : Inv g0 s -> Inv g0 (fst (after_started u params o s)).
Proof.
  intro HI. unfold after_started.
  assert (H3 : Inv g0 (act (u_body u o params) (log TStarted s))).
  { apply Inv_act. apply (Inv_eq g0 s); try reflexivity. exact HI. }
  set (s3 := act (u_body u o params) (log TStarted s)) in *. clearbody s3.
  destruct o as [|[| | | |k| |]]; cbn [fst]; apply (Inv_eq g0 s3); try reflexivity; exact H3.
Qed.

Lemma Inv_run_once g0 i params o s : Inv g0 s -> Inv g0 (fst (run_once u i params o s)).
Proof.
  intro HI. unfold run_once.
  pose proof (Inv_setup g0 i params (match o with Ok => None | FailAt f => Some f end) s HI) as H1.
  destruct (snd (setup u i params _ s)); cbn [fst].
  - apply (Inv_eq g0 (fst (setup u i params (match o with Ok => None | FailAt f => Some f end) s))); try reflexivity. exact H1.
  - apply Inv_after_started. exact H1.
Qed.

Lemma Inv_run_all g0 h : forall i s, Inv g0 s -> Inv g0 (run_all u i h s).
Proof.
  induction h as [|[params o] h IH]; intros i s HI; simpl; [exact HI|]. apply IH, Inv_run_once, HI.
Qed.

Lemma Inv_initial g0 limit : Inv g0 (initial u g0 limit).
Proof. unfold Inv, initial. simpl. repeat split. lia. Qed.

(* what one run does to the reference to the prototype and to the generator's counters: nothing, or
   it asks an unexhausted generator once, which takes one from a finite quota and hands out at
   most one network *)
Definition asked (s s' : state) : Prop :=
  s_proto s' = s_proto s
  /\ ((s_remaining s' = s_remaining s /\ s_generated s' = s_generated s)
      \/ (s_remaining s <> Some 0 /\ s_remaining s' = match s_remaining s with Some (S n) => Some n | r => r end
          /\ s_generated s' <= S (s_generated s))).

Lemma asked_then (s s1 s2 : state) : asked s s1 ->
  s_proto s2 = s_proto s1 -> s_remaining s2 = s_remaining s1 -> s_generated s2 = s_generated s1 -> asked s s2.
Proof. unfold asked. intros H -> -> ->. exact H. Qed.

Lemma asked_act (s s1 : state) f : asked s s1 -> asked s (act f s1).
Proof. intros H. destruct (act_fields f s1) as (A1 & A2 & A3). exact (asked_then _ _ _ H A1 A2 A3). Qed.

Lemma setup_asked i params inj (s : state) : asked s (fst (setup u i params inj s)).
Proof.
  unfold setup.
  assert (H1 : asked s (fst (net_setup params inj (prologue s)))).
  { destruct (net_setup_case params inj (prologue s)) as [_|Hr _|_ _ _|g Hr _ _]; (split; [reflexivity|]).
    1,3: left; split; reflexivity.
    all: right; split; [exact Hr|split; [reflexivity|cbn; lia]]. }
  destruct (snd (net_setup params inj (prologue s))); [exact H1|].
  revert H1. generalize (fst (net_setup params inj (prologue s))). intros s1 H1.
  destruct (dyn_setup_case i params inj s1); cbn [fst]; try apply asked_act; apply (asked_then s s1 _ H1); reflexivity.
Qed.

Lemma run_once_asked i params o (s : state) : asked s (fst (run_once u i params o s)).
Proof.
  unfold run_once. pose proof (setup_asked i params (match o with Ok => None | FailAt f => Some f end) s) as H1.
  destruct (snd (setup u i params _ s)); cbn [fst]; [exact H1|]. unfold after_started.
  assert (H3 : asked s (act (u_body u o params) (log TStarted (fst (setup u i params (match o with Ok => None | FailAt f => Some f end) s)))))
    by (apply asked_act, (asked_then _ _ _ H1); reflexivity).
  set (s3 := act _ _) in *. clearbody s3.
  destruct o as [|[| | | |k| |]]; cbn [fst]; apply (asked_then _ _ _ H3); reflexivity.
Qed.

Lemma run_all_proto h : forall i (s : state), s_proto (run_all u i h s) = s_proto s.
Proof.
  induction h as [|[params o] h IH]; intros i s; simpl; [reflexivity|]. rewrite IH. apply run_once_asked.
Qed.

Lemma setup_fresh g0 i params s : Inv g0 s -> can_generate s = true ->
  snd (setup u i params None s) = false /\ view_of (fst (setup u i params None s)) = F u i params g0.
Proof.
  intros (H1 & H2 & H3) Hq. unfold setup.
  destruct (net_setup_case params None (prologue s)) as [Hr|Hr Hi|Hr Hi Hp|g Hr Hi Hp]; cbn [fst snd].
  - exfalso. unfold can_generate in Hq. change (s_remaining (prologue s)) with (s_remaining s) in Hr. rewrite Hr in Hq. discriminate.
  - discriminate.
  - exfalso. change (h_get (s_proto s) (s_heap s) = None) in Hp. congruence.
  - change (h_get (s_proto s) (s_heap s) = Some g) in Hp. assert (g = g0) by congruence. subst g.
    set (s1 := put_graph g0 (take_quota (drop_graph params (prologue s)))).
    assert (Eg : s_graph s1 = Some (h_next (s_heap s))) by reflexivity.
    assert (Ea : h_get (h_next (s_heap s)) (s_heap s1) = Some g0) by (unfold s1, h_get; cbn; rewrite Nat.eqb_refl; reflexivity).
    destruct (dyn_setup_case i params None s1) as [Hj|Hj|_ _ Hn|a g Hj _ _|a g _ _ _ Ha Hg]; try discriminate; cbn [fst snd].
    + exfalso. destruct Hn as [Hn|(a & Ha & Hn)]; [congruence|]. rewrite Eg in Ha. injection Ha as <-. congruence.
    + rewrite Eg in Ha. injection Ha as <-. rewrite Ea in Hg. injection Hg as <-.
      split; [reflexivity|]. unfold view_of, F. cbn. unfold h_get. cbn. rewrite Nat.eqb_refl. reflexivity.
Qed.

Lemma setup_exhausted i params s : s_remaining s = Some O ->
  snd (setup u i params None s) = true
  /\ view_of (fst (setup u i params None s))
     = {| v_net := None; v_genparams := Some params; v_topology := true; v_k := fresh_k u (u_world u) i;
          v_table := None; v_status := None; v_results := false |}.
Proof.
  intro Hr. unfold setup.
  destruct (net_setup_case params None (prologue s)) as [_|Hr'|Hr'|g Hr']; cbn [fst snd];
    try (exfalso; apply Hr'; exact Hr).
  set (s1 := no_graph (drop_graph params (prologue s))).
  assert (Eg : s_graph s1 = None) by reflexivity.
  destruct (dyn_setup_case i params None s1) as [Hj|Hj|_ _ Hn|a g Hj _ _|a g _ _ _ Ha Hg]; try discriminate; cbn [fst snd].
  split; reflexivity.
Qed.

(* set-up reads no per-run field: from any two states of objects around the same prototype value
   and with the same quota status it leaves the same per-run state *)
Theorem fresh g0 i params s s' : Inv g0 s -> Inv g0 s' -> can_generate s = can_generate s' ->
  snd (setup u i params None s) = snd (setup u i params None s')
  /\ view_of (fst (setup u i params None s)) = view_of (fst (setup u i params None s')).
Proof.
  intros HI HI' Hq. destruct (can_generate s) eqn:E.
  - destruct (setup_fresh g0 i params s HI E) as [A B]. destruct (setup_fresh g0 i params s' HI' (eq_sym Hq)) as [A' B'].
    rewrite A, A', B, B'. split; reflexivity.
  - assert (Hr : s_remaining s = Some O) by (unfold can_generate in E; destruct (s_remaining s) as [[|n]|]; congruence).
    assert (Hr' : s_remaining s' = Some O)
      by (symmetry in Hq; unfold can_generate in Hq; destruct (s_remaining s') as [[|n]|]; congruence).
    destruct (setup_exhausted i params s Hr) as [A B]. destruct (setup_exhausted i params s' Hr') as [A' B'].
    rewrite A, A', B, B'. split; reflexivity.
Qed.

(* after every history, the next run starts from F(parameters, prototype value, its random source) *)
Theorem history g0 limit h params :
  let s := run_all u 0 h (initial u g0 limit) in
  can_generate s = true ->
  exists s1, at_started u (List.length h) params s = Some s1 /\ view_of s1 = F u (List.length h) params g0.
Proof.
  cbv zeta. intro Hq. pose proof (Inv_run_all g0 h 0 _ (Inv_initial g0 limit)) as HI.
  destruct (setup_fresh g0 (List.length h) params _ HI Hq) as [A B]. unfold at_started. rewrite A.
  eexists. split; [reflexivity|exact B].
Qed.

Definition quota_inv (L : nat) (s : state) : Prop :=
  exists r, s_remaining s = Some r /\ s_generated s + r <= L.

Lemma asked_quota L (s s' : state) : asked s s' -> quota_inv L s -> quota_inv L s'.
Proof.
  intros [_ [[Er Eg]|(Hr & Er & Hg)]] (r & Hs & Hle); unfold quota_inv; rewrite Er.
  - rewrite Eg. exists r. split; [exact Hs|exact Hle].
  - rewrite Hs in *. destruct r as [|n]; [congruence|]. exists n. split; [reflexivity|lia].
Qed.

Theorem quota L h : forall i s, quota_inv L s -> quota_inv L (run_all u i h s).
Proof.
  induction h as [|[params o] h IH]; intros i s HQ; simpl; [exact HQ|]. apply IH. exact (asked_quota L _ _ (run_once_asked i params o s) HQ).
Qed.

Lemma run_all_unbounded h : forall i (s : state), s_remaining s = None -> s_remaining (run_all u i h s) = None.
Proof.
  induction h as [|[params o] h IH]; intros i s Hs; simpl; [exact Hs|]. apply IH.
  destruct (run_once_asked i params o s) as [_ [[Er _]|(_ & Er & _)]]; rewrite Er, Hs; reflexivity.
Qed.

(* the calls that one run adds to the trace, oldest first *)
Definition calls_of (s s' : state) (l : list tag) : Prop := s_trace s' = rev l ++ s_trace s.

Definition protocol_spec (o : outcome) (s s' : state) (failed : bool) : Prop :=
  match o with
  | Ok => failed = false /\ s_status s' = Some true /\ queue (s_k s') = []
          /\ calls_of s s' [TSetUp; TGenerate true; TReset; TBuild; TProcSetUp; TStarted; TResults; TEnded; TProcTearDown; TTornDown]
  | FailAt FGenerate => failed = true /\ s_status s' = Some false /\ calls_of s s' [TSetUp]
  | FailAt FReset => failed = true /\ s_status s' = Some false /\ calls_of s s' [TSetUp; TGenerate true; TReset]
  | FailAt FBuild => failed = true /\ s_status s' = Some false /\ calls_of s s' [TSetUp; TGenerate true; TReset; TBuild]
  | FailAt FProcSetUp => failed = true /\ s_status s' = Some false
                         /\ calls_of s s' [TSetUp; TGenerate true; TReset; TBuild; TProcSetUp]
  | FailAt (FEvent _) => failed = true /\ s_status s' = Some false /\ queue (s_k s') = []
                         /\ calls_of s s' [TSetUp; TGenerate true; TReset; TBuild; TProcSetUp; TStarted; TProcTearDown; TTornDown]
  | FailAt FResults => failed = true /\ s_status s' = Some false /\ queue (s_k s') = []
                       /\ calls_of s s' [TSetUp; TGenerate true; TReset; TBuild; TProcSetUp; TStarted; TResults; TProcTearDown; TTornDown]
  | FailAt FProcTearDown => failed = true /\ s_status s' = Some false
                            /\ calls_of s s' [TSetUp; TGenerate true; TReset; TBuild; TProcSetUp; TStarted; TResults; TEnded; TProcTearDown]
  end.

Lemma calls_of_app (s s1 s2 : state) l1 l2 : calls_of s s1 l1 -> calls_of s1 s2 l2 -> calls_of s s2 (l1 ++ l2).
Proof. unfold calls_of. intros H1 H2. rewrite H2, H1, rev_app_distr, app_assoc. reflexivity. Qed.

(* set-up on a generator that may still generate: whether it raises, and the calls made up to there *)
Lemma setup_calls g0 i params inj s : Inv g0 s -> can_generate s = true ->
  let r := setup u i params inj s in
  match inj with
  | Some FGenerate => snd r = true /\ calls_of s (fst r) [TSetUp]
  | Some FReset => snd r = true /\ calls_of s (fst r) [TSetUp; TGenerate true; TReset]
  | Some FBuild => snd r = true /\ calls_of s (fst r) [TSetUp; TGenerate true; TReset; TBuild]
  | Some FProcSetUp => snd r = true /\ calls_of s (fst r) [TSetUp; TGenerate true; TReset; TBuild; TProcSetUp]
  | _ => snd r = false /\ calls_of s (fst r) [TSetUp; TGenerate true; TReset; TBuild; TProcSetUp]
  end.
Proof.
  intros (H1 & H2 & H3) Hq. cbv zeta. unfold setup.
  destruct (net_setup_case params inj (prologue s)) as [Hr|Hr Hi|Hr Hi Hp|g Hr Hi Hp]; cbn [fst snd].
  - exfalso. unfold can_generate in Hq. change (s_remaining s = Some O) in Hr. rewrite Hr in Hq. discriminate.
  - rewrite Hi. split; reflexivity.
  - exfalso. change (h_get (s_proto s) (s_heap s) = None) in Hp. congruence.
  - set (s1 := put_graph g (take_quota (drop_graph params (prologue s)))).
    assert (Et : calls_of s s1 [TSetUp; TGenerate true]) by reflexivity.
    assert (Eg : s_graph s1 = Some (h_next (s_heap s))) by reflexivity.
    assert (Ea : h_get (h_next (s_heap s)) (s_heap s1) = Some g) by (unfold s1, h_get; cbn; rewrite Nat.eqb_refl; reflexivity).
    clearbody s1. unfold calls_of in *.
    destruct (dyn_setup_case i params inj s1) as [Hj|Hj|Hj1 Hj2 Hn|a g' Hj Ha Hg|a g' Hj1 Hj2 Hj3 Ha Hg]; cbn [fst snd].
    + rewrite Hj. cbn. rewrite Et. split; reflexivity.
    + rewrite Hj, act_trace. cbn. rewrite Et. split; reflexivity.
    + exfalso. destruct Hn as [Hn|(a & Ha & Hn)]; [congruence|]. rewrite Eg in Ha. injection Ha as <-. congruence.
    + rewrite Hj, act_trace. cbn. rewrite Et. split; reflexivity.
    + destruct inj as [[| | | |k| |]|]; try congruence; cbn; rewrite Et; split; reflexivity.
Qed.

(* do() and what follows it *)
Lemma after_started_calls params o (s1 : state) :
  let r := after_started u params o s1 in
  match o with
  | FailAt (FEvent _) => snd r = true /\ s_status (fst r) = Some false /\ queue (s_k (fst r)) = []
                         /\ calls_of s1 (fst r) [TStarted; TProcTearDown; TTornDown]
  | FailAt FResults => snd r = true /\ s_status (fst r) = Some false /\ queue (s_k (fst r)) = []
                       /\ calls_of s1 (fst r) [TStarted; TResults; TProcTearDown; TTornDown]
  | FailAt FProcTearDown => snd r = true /\ s_status (fst r) = Some false
                            /\ calls_of s1 (fst r) [TStarted; TResults; TEnded; TProcTearDown]
  | _ => snd r = false /\ s_status (fst r) = Some true /\ queue (s_k (fst r)) = []
         /\ calls_of s1 (fst r) [TStarted; TResults; TEnded; TProcTearDown; TTornDown]
  end.
Proof.
  cbv zeta. unfold after_started, calls_of.
  pose proof (act_trace (u_body u o params) (log TStarted s1)) as At.
  set (s3 := act (u_body u o params) (log TStarted s1)) in *. clearbody s3. cbn in At.
  destruct o as [|[| | | |k| |]]; cbn; rewrite At; repeat split; reflexivity.
Qed.

Theorem protocol g0 i params o s : Inv g0 s -> can_generate s = true ->
  protocol_spec o s (fst (run_once u i params o s)) (snd (run_once u i params o s)).
Proof.
  intros HI Hq. unfold run_once.
  pose proof (setup_calls g0 i params (match o with Ok => None | FailAt f => Some f end) s HI Hq) as H.
  pose proof (after_started_calls params o (fst (setup u i params (match o with Ok => None | FailAt f => Some f end) s))) as H'.
  cbv zeta in H, H'. destruct (setup u i params _ s) as [s1 b]. cbn [fst snd] in *.
  destruct o as [|[| | | |k| |]]; destruct H as [-> Hc]; cbn [fst snd protocol_spec].
  2-5: repeat split; exact Hc.
  1-3: destruct H' as (A & B & C & D); repeat split; try assumption; exact (calls_of_app _ _ _ _ _ Hc D).
  destruct H' as (A & B & D); repeat split; try assumption; exact (calls_of_app _ _ _ _ _ Hc D).
Qed.

End Proofs.
