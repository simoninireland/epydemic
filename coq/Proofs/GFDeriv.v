(* Derivatives: the three derivative() methods read as a relation, of which [deriv] is the
   function (the fuel of Model/GF.v always suffices); the coefficients of the k-th derivative
   are (i+k)!/i! times the coefficient i+k, for every tree (product rule = Leibniz identity). *)
From Coq Require Import List ZArith QArith Bool Arith Lia Setoid Morphisms.
From EpyV Require Import Model.GF Proofs.GFSum Proofs.GFCoeff.
Import ListNotations.
Open Scope Q_scope.

(* FunctionGF.derivative; SumGF.derivative; ProductGF.derivative: `return self` for order 0, else
   d = SumGF(ProductGF(gf1.dx(), gf2), ProductGF(gf1, gf2.dx())); return d.dx(order - 1) *)
Inductive derives : nat -> gf -> gf -> Prop :=
| derives_Fn k c m : derives k (Fn c m) (Fn (dcoef c k) m)
| derives_Sum k a b a' b' : derives k a a' -> derives k b b' -> derives k (Sum a b) (Sum a' b')
| derives_Prod_0 a b : derives 0 (Prod a b) (Prod a b)
| derives_Prod_S k a b a1 b1 r :
    derives 1 a a1 -> derives 1 b b1 -> derives k (Sum (Prod a1 b) (Prod a b1)) r -> derives (S k) (Prod a b) r.

Lemma derives_fun {k g d} : derives k g d -> forall {d'}, derives k g d' -> d = d'.
Proof.
  induction 1 as [| k a b a' b' _ IHa _ IHb | | k a b a1 b1 r _ IHa _ IHb _ IHr]; intros d' H'; inversion H'; subst.
  - reflexivity.
  - f_equal; auto.
  - reflexivity.
  - apply IHr. rewrite (IHa a2), (IHb b2); assumption.
Qed.

Lemma deriv_on_derives {f} : forall {k g d}, deriv_on f k g = Some d -> derives k g d.
Proof.
  induction f; intros k g d H; [discriminate|].
  destruct g as [c m|a b|a b]; cbn [deriv_on] in H.
  - injection H as <-. constructor.
  - destruct (deriv_on f k a) as [a'|] eqn:Ea; [|discriminate].
    destruct (deriv_on f k b) as [b'|] eqn:Eb; [|discriminate].
    injection H as <-. constructor; auto.
  - destruct k as [|k]; [injection H as <-; constructor|].
    destruct (deriv_on f 1 a) as [a1|] eqn:Ea; [|discriminate].
    destruct (deriv_on f 1 b) as [b1|] eqn:Eb; [|discriminate].
    econstructor; eauto.
Qed.

(* Both lemmas are stated over bounds h, p of height and pdepth, split at once into bounds for the
   subtrees: with the maxima left in the context, lia's case analysis on them is slow to check. *)

(* one derivative: fuel h+3 is enough; the result is at most p higher and no deeper in products *)
Lemma deriv_on_1 g : forall h p f, (height g <= h -> pdepth g <= p -> h + 3 <= f ->
  exists d, deriv_on f 1 g = Some d /\ height d <= h + p /\ pdepth d <= p)%nat.
Proof.
  induction g as [c m|a IHa b IHb|a IHa b IHb]; intros h p f Hh Hp Hf;
    (destruct f as [|f]; [lia|]); cbn [deriv_on height pdepth] in *.
  - eexists. split; [reflexivity|]. cbn. lia.
  - destruct h as [|h]; [lia|]. apply le_S_n, Nat.max_lub_iff in Hh. apply Nat.max_lub_iff in Hp.
    destruct (IHa h p f) as (a' & -> & Ha1 & Ha2); [tauto | tauto | lia |].
    destruct (IHb h p f) as (b' & -> & Hb1 & Hb2); [tauto | tauto | lia |].
    eexists. split; [reflexivity|]. cbn [height pdepth]. split; lia.
  - destruct h as [|h]; [lia|]. destruct p as [|p]; [lia|]. apply le_S_n, Nat.max_lub_iff in Hh, Hp.
    destruct (IHa h p f) as (a' & -> & Ha1 & Ha2); [tauto | tauto | lia |].
    destruct (IHb h p f) as (b' & -> & Hb1 & Hb2); [tauto | tauto | lia |].
    (* two more units: the order-0 call on Sum (Prod a' b) (Prod a b') and the calls on its two products *)
    destruct f as [|[|f]]; [lia..|]. cbn [deriv_on].
    eexists. split; [reflexivity|]. cbn [height pdepth]. split; lia.
Qed.

(* each unit of order on a product costs one derivative of the factors, which raises the height by p *)
Lemma deriv_on_enough k : forall g h p f, (height g <= h -> pdepth g <= p -> h + 3 + k * (2 + p) <= f ->
  exists d, deriv_on f k g = Some d)%nat.
Proof.
  induction k as [|k IHk]; induction g as [c m|a IHa b IHb|a IHa b IHb]; intros h p f Hh Hp Hf;
    (destruct f as [|f]; [lia|]); cbn [deriv_on height pdepth] in *; try (eexists; reflexivity).
  (* remaining: a sum at order 0, a sum at order S k, a product at order S k *)
  1, 2: destruct h as [|h]; [lia|]; apply le_S_n, Nat.max_lub_iff in Hh; apply Nat.max_lub_iff in Hp;
    destruct (IHa h p f) as (a' & ->); [tauto | tauto | lia |];
    destruct (IHb h p f) as (b' & ->); [tauto | tauto | lia |]; eexists; reflexivity.
  destruct h as [|h]; [lia|]. destruct p as [|p]; [lia|]. apply le_S_n, Nat.max_lub_iff in Hh, Hp.
  destruct (deriv_on_1 a h p f) as (a1 & -> & Ha1 & Ha2); [tauto | tauto | lia |].
  destruct (deriv_on_1 b h p f) as (b1 & -> & Hb1 & Hb2); [tauto | tauto | lia |].
  apply (IHk _ (S h + S p)%nat (S p)); cbn [height pdepth]; lia.
Qed.

Lemma deriv_on_fuel k g f : (deriv_fuel k g <= f)%nat -> exists d, deriv_on f k g = Some d.
Proof. exact (deriv_on_enough k g (height g) (pdepth g) f (le_n _) (le_n _)). Qed.

Lemma deriv_derives k g : derives k g (deriv k g).
Proof.
  unfold deriv. destruct (deriv_on_fuel k g _ (le_n _)) as [d E]. rewrite E.
  exact (deriv_on_derives E).
Qed.

(* (i+1)(i+2)...(i+k) *)
Fixpoint ffq (i k : nat) : Q :=
  match k with O => 1 | S k' => ffq i k' * qn (i + S k') end.

Lemma dcoef_ffq c k i : dcoef c k i == ffq i k * c (i + k)%nat.
Proof.
  unfold dcoef. generalize (c (i + k)%nat) as m0. induction k; intros m0.
  - simpl. ring.
  - rewrite seq_S, fold_left_app. cbn [fold_left ffq]. rewrite IHk.
    replace (1 + k)%nat with (S k) by lia. ring.
Qed.

Lemma ffq_fact i k : ffq i k * qn (fact i) == qn (fact (i + k)).
Proof.
  induction k.
  - simpl. rewrite Nat.add_0_r. ring.
  - cbn [ffq]. replace (i + S k)%nat with (S (i + k)) by lia.
    change (fact (S (i + k))) with (S (i + k) * fact (i + k))%nat.
    rewrite qn_mul, <- IHk. ring.
Qed.

Lemma ffq_quot i k : ffq i k == qn (fact (i + k)) / qn (fact i).
Proof. rewrite <- ffq_fact. field. apply qn_pos, lt_O_fact. Qed.

Lemma ffq_1 i : ffq i 1 == qn (S i).
Proof. simpl. rewrite Nat.add_1_r. ring. Qed.

Lemma derives_coeff k g d : derives k g d -> forall i, coeff d i == ffq i k * coeff g (i + k)%nat.
Proof.
  induction 1 as [k c m | k a b a' b' _ Ha _ Hb | a b | k a b a1 b1 r _ Ha _ Hb _ Hr]; intros i.
  - apply dcoef_ffq.
  - cbn [coeff]. rewrite Ha, Hb. ring.
  - rewrite Nat.add_0_r. simpl ffq. ring.
  - rewrite Hr, coeff_Sum, !coeff_Prod.
    rewrite (cauchy_ext (coeff a1) (dseq (coeff a)) (coeff b) (coeff b) (i + k)); [| | reflexivity].
    2:{ intros j. rewrite Ha, ffq_1, Nat.add_1_r. reflexivity. }
    rewrite (cauchy_ext (coeff a) (coeff a) (coeff b1) (dseq (coeff b)) (i + k)); [|reflexivity|].
    2:{ intros j. rewrite Hb, ffq_1, Nat.add_1_r. reflexivity. }
    rewrite cauchy_leibniz, Nat.add_succ_r. cbn [ffq]. rewrite Nat.add_succ_r. ring.
Qed.

Theorem coeff_deriv k g i : coeff (deriv k g) i == ffq i k * coeff g (i + k)%nat.
Proof. exact (derives_coeff k g _ (deriv_derives k g) i). Qed.

Corollary coeff_deriv_fact k g i : coeff (deriv k g) i == qn (fact (i + k)) / qn (fact i) * coeff g (i + k)%nat.
Proof. rewrite coeff_deriv, ffq_quot. reflexivity. Qed.
