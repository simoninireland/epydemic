(* Proofs about Model/Shuffle.v (C18), part 1: the undirected edge list ([has_edge] through remove, add and
   swap; [simple]); sums over the edges, of which the degree and the number of edges are two; one guarded swap
   ([swap_ok]) keeps degrees, length and simplicity; [missing], the edges of the original that are gone. *)
From Coq Require Import List ZArith Bool Arith Lia.
From EpyV Require Import Lib.Prelude Lib.Lists Model.Shuffle.
Import ListNotations.
Local Open Scope nat_scope.

Lemma same_edge_iff a b c d :
  same_edge (a, b) (c, d) = true <-> (a = c /\ b = d) \/ (a = d /\ b = c).
Proof.
  unfold same_edge. cbn [fst snd]. rewrite orb_true_iff, !zpair_eqb_iff.
  split; (intros [H|H]; [left|right]); first [injection H as -> ->; auto | destruct H as [-> ->]; reflexivity].
Qed.

Lemma same_edge_false_iff a b c d :
  same_edge (a, b) (c, d) = false <-> ~ ((a = c /\ b = d) \/ (a = d /\ b = c)).
Proof. rewrite <- same_edge_iff. symmetry. apply not_true_iff_false. Qed.

Lemma same_edge_refl e : same_edge e e = true.
Proof. destruct e as [a b]. apply same_edge_iff. left; auto. Qed.

Lemma same_edge_sym e f : same_edge e f = same_edge f e.
Proof.
  destruct e as [a b], f as [c d]. unfold same_edge, zpair_eqb. cbn [fst snd].
  rewrite (Z.eqb_sym c a), (Z.eqb_sym d b), (Z.eqb_sym c b), (Z.eqb_sym d a), (andb_comm (b =? c)%Z). reflexivity.
Qed.

Lemma same_edge_flip a b f : same_edge (a, b) f = same_edge (b, a) f.
Proof. rewrite (same_edge_sym (a, b)), (same_edge_sym (b, a)). unfold same_edge. cbn [fst snd]. apply orb_comm. Qed.

Lemma same_edge_cong e f h : same_edge e f = true -> same_edge e h = same_edge f h.
Proof.
  destruct e as [a b], f as [c d]. intros H. apply same_edge_iff in H.
  destruct H as [[-> ->]|[-> ->]]; [reflexivity | apply same_edge_flip].
Qed.

Lemma same_edge_cong_r e f h : same_edge e f = true -> same_edge h e = same_edge h f.
Proof. intros H. rewrite (same_edge_sym h e), (same_edge_sym h f). exact (same_edge_cong e f h H). Qed.

Lemma same_edge_inc e f n : same_edge e f = true -> inc e n = inc f n.
Proof.
  destruct e as [a b], f as [c d]. intros H. apply same_edge_iff in H.
  unfold inc; cbn [fst snd]. destruct H as [[-> ->]|[-> ->]]; lia.
Qed.

Lemma has_edge_ext g e f : same_edge e f = true ->
  has_edge g (fst e) (snd e) = has_edge g (fst f) (snd f).
Proof.
  intros H. unfold has_edge. rewrite <- !surjective_pairing.
  induction g as [|x g IH]; cbn; [reflexivity|].
  rewrite IH, (same_edge_cong e f x H). reflexivity.
Qed.

Lemma has_edge_sym g a b : has_edge g a b = has_edge g b a.
Proof. apply (has_edge_ext g (a, b) (b, a)). apply same_edge_iff. right; auto. Qed.

Lemma has_edge_cons g e a b : has_edge (e :: g) a b = same_edge (a, b) e || has_edge g a b.
Proof. reflexivity. Qed.

Lemma has_edge_app g h a b : has_edge (g ++ h) a b = has_edge g a b || has_edge h a b.
Proof. unfold has_edge. apply existsb_app. Qed.

Lemma has_edge_snoc g a b c d : has_edge (g ++ [(a, b)]) c d = has_edge g c d || same_edge (a, b) (c, d).
Proof. rewrite has_edge_app, (same_edge_sym (a, b)). cbn. rewrite orb_false_r. reflexivity. Qed.

Lemma has_edge_In g a b : has_edge g a b = true <-> exists e, In e g /\ same_edge (a, b) e = true.
Proof. unfold has_edge. apply existsb_exists. Qed.

Lemma has_edge_remove g a b c d :
  has_edge (remove_edge g a b) c d = has_edge g c d && negb (same_edge (a, b) (c, d)).
Proof.
  unfold remove_edge. induction g as [|e g IH]; [reflexivity|].
  cbn [filter]. rewrite has_edge_cons. destruct (same_edge (c, d) e) eqn:Hc; cbn [orb].
  - (* e names (c,d): it is filtered out exactly if (c,d) names (a,b) *)
    rewrite <- (same_edge_cong_r (c, d) e (a, b) Hc).
    destruct (same_edge (a, b) (c, d)); cbn [negb]; [rewrite IH; apply andb_false_r|].
    rewrite has_edge_cons, Hc. reflexivity.
  - destruct (same_edge (a, b) e); cbn [negb]; [|rewrite has_edge_cons, Hc]; exact IH.
Qed.

Lemma has_edge_add g a b c d :
  has_edge (add_edge g a b) c d = has_edge g c d || same_edge (a, b) (c, d).
Proof.
  unfold add_edge. destruct (has_edge g a b) eqn:H.
  - destruct (same_edge (a, b) (c, d)) eqn:Hs; [|rewrite orb_false_r; reflexivity].
    rewrite <- (has_edge_ext g (a, b) (c, d) Hs : has_edge g a b = has_edge g c d), H. reflexivity.
  - apply has_edge_snoc.
Qed.

Lemma has_edge_swap g a b c d x y :
  has_edge (swap g a b c d) x y =
  has_edge g x y && negb (same_edge (a, b) (x, y)) && negb (same_edge (c, d) (x, y))
  || same_edge (a, d) (x, y) || same_edge (c, b) (x, y).
Proof. unfold swap. rewrite !has_edge_add, !has_edge_remove. reflexivity. Qed.

(* a networkx Graph holds every undirected edge once *)
Fixpoint nodupu (g : list edge) : Prop :=
  match g with [] => True | e :: r => has_edge r (fst e) (snd e) = false /\ nodupu r end.
Definition no_loops (g : list edge) : Prop := forall e, In e g -> fst e <> snd e.
Definition simple (g : list edge) : Prop := nodupu g /\ no_loops g.

Lemma has_edge_filter_sub (p : edge -> bool) g a b : has_edge (filter p g) a b = true -> has_edge g a b = true.
Proof.
  rewrite !has_edge_In. intros [e [Hi Hs]]. apply filter_In in Hi. exists e. tauto.
Qed.

Lemma nodupu_filter (p : edge -> bool) g : nodupu g -> nodupu (filter p g).
Proof.
  induction g as [|e g IH]; [trivial|]. intros [H1 H2]. cbn [filter].
  destruct (p e); [|auto]. split; [|auto].
  apply not_true_iff_false. intros H. apply has_edge_filter_sub in H. congruence.
Qed.

Lemma nodupu_snoc g a b : nodupu g -> has_edge g a b = false -> nodupu (g ++ [(a, b)]).
Proof.
  induction g as [|e g IH]; intros Hn Hh.
  - cbn. auto.
  - destruct Hn as [H1 H2]. rewrite has_edge_cons in Hh. apply orb_false_iff in Hh. destruct Hh as [Hs Hh].
    cbn [app nodupu]. split; [|auto].
    rewrite has_edge_snoc, H1, <- surjective_pairing. exact Hs.
Qed.

Lemma nodupu_add g a b : nodupu g -> nodupu (add_edge g a b).
Proof. intros H. unfold add_edge. destruct (has_edge g a b) eqn:Hh; [exact H | apply nodupu_snoc; assumption]. Qed.

Lemma no_loops_filter (p : edge -> bool) g : no_loops g -> no_loops (filter p g).
Proof. intros H e Hi. apply filter_In in Hi. apply H. tauto. Qed.

Lemma no_loops_add g a b : no_loops g -> a <> b -> no_loops (add_edge g a b).
Proof.
  intros H Hab. unfold add_edge. destruct (has_edge g a b); [exact H|].
  intros e Hi. apply in_app_or in Hi. destruct Hi as [Hi|[<-|[]]]; [auto | exact Hab].
Qed.

Lemma has_edge_no_loop g a b : no_loops g -> has_edge g a b = true -> a <> b.
Proof.
  intros Hl H. apply has_edge_In in H. destruct H as [[x y] [Hi Hs]].
  apply same_edge_iff in Hs. specialize (Hl _ Hi). cbn in Hl. destruct Hs as [[-> ->]|[-> ->]]; congruence.
Qed.

(* a sum over the edges: the degree of a node and the number of edges are two such sums *)
Definition esum (w : edge -> nat) (g : list edge) : nat := list_sum (map w g).

Lemma esum_cons w e g : esum w (e :: g) = w e + esum w g.
Proof. reflexivity. Qed.

Lemma deg_esum g n : deg g n = esum (fun e => inc e n) g.
Proof. induction g as [|e g IH]; cbn; [|rewrite IH]; reflexivity. Qed.

Lemma length_esum g : length g = esum (fun _ => 1) g.
Proof. induction g as [|e g IH]; cbn; [|rewrite IH]; reflexivity. Qed.

Lemma remove_absent g a b : has_edge g a b = false -> remove_edge g a b = g.
Proof.
  unfold remove_edge. induction g as [|e g IH]; [reflexivity|].
  rewrite has_edge_cons. intros H. apply orb_false_iff in H. destruct H as [H1 H2].
  cbn [filter]. rewrite H1. cbn. f_equal. auto.
Qed.

(* where no edge repeats, the edge is there once, so exactly its weight goes *)
Lemma esum_remove w g a b : (forall e f, same_edge e f = true -> w e = w f) ->
  nodupu g -> has_edge g a b = true -> esum w g = esum w (remove_edge g a b) + w (a, b).
Proof.
  intros Hw. induction g as [|e g IH]; [discriminate|]. intros [Hn1 Hn2]. rewrite has_edge_cons.
  unfold remove_edge. cbn [filter]. fold (remove_edge g a b).
  destruct (same_edge (a, b) e) eqn:He; cbn [negb orb]; intros H.
  - rewrite remove_absent; [rewrite esum_cons, (Hw _ e He); lia|].
    rewrite <- Hn1. apply (has_edge_ext g (a, b) e He).
  - rewrite !esum_cons, (IH Hn2 H). lia.
Qed.

Lemma esum_add w g a b : has_edge g a b = false -> esum w (add_edge g a b) = esum w g + w (a, b).
Proof. intros H. unfold add_edge, esum. rewrite H, map_app, list_sum_app. cbn. lia. Qed.

(* what the guards of shuffle.py:72-108 establish before lines 112-113 run *)
Record swap_ok (g : list edge) (a b c d : Z) : Prop := {
  ok_ab : has_edge g a b = true;
  ok_cd : has_edge g c d = true;
  ok_ca : c <> a; ok_cb : c <> b;
  ok_da : d <> a; ok_db : d <> b; ok_dc : d <> c;
  ok_ad : has_edge g a d = false;
  ok_cbe : has_edge g c b = false
}.

(* a-b and c-d go, a-d and c-b come: every sum over the edges changes by just these four terms *)
Lemma swap_esum {g a b c d} w : nodupu g -> swap_ok g a b c d ->
  (forall e f, same_edge e f = true -> w e = w f) ->
  esum w (swap g a b c d) + w (a, b) + w (c, d) = esum w g + w (a, d) + w (c, b).
Proof.
  intros Hn [Eab Ecd Hca Hcb Hda Hdb Hdc Ead Ecb] Hw. unfold swap.
  assert (Ecd' : has_edge (remove_edge g a b) c d = true).
  { rewrite has_edge_remove, Ecd. apply negb_true_iff, same_edge_false_iff. intros [[? ?]|[? ?]]; congruence. }
  assert (Ead' : has_edge (remove_edge (remove_edge g a b) c d) a d = false).
  { rewrite !has_edge_remove, Ead. reflexivity. }
  assert (Ecb' : has_edge (add_edge (remove_edge (remove_edge g a b) c d) a d) c b = false).
  { rewrite has_edge_add, !has_edge_remove, Ecb. apply same_edge_false_iff. intros [[? ?]|[? ?]]; congruence. }
  rewrite (esum_add w _ c b Ecb'), (esum_add w _ a d Ead').
  rewrite (esum_remove w g a b Hw Hn Eab), (esum_remove w (remove_edge g a b) c d Hw (nodupu_filter _ g Hn) Ecd').
  lia.
Qed.

(* each of a, b, c, d loses one edge and gains one *)
Lemma swap_degree {g a b c d} : nodupu g -> swap_ok g a b c d -> forall n, deg (swap g a b c d) n = deg g n.
Proof.
  intros Hn Hok n. generalize (swap_esum (fun e => inc e n) Hn Hok (fun e f H => same_edge_inc e f n H)).
  rewrite <- !deg_esum. unfold inc; cbn [fst snd]. lia.
Qed.

Lemma swap_length {g a b c d} : nodupu g -> swap_ok g a b c d -> length (swap g a b c d) = length g.
Proof. intros Hn Hok. generalize (swap_esum (fun _ => 1) Hn Hok (fun _ _ _ => eq_refl)). rewrite <- !length_esum. lia. Qed.

Section Swap.
  Variables (g : list edge) (a b c d : Z).
  Hypothesis Hs : simple g.
  Hypothesis Hok : swap_ok g a b c d.

  Lemma swap_simple : simple (swap g a b c d).
  Proof.
    destruct Hs as [Hn Hl], Hok as [_ _ _ Hcb Hda _ _ _ _]. split; unfold swap.
    - apply nodupu_add, nodupu_add. unfold remove_edge. apply nodupu_filter, nodupu_filter. exact Hn.
    - apply no_loops_add; [apply no_loops_add|].
      + unfold remove_edge. apply no_loops_filter, no_loops_filter. exact Hl.
      + intros E. exact (Hda (eq_sym E)).
      + exact Hcb.
  Qed.

  Lemma swap_distinct : NoDup [a; b; c; d].
  Proof.
    destruct Hok as [Eab _ Hca Hcb Hda Hdb Hdc _ _]. pose proof (has_edge_no_loop g a b (proj2 Hs) Eab) as Hab.
    repeat constructor; cbn; [intros [E|[E|[E|[]]]] | intros [E|[E|[]]] | intros [E|[]] | intros []]; congruence.
  Qed.

  Lemma swap_keeps x y : has_edge g x y = true -> same_edge (a, b) (x, y) = false -> same_edge (c, d) (x, y) = false ->
    has_edge (swap g a b c d) x y = true.
  Proof. intros H1 H2 H3. rewrite has_edge_swap, H1, H2, H3. reflexivity. Qed.
End Swap.
Arguments swap_simple {g a b c d}.
Arguments swap_distinct {g a b c d}.

(* the edges of g0 that g no longer has, under either name *)
Definition missing (g0 g : list edge) : list edge :=
  filter (fun e => negb (has_edge g (fst e) (snd e))) g0.

(* where no edge repeats, an edge has one name in the list or none *)
Lemma filter_same_count g x : nodupu g -> length (filter (same_edge x) g) = b2n (has_edge g (fst x) (snd x)).
Proof.
  induction g as [|e g IH]; [reflexivity|]. intros [He Hn].
  rewrite has_edge_cons, <- surjective_pairing. cbn [filter].
  destruct (same_edge x e) eqn:Hx; cbn [length orb]; rewrite (IH Hn); [|reflexivity].
  rewrite (has_edge_ext g x e Hx), He. reflexivity.
Qed.

(* only names of a-b and of c-d can be lost *)
Lemma missing_swap g0 g a b c d : nodupu g0 ->
  length (missing g0 (swap g a b c d)) <= length (missing g0 g) + 2.
Proof.
  intros Hn. unfold missing.
  eapply Nat.le_trans.
  - apply (filter_length_mono _ (fun e => negb (has_edge g (fst e) (snd e)) || (same_edge (a, b) e || same_edge (c, d) e))).
    intros [x y] _. cbn [fst snd]. rewrite has_edge_swap.
    destruct (has_edge g x y), (same_edge (a, b) (x, y)), (same_edge (c, d) (x, y)); cbn; intros; try reflexivity; try discriminate.
  - eapply Nat.le_trans; [apply filter_length_or|].
    apply Nat.add_le_mono_l.
    eapply Nat.le_trans; [apply filter_length_or|].
    rewrite !filter_same_count by exact Hn. cbn [fst snd].
    destruct (has_edge g0 a b), (has_edge g0 c d); cbn; lia.
Qed.

Lemma missing_self g : missing g g = [].
Proof.
  unfold missing.
  assert (H : forall h, incl h g -> filter (fun e => negb (has_edge g (fst e) (snd e))) h = []).
  { induction h as [|e h IH]; intros Hs; [reflexivity|]. cbn [filter].
    assert (has_edge g (fst e) (snd e) = true) as ->.
    { apply has_edge_In. exists e. split; [apply Hs; left; reflexivity|]. rewrite <- surjective_pairing. apply same_edge_refl. }
    apply IH. intros x Hx. apply Hs. right; exact Hx. }
  apply H, incl_refl.
Qed.
