(* Lemmas for C05 (used also for C06, C07, C12 and by the proofs over dynamic tables): what each
   layer of Model/Kernel.v appends to the observation stream, and what it leaves alone.  Facts are
   established per call (user programs mutate loci arbitrarily, so nothing about loci is carried
   across calls); a property that every allowed action keeps is lifted over action lists and
   programs once (Section User).  Then: reading the oracle as a move along its three streams
   ([advance]); the records of the synchronous tranche ([fire_tranche_spec]); one Gillespie
   iteration in two named parts ([stoch_select], [stoch_fire]) and the records of a whole Gillespie
   run ([stoch_run_member], [stoch_run_positive]). *)
From Coq Require Import List ZArith QArith Qabs Bool Arith Lia.
From EpyV Require Import Lib.Dist Model.Kernel Proofs.KernelBase Proofs.KernelLoops Proofs.KernelRelabel Proofs.GillespieSelect.
Import ListNotations.
Open Scope Q_scope.

Lemma elem_eqb_refl : forall x, elem_eqb x x = true.
Proof. destruct x; simpl; rewrite ?Z.eqb_refl; reflexivity. Qed.

Lemma elem_eqb_eq : forall x y, elem_eqb x y = true <-> x = y.
Proof.
  intros x y; split; [|intros ->; apply elem_eqb_refl].
  destruct x, y; simpl; try discriminate.
  - intros H; apply Z.eqb_eq in H; subst; reflexivity.
  - intros H; apply andb_true_iff in H; destruct H as [H1 H2].
    apply Z.eqb_eq in H1; apply Z.eqb_eq in H2; subst; reflexivity.
Qed.

Lemma mem_In : forall x l, mem x l = true <-> In x l.
Proof.
  intros x l; unfold mem; rewrite existsb_exists; split.
  - intros [y [Hy He]]. apply elem_eqb_eq in He; subst; exact Hy.
  - intros H; exists x; split; [exact H | apply elem_eqb_refl].
Qed.

Lemma nth_mod_In : forall (l : list elem) k d, l <> [] -> In (nth (k mod length l) l d) l.
Proof.
  intros l k d Hl. apply nth_In. apply Nat.mod_upper_bound.
  destruct l; [congruence | simpl; lia].
Qed.

(* records a user program itself can produce: anything but a handler entry or a tap *)
Definition act_obs (o : obs) : Prop :=
  match o with OHandler _ _ _ _ _ | OTap _ _ _ _ => False | _ => True end.
(* ... other than an observation *)
Definition note (o : obs) : Prop :=
  match o with OHandler _ _ _ _ _ | OTap _ _ _ _ | OObserve _ _ => False | _ => True end.

(* records of runPendingEvents(t): posted handlers (member = None) due by t, their taps, and actions *)
Definition posted_rec (t : Q) (o : obs) : Prop :=
  match o with
  | OHandler _ targ _ _ m => m = None /\ targ <= t
  | OTap t1 _ n _ => (exists k, n = NPost k) /\ t1 <= t
  | _ => True
  end.

(* Lifting over user code: a property of the state that allowed actions keep is kept by the action
   lists of the set-up phase and, when every program of the table only performs allowed actions,
   by running a program. *)
Definition setup_step {W} (acc : st W * nat) (p : proc) : st W * nat :=
  (run_actions (snd acc) 0 (EN 0) (p_setup p) (fst acc), S (snd acc)).

Section User.
Context {W : Type}.
Implicit Types s : st W.
Variable tb : table W.
Variable I : Q -> st W -> Prop.       (* holds while code called with handler time t runs *)
Variable ok : action -> Prop.         (* the actions that keep it *)
Hypothesis I_action : forall p t e a s, ok a -> I t s -> I t (do_action p t e a s).

Lemma user_actions p t e acts s : Forall ok acts -> I t s -> I t (run_actions p t e acts s).
Proof.
  unfold run_actions. revert s. induction acts as [|a acts IH]; intros s Hf HI; cbn [fold_left]; [exact HI|].
  inversion Hf; subst. apply IH; [assumption|]. apply I_action; assumption.
Qed.

Lemma user_setup ps : Forall (fun p => Forall ok (p_setup p)) ps ->
  forall acc, I 0 (fst acc) -> I 0 (fst (fold_left setup_step ps acc)).
Proof.
  induction 1 as [|p ps Hp _ IH]; intros acc HI; cbn [fold_left]; [exact HI|].
  apply IH, user_actions; assumption.
Qed.

Hypothesis I_world : forall t w s, I t s -> I t (set_world w s).
Hypothesis ok_progs : forall k t e l w, Forall ok (snd (prog_of tb k t e l w)).

Lemma user_prog p k t e s : I t s -> I t (run_prog tb p k t e s).
Proof.
  intros HI. unfold run_prog. pose proof (ok_progs k t e (loci s) (world s)) as Hf.
  destruct (prog_of tb k t e (loci s) (world s)) as [w acts]. cbn [snd] in Hf.
  apply user_actions; [exact Hf|apply I_world, HI].
Qed.

End User.

Lemma setup_state_fold {W} (tb : table W) rs ls ds :
  setup_state tb rs ls ds = fst (fold_left setup_step (t_procs tb) (init_state tb rs ls ds, 0%nat)).
Proof. reflexivity. Qed.

(* the same for a property that every action keeps *)
Section UserAny.
Context {W : Type} (tb : table W) (I : Q -> st W -> Prop).
Hypothesis I_action : forall p t e a s, I t s -> I t (do_action p t e a s).

Lemma user_setup_any rs ls ds : I 0 (init_state tb rs ls ds) -> I 0 (setup_state tb rs ls ds).
Proof.
  intros H. rewrite setup_state_fold.
  apply (user_setup I (fun _ => True) (fun p t e a s _ => I_action p t e a s) (t_procs tb)); [|exact H].
  apply Forall_forall. intros p _. apply Forall_forall. trivial.
Qed.

Lemma user_prog_any : (forall t w s, I t s -> I t (set_world w s)) ->
  forall p k t e s, I t s -> I t (run_prog tb p k t e s).
Proof.
  intros Hw. apply (user_prog tb I (fun _ => True) (fun p t e a s _ => I_action p t e a s) Hw).
  intros. apply Forall_forall. trivial.
Qed.
End UserAny.

Section KM.
Context {W : Type}.
Notation st := (st W).
Variable tb : table W.

(* [ext P s s']: s' has the records of s plus newer ones, all satisfying P (for user code P is
   act_obs, by umoves_act below; the kernel's own steps add handler records and taps) *)
Definition ext (P : obs -> Prop) (s s' : st) : Prop := exists l, out s' = l ++ out s /\ Forall P l.

Lemma ext_Forall : forall P s s', ext P s s' -> Forall P (out s) -> Forall P (out s').
Proof. intros P s s' [l [E F]] H; rewrite E; apply Forall_app; split; assumption. Qed.

(* user code leaves the clock and (KernelBase.oracle_of) the oracle and [stuck] alone; the
   conjunction is spelled out because statements about the dynamic tables destructure it *)
Definition frame (s s' : st) : Prop :=
  clock s' = clock s /\ rands s' = rands s /\ lns s' = lns s /\ draws s' = draws s /\ stuck s' = stuck s.

Lemma frame_oracle : forall s s', clock s' = clock s -> oracle_of s' = oracle_of s -> frame s s'.
Proof. intros s s' Hc [= A B C D]. repeat split; assumption. Qed.

Lemma frame_refl : forall s, frame s s.
Proof. intros; repeat split. Qed.

Lemma frame_trans : forall s1 s2 s3, frame s1 s2 -> frame s2 s3 -> frame s1 s3.
Proof.
  intros s1 s2 s3 (a1 & a2 & a3 & a4 & a5) (b1 & b2 & b3 & b4 & b5).
  repeat split; etransitivity; eassumption.
Qed.

(* what an action records and does to the loci: nothing, a note, the observation of the loci as
   they are, or an update of one locus *)
Lemma do_action_notes : forall (R : list obs -> list (list elem) -> Prop) p t e a (s : st),
  R (out s) (loci s) ->
  (forall x, note x -> R (x :: out s) (loci s)) ->
  R (OObserve t (map (@length elem) (loci s)) :: out s) (loci s) ->
  (forall k f, R (out s) (upd_nth k f (loci s))) ->
  R (out (do_action p t e a s)) (loci (do_action p t e a s)).
Proof.
  intros R p t e a s H0 Hn Ho Hl. destruct a; cbn [do_action].
  (* the four posting actions write OPosted, OPostedRep or OValueError *)
  1-4: unfold post; destruct (Qltb _ _); apply Hn; exact I.
  - destruct (ids s); [exact H0|]. destruct (find_live _ _); apply Hn; exact I.
  - destruct (ids s); [exact H0|]. apply Hn. exact I.
  - apply Hl.
  - apply Hl.
  - apply Hl.
  - apply Hl.
  - exact Ho.
Qed.

Lemma umoves_act : forall k k', umoves k k' -> exists l, snd k' = l ++ snd k /\ Forall act_obs l.
Proof.
  induction 1 as [k|k1 k2 k3 H _ [l [E A]]]; [exists []; split; [reflexivity|constructor]|].
  assert (H1 : exists x, snd k2 = x ++ snd k1 /\ Forall act_obs x).
  { destruct H as [c n q o x Hn|c n q o|c n q o x|c n q o i x]; [exists [x]|exists []|eexists [_]|eexists [_]];
      (split; [reflexivity|repeat constructor]). destruct x; try exact I; discriminate Hn. }
  destruct H1 as [l1 [E1 A1]]. exists (l ++ l1). rewrite E, E1, app_assoc.
  split; [reflexivity|apply Forall_app; split; assumption].
Qed.

Lemma umoves_spec : forall s s', umoves (core_of s) (core_of s') -> oracle_of s' = oracle_of s ->
  frame s s' /\ ext act_obs s s'.
Proof. intros s s' U O. split; [exact (frame_oracle s s' (core_clock U) O)|exact (umoves_act _ _ U)]. Qed.

Lemma do_action_spec : forall p t e a s,
  frame s (do_action p t e a s) /\ ext act_obs s (do_action p t e a s).
Proof. intros p t e a s. exact (umoves_spec _ _ (do_action_umoves p t e a s) (do_action_oracle p t e a s)). Qed.

Lemma run_actions_spec : forall p t e acts s,
  frame s (run_actions p t e acts s) /\ ext act_obs s (run_actions p t e acts s).
Proof. intros p t e acts s. exact (umoves_spec _ _ (run_actions_umoves p t e acts s) (run_actions_oracle p t e acts s)). Qed.

Lemma run_prog_spec : forall p k t e s,
  frame s (run_prog tb p k t e s) /\ ext act_obs s (run_prog tb p k t e s).
Proof. intros p k t e s. exact (umoves_spec _ _ (run_prog_umoves tb p k t e s) (run_prog_oracle tb p k t e s)). Qed.

Lemma act_posted : forall t o, act_obs o -> posted_rec t o.
Proof. intros t o; destruct o; simpl; tauto. Qed.

Lemma posted_rec_mono : forall t t' o, t <= t' -> posted_rec t o -> posted_rec t' o.
Proof.
  intros t t' o H; destruct o; simpl; try tauto.
  - intros [E L]; split; [exact E | exact (Qle_trans _ _ _ L H)].
  - intros [E L]; split; [exact E | exact (Qle_trans _ _ _ L H)].
Qed.

(* the three streams of KernelBase.oracle_of without [stuck], which run_pending raises when its fuel runs out *)
Definition oracle_same (s s' : st) : Prop := rands s' = rands s /\ lns s' = lns s /\ draws s' = draws s.

(* the number returned by runPendingEvents is the number of posted handlers it called *)
Definition is_posted (o : obs) : bool := match o with OHandler _ _ _ _ None => true | _ => false end.
Definition nposted (l : list obs) : nat := length (filter is_posted l).

Lemma nposted_act : forall l, Forall act_obs l -> nposted l = 0%nat.
Proof.
  unfold nposted. induction 1 as [|o l Ho _ IH]; [reflexivity|].
  simpl. destruct o; simpl in *; try exact IH; contradiction.
Qed.

Lemma nposted_app : forall a b, nposted (a ++ b) = (nposted a + nposted b)%nat.
Proof. intros; unfold nposted; rewrite filter_app, app_length; reflexivity. Qed.

(* firing a posted entry: the handler record, the program, then a repeating entry posts its
   successor (refused with a note if that lies in the past) *)
Lemma fire_inv : forall (I : st -> Prop) x s,
  I (run_prog tb (e_proc x) (e_prog x) (e_time x) (e_elem x)
       (emit (OHandler (e_prog x) (e_time x) (clock s) (e_elem x) None) s)) ->
  (forall ddt s2, e_rep x = Some ddt -> I s2 ->
     I (snd (post (Qred (e_time x + ddt)) (e_proc x) (e_elem x) (e_prog x) (Some ddt) s2))) ->
  (forall s2, I s2 -> I (emit OValueError s2)) ->
  I (fire tb x s).
Proof.
  intros I x s H Hp He. unfold fire. destruct (e_rep x) as [ddt|]; [|exact H].
  specialize (Hp ddt _ eq_refl H). destruct (post _ _ _ _ _ _) as [[i|] s3]; [exact Hp|apply He, Hp].
Qed.

Lemma fire_shape : forall x s, exists l, Forall act_obs l /\
  out (fire tb x s) = l ++ OHandler (e_prog x) (e_time x) (clock s) (e_elem x) None :: out s.
Proof. intros x s. destruct (umoves_act _ _ (fire_umoves tb x s)) as [l [E A]]. exists l. split; assumption. Qed.

Lemma run_pending_records : forall f t n s, exists l,
  out (snd (run_pending tb f t n s)) = l ++ out s /\ Forall (posted_rec t) l /\
  fst (run_pending tb f t n s) = (n + nposted l)%nat /\ oracle_same s (snd (run_pending tb f t n s)).
Proof.
  (* when nothing is fired: no new record, the count and the oracle as they were *)
  assert (Hnil : forall t (n : nat) (s s' : st), out s' = out s -> oracle_same s s' -> exists l,
            out s' = l ++ out s /\ Forall (posted_rec t) l /\ n = (n + nposted l)%nat /\ oracle_same s s').
  { intros t n s s' E O. exists []. split; [exact E|]. split; [constructor|]. split; [symmetry; apply Nat.add_0_r|exact O]. }
  induction f as [|f IH]; intros t n s; [apply Hnil; repeat split|].
  cbn [run_pending]. destruct (head (queue (discard s))) as [h|]; [|apply Hnil; repeat split].
  destruct (Qle_bool (e_time h) t) eqn:Hle; [|apply Hnil; repeat split].
  apply Qle_bool_iff in Hle.
  set (s1 := set_clock _ _).
  destruct (fire_shape h s1) as [lf [A Ef]]. pose proof (fire_oracle tb h s1) as [= O1 O2 O3 _].
  set (s3 := emit _ (fire tb h s1)).
  destruct (IH t (S n) s3) as [l' [E' [R' [N' (P1 & P2 & P3)]]]].
  exists (l' ++ OTap (e_time h) (e_proc h) (NPost (e_prog h)) (e_elem h) :: lf ++
          [OHandler (e_prog h) (e_time h) (clock s1) (e_elem h) None]).
  split; [|split; [|split]].
  - rewrite E'. unfold s3. cbn [emit out]. rewrite Ef. rewrite <- !app_assoc. cbn [app]. rewrite <- app_assoc. reflexivity.
  - apply Forall_app; split; [exact R'|]. constructor; [simpl; split; [eexists; reflexivity | exact Hle]|].
    apply Forall_app; split; [exact (Forall_impl _ (act_posted t) A)|].
    repeat constructor. exact Hle.
  - rewrite N'.
    change (OTap (e_time h) (e_proc h) (NPost (e_prog h)) (e_elem h) :: lf ++ [OHandler (e_prog h) (e_time h) (clock s1) (e_elem h) None])
      with ([OTap (e_time h) (e_proc h) (NPost (e_prog h)) (e_elem h)] ++ lf ++ [OHandler (e_prog h) (e_time h) (clock s1) (e_elem h) None]).
    rewrite !nposted_app, (nposted_act lf A). unfold nposted; simpl. lia.
  - repeat split; [rewrite P1|rewrite P2|rewrite P3]; assumption.
Qed.

Lemma run_pending_count : forall f t n s, exists l,
  out (snd (run_pending tb f t n s)) = l ++ out s /\ Forall (posted_rec t) l /\
  fst (run_pending tb f t n s) = (n + nposted l)%nat.
Proof. intros f t n s. destruct (run_pending_records f t n s) as [l (E & R & N & _)]. exists l. auto. Qed.

Lemma run_pending_spec : forall f t n s,
  oracle_same s (snd (run_pending tb f t n s)) /\ ext (posted_rec t) s (snd (run_pending tb f t n s)).
Proof. intros f t n s. destruct (run_pending_records f t n s) as [l (E & R & _ & O)]. split; [exact O|exists l; auto]. Qed.

Lemma fire_event_spec : forall pi j ev t e s,
  let s' := fire_event tb (pi, j, ev) t e s in
  frame s s' /\
  exists l, Forall act_obs l /\
    out s' = OTap t pi (NEv pi j) e :: l ++
             OHandler (ev_prog ev) t (clock s) e (Some (mem e (locus s (ev_locus ev)))) :: out s.
Proof.
  intros pi j ev t e s. simpl.
  set (s1 := emit _ s).
  destruct (run_prog_spec pi (ev_prog ev) t e s1) as [F [l [E A]]].
  split.
  - apply frame_oracle; [apply (fire_event_clock tb (pi, j, ev))|apply (fire_event_oracle tb (pi, j, ev))].
  - exists l; split; [exact A|]. simpl. rewrite E. reflexivity.
Qed.

(* consuming nr uniform variates, nl logarithms and nd ranks; an exhausted stream yields the
   default and sets [stuck] *)
Definition advance (nr nl nd : nat) (s : st) : st :=
  {| clock := clock s; nextid := nextid s; queue := queue s; loci := loci s; world := world s; ids := ids s; out := out s;
     rands := skipn nr (rands s); lns := skipn nl (lns s); draws := skipn nd (draws s);
     stuck := stuck s || (length (rands s) <? nr)%nat || (length (lns s) <? nl)%nat || (length (draws s) <? nd)%nat |}.

Lemma next_rand_adv : forall s, next_rand s = (hd 0 (rands s), advance 1 0 0 s).
Proof.
  intros [c ni q lc w i o rs ls ds sk]. unfold next_rand, advance, set_stuck, set_oracle. simpl.
  destruct rs as [|r rs]; simpl; destruct sk; reflexivity.
Qed.

Lemma next_ln_adv : forall s, next_ln s = (hd 0 (lns s), advance 0 1 0 s).
Proof.
  intros [c ni q lc w i o rs ls ds sk]. unfold next_ln, advance, set_stuck, set_oracle. simpl.
  destruct ls as [|r ls]; simpl; destruct sk; reflexivity.
Qed.

Lemma next_draw_adv : forall s, next_draw s = (hd 0%nat (draws s), advance 0 0 1 s).
Proof.
  intros [c ni q lc w i o rs ls ds sk]. unfold next_draw, advance, set_stuck, set_oracle. simpl.
  destruct ds as [|r ds]; simpl; destruct sk; reflexivity.
Qed.

Lemma ltb_skipn_add : forall (n a b : nat), ((n <? a) || (n - a <? b))%nat = (n <? a + b)%nat.
Proof.
  intros n a b. destruct (Nat.ltb_spec n a), (Nat.ltb_spec (n - a) b), (Nat.ltb_spec n (a + b)); simpl; try reflexivity; lia.
Qed.

Lemma skipn_add : forall A (a b : nat) (l : list A), skipn b (skipn a l) = skipn (a + b) l.
Proof.
  intros A a b. induction a as [|a IH]; intros l; [reflexivity|].
  destruct l as [|x l]; [simpl; apply skipn_nil | simpl; apply IH].
Qed.

Lemma advance_advance : forall a b c a' b' c' s,
  advance a' b' c' (advance a b c s) = advance (a + a') (b + b') (c + c') s.
Proof.
  intros a b c a' b' c' [cl ni q lc w i o rs ls ds sk]. unfold advance; simpl.
  rewrite !skipn_add, !skipn_length.
  f_equal.
  rewrite <- (ltb_skipn_add (length rs) a a'), <- (ltb_skipn_add (length ls) b b'), <- (ltb_skipn_add (length ds) c c').
  destruct sk; [reflexivity|].
  destruct (length rs <? a)%nat, (length ls <? b)%nat, (length ds <? c)%nat; simpl; rewrite ?orb_true_r; reflexivity.
Qed.

Lemma advance_0 : forall s, advance 0 0 0 s = s.
Proof. intros [cl ni q lc w i o rs ls ds sk]. unfold advance; simpl. rewrite !orb_false_r. reflexivity. Qed.

Lemma advance_all : forall s, advance (length (rands s)) 0 (length (draws s)) s = set_oracle [] (lns s) [] s.
Proof.
  intros [cl ni q lc w i o rs ls ds sk]. unfold advance, set_oracle; simpl.
  rewrite !skipn_all, !Nat.ltb_irrefl, !orb_false_r. reflexivity.
Qed.

(* the event named by a tap is a registered event with positive probability *)
Definition fired_ok (pi : nat) (n : ename) : Prop :=
  exists j ev, n = NEv pi j /\ In (pi, j, ev) (all_events tb) /\ 0 < ev_p ev.

(* records of the tranche of timestep t *)
Definition tranche_rec (t : Q) (o : obs) : Prop :=
  match o with
  | OHandler _ targ clk _ m => m = Some true /\ targ = t /\ clk = t
  | OTap t1 pi n _ => t1 = t /\ fired_ok pi n
  | _ => True
  end.

Definition is_fired (o : obs) : bool := match o with OHandler _ _ _ _ (Some _) => true | _ => false end.
Definition nfired (l : list obs) : nat := length (filter is_fired l).

Lemma nfired_act : forall l, Forall act_obs l -> nfired l = 0%nat.
Proof.
  unfold nfired. induction 1 as [|o l Ho _ IH]; [reflexivity|].
  simpl. destruct o; simpl in *; try exact IH; contradiction.
Qed.

Lemma nfired_app : forall a b, nfired (a ++ b) = (nfired a + nfired b)%nat.
Proof. intros; unfold nfired; rewrite filter_app, app_length; reflexivity. Qed.

Definition sel_ok (xe : (nat * nat * event) * elem) : Prop :=
  In (fst xe) (all_events tb) /\ 0 < ev_p (snd (fst xe)).

Lemma fire_tranche_spec : forall t evs nev s, clock s = t -> Forall sel_ok evs ->
  let r := fire_tranche tb t evs nev s in
  frame s (snd r) /\
  exists l, out (snd r) = l ++ out s /\ Forall (tranche_rec t) l /\ fst r = (nev + nfired l)%nat.
Proof.
  intros t evs. induction evs as [|[x e] evs IH]; intros nev s Hc Hs.
  - simpl. split; [apply frame_refl|]. exists []. split; [reflexivity|]. split; [apply Forall_nil | unfold nfired; simpl; lia].
  - inversion Hs as [|? ? [Hin Hp] Hs']; subst. cbn [fire_tranche].
    destruct (mem e (locus s (ev_locus (snd x)))) eqn:Hm; [|exact (IH nev s eq_refl Hs')].
    destruct x as [[pi j] ev]. simpl fst in *; simpl snd in *.
    destruct (fire_event_spec pi j ev (clock s) e s) as [F [l [A E]]].
    set (s' := fire_event tb (pi, j, ev) (clock s) e s) in *.
    assert (Hc' : clock s' = clock s) by (destruct F as [F _]; exact F).
    specialize (IH (S nev) s' Hc'). destruct (IH Hs') as [F' [l' [E' [R' N']]]].
    split; [exact (frame_trans _ _ _ F F')|].
    exists (l' ++ OTap (clock s) pi (NEv pi j) e :: l ++ [OHandler (ev_prog ev) (clock s) (clock s) e (Some true)]).
    split; [|split].
    + etransitivity; [exact E'|]. rewrite E, Hm. rewrite <- !app_assoc. simpl. rewrite <- app_assoc. reflexivity.
    + apply Forall_app; split; [exact R'|]. constructor.
      * simpl. split; [reflexivity|]. exists j, ev. repeat split; assumption.
      * apply Forall_app; split.
        -- eapply Forall_impl; [|exact A]. intros o; destruct o; simpl; tauto.
        -- repeat constructor.
    + etransitivity; [exact N'|]. rewrite !nfired_app. change (OTap (clock s) pi (NEv pi j) e :: l ++ [OHandler (ev_prog ev) (clock s) (clock s) e (Some true)])
        with ([OTap (clock s) pi (NEv pi j) e] ++ l ++ [OHandler (ev_prog ev) (clock s) (clock s) e (Some true)]).
      rewrite !nfired_app, (nfired_act l A). unfold nfired; simpl. lia.
Qed.

Fixpoint qsum {A} (f : A -> Q) (l : list A) : Q :=
  match l with [] => 0 | x :: l' => f x + qsum f l' end.

(* [qsum] is the sum the statements of C05 are written with; it is Dist.sumf, and the lemmas about
   sums are stated for [sumf] *)
Lemma qsum_sumf : forall A (f : A -> Q) l, qsum f l = sumf f l.
Proof. reflexivity. Qed.

(* One Gillespie iteration, in two named parts (stoch_loop_S ties them to the model).  It is the
   iteration KernelLoops.stoch_step logs; the case analysis there (step_spec) forgets which
   transition is selected and that the element drawn is a member of the live locus, which is what
   C05 states, so the two parts are named here.
   Selection: r1, ln and, with more than one transition, r2 are consumed and a transition chosen. *)
Definition stoch_select (s : st) : option ((nat * nat * event) * Q * st) :=
  let trs := transitions tb in
  let a := sum_rates s trs in
  let '(_, s1) := next_rand s in
  let '(ln, s2) := next_ln s1 in
  let dt := Qred ((1 / a) * ln) in
  match trs with
  | [] => None
  | x0 :: rest =>
      let '(x, s3) := match rest with
                      | [] => (x0, s2)
                      | _ => let '(r2, s3) := next_rand s2 in (select (rate s) (r2 * a) 0 x0 trs, s3)
                      end in
      Some (x, dt, s3)
  end.

(* Firing: after the posted events ran and the clock was set; the live locus is read now. *)
Definition stoch_fire (x : nat * nat * event) (nt : Q) (ev : nat) (s5 : st) : nat * st :=
  let l := locus s5 (ev_locus (snd x)) in
  match l with
  | [] => (ev, s5)
  | _ => let '(k, s6) := next_draw s5 in (S ev, fire_event tb x nt (nth (k mod length l) l (EN 0)) s6)
  end.

(* proc.atEquilibrium(t): the time limit, or the process' own test; the name under which the
   statements of C05 - C07 mention KernelLoops.at_end *)
Definition at_equil (t : Q) (s : st) : bool := Qle_bool (t_maxtime tb) t || t_equil tb (loci s) (world s).

Lemma at_equil_at_end : forall t s, at_equil t s = at_end tb t s.
Proof. reflexivity. Qed.

Lemma stoch_loop_S : forall pf f t events s,
  stoch_loop tb pf (S f) t events s =
  if at_equil t s then (t, events, s)
  else if Qeq_bool (sum_rates s (transitions tb)) 0 then
    match next_pending_time s with
    | (None, s') => (t, events, s')
    | (Some et, s') => let '(n, s'') := run_pending tb pf et 0 s' in stoch_loop tb pf f et (events + n) s''
    end
  else
    match stoch_select s with
    | None => (t, events, set_stuck s)
    | Some (x, dt, s3) =>
        let nt := Qred (t + dt) in
        let '(n, s4) := run_pending tb pf nt 0 s3 in
        let '(ev', s6) := stoch_fire x nt (events + n) (set_clock nt s4) in
        stoch_loop tb pf f nt ev' s6
    end.
Proof.
  intros pf f t events s. cbn [stoch_loop]. unfold stoch_select, stoch_fire, at_equil.
  destruct (Qle_bool (t_maxtime tb) t || t_equil tb (loci s) (world s)); [reflexivity|].
  destruct (Qeq_bool (sum_rates s (transitions tb)) 0); [reflexivity|].
  cbv zeta.
  destruct (next_rand s) as [r1 s1]. destruct (next_ln s1) as [ln s2].
  destruct (transitions tb) as [|x0 rest]; [reflexivity|].
  destruct (match rest with [] => _ | _ :: _ => _ end) as [x s3].
  destruct (run_pending tb pf _ 0 s3) as [n s4].
  destruct (locus (set_clock _ s4) _); [reflexivity|].
  destruct (next_draw _) as [k s6]. reflexivity.
Qed.

Lemma stoch_fire_empty : forall x nt ev s5,
  locus s5 (ev_locus (snd x)) = [] -> stoch_fire x nt ev s5 = (ev, s5).
Proof. intros x nt ev s5 H. unfold stoch_fire. rewrite H. reflexivity. Qed.

Lemma stoch_fire_member : forall x nt ev s5, locus s5 (ev_locus (snd x)) <> [] ->
  exists e, In e (locus s5 (ev_locus (snd x))) /\
    stoch_fire x nt ev s5 = (S ev, fire_event tb x nt e (advance 0 0 1 s5)).
Proof.
  intros x nt ev s5 H. unfold stoch_fire. rewrite next_draw_adv.
  exists (nth (hd 0%nat (draws s5) mod length (locus s5 (ev_locus (snd x)))) (locus s5 (ev_locus (snd x))) (EN 0)).
  split; [apply nth_mod_In; exact H|].
  destruct (locus s5 (ev_locus (snd x))); [congruence | reflexivity].
Qed.

(* hypotheses on tables and oracles that every run of the implementation satisfies *)
Definition nonneg_table : Prop := forall x, In x (all_events tb) -> 0 <= ev_p (snd x).

(* the same hypothesis as KernelLoops.nonneg_tb, which is stated over the processes *)
Lemma nonneg_tb_table : nonneg_tb tb <-> nonneg_table.
Proof.
  split.
  - intros H x. exact (proj1 (Forall_forall _ _) (all_events_nonneg tb H) x).
  - intros H. apply Forall_forall. intros p Hp. apply Forall_forall. intros ev Hev.
    apply In_nth_error in Hp, Hev. destruct Hp as [pi Hp], Hev as [j Hj].
    exact (H (pi, j, ev) (proj2 (all_events_in tb pi j ev) (ex_intro _ p (conj Hp Hj)))).
Qed.
Definition unit_rand (r : Q) : Prop := 0 <= r /\ r < 1.

Lemma all_events_fun : forall pi j ev ev',
  In (pi, j, ev) (all_events tb) -> In (pi, j, ev') (all_events tb) -> ev = ev'.
Proof.
  intros pi j ev ev' H H'. apply all_events_in in H. apply all_events_in in H'.
  destruct H as (p & E1 & E2). destruct H' as (p' & E1' & E2'). congruence.
Qed.

Lemma rate_pos : forall (s : st) x, 0 < rate s x -> 0 < ev_p (snd x).
Proof.
  intros s x. unfold rate. destruct (ev_elem (snd x)); [|tauto].
  rewrite Qred_correct. intros H.
  destruct (Qlt_le_dec 0 (ev_p (snd x))) as [Hp|Hp]; [exact Hp|]. exfalso.
  apply (Qlt_not_le _ _ H).
  setoid_replace 0 with (0 * qlen (locus s (ev_locus (snd x)))) by ring.
  apply Qmult_le_compat_r; [exact Hp | apply qlen_nonneg].
Qed.

(* selection in terms of the oracle positions read: r1 and the logarithm always, r2 only when
   there is more than one transition *)
Lemma stoch_select_eq : forall s, stoch_select s =
  let a := sum_rates s (transitions tb) in
  let dt := Qred ((1 / a) * hd 0 (lns s)) in
  match transitions tb with
  | [] => None
  | [x0] => Some (x0, dt, advance 1 1 0 s)
  | x0 :: rest => Some (select (rate s) (hd 0 (skipn 1 (rands s)) * a) 0 x0 (x0 :: rest), dt, advance 2 1 0 s)
  end.
Proof.
  intros s. unfold stoch_select. rewrite next_rand_adv, next_ln_adv, advance_advance. cbn [Nat.add advance lns].
  destruct (transitions tb) as [|x0 [|x1 rest]]; [reflexivity..|].
  rewrite next_rand_adv, advance_advance. reflexivity.
Qed.

Lemma select_In' : forall A (f : A -> Q) xc l xs cur, In cur l -> In (select f xc xs cur l) l.
Proof. intros A f xc l xs cur H. destruct (select_In A f xc l xs cur) as [E|E]; [rewrite <- E; exact H | exact E]. Qed.

Lemma stoch_select_shape : forall s x dt s3, stoch_select s = Some (x, dt, s3) ->
  In x (all_events tb) /\ exists nr, (nr <= 2)%nat /\ s3 = advance nr 1 0 s.
Proof.
  intros s x dt s3. rewrite stoch_select_eq. cbv zeta.
  destruct (transitions tb) as [|x0 [|x1 rest]] eqn:Etr; [discriminate| |].
  - intros [= <- _ <-]. split; [apply transitions_in; rewrite Etr; left; reflexivity|exists 1%nat; split; [lia|reflexivity]].
  - set (sel := select _ _ _ _ _).
    assert (Hs : In sel (x0 :: x1 :: rest)) by (apply select_In'; left; reflexivity).
    clearbody sel. intros [= <- _ <-]. split; [|exists 2%nat; split; [lia|reflexivity]].
    apply transitions_in. rewrite Etr. exact Hs.
Qed.

Lemma stoch_select_pos : forall s x dt s3, nonneg_table -> Forall unit_rand (rands s) ->
  Qeq_bool (sum_rates s (transitions tb)) 0 = false ->
  stoch_select s = Some (x, dt, s3) ->
  In x (all_events tb) /\ 0 < ev_p (snd x) /\ 0 < rate s x.
Proof.
  intros s x dt s3 Hnn Hr Ha E. destruct (stoch_select_shape s x dt s3 E) as [Hin _].
  assert (Hx : 0 < rate s x); [|split; [exact Hin|split; [exact (rate_pos s x Hx)|exact Hx]]].
  assert (Hall : forall y, In y (transitions tb) -> 0 <= rate s y)
    by (intros y Hy; apply rate_nonneg, Hnn, transitions_in, Hy).
  assert (Hsum := sum_rates_sumf s (transitions tb)).
  assert (Hapos : 0 < sum_rates s (transitions tb)).
  { destruct (proj1 (Qle_lteq _ _) (sumf_nonneg _ _ _ Hall)) as [Hlt|Heq]; [rewrite Hsum; exact Hlt|].
    exfalso. rewrite <- Hsum in Heq. symmetry in Heq. apply Qeq_bool_iff in Heq. congruence. }
  rewrite stoch_select_eq in E. cbv zeta in E.
  destruct (transitions tb) as [|x0 [|x1 rest]]; [discriminate| |].
  - injection E as <- _ _. cbn [sumf] in Hsum. rewrite Qplus_0_r in Hsum. rewrite <- Hsum. exact Hapos.
  - (* the second variate, in [0,1), scaled by the total rate *)
    set (sel := select _ _ _ _ _) in E. injection E as <- _ _. subst sel.
    set (a := sum_rates s (x0 :: x1 :: rest)) in *.
    assert (Hr2 : unit_rand (hd 0 (skipn 1 (rands s)))).
    { destruct (rands s) as [|r1 [|r2 rs]]; cbn [skipn hd]; [split; [apply Qle_refl|reflexivity]..|].
      inversion Hr as [|? ? _ Hr']; inversion Hr' as [|? ? Hr2 _]; exact Hr2. }
    destruct Hr2 as [Hlo Hhi]. apply select_pos.
    + apply Qmult_le_0_compat; [exact Hlo | apply Qlt_le_weak; exact Hapos].
    + rewrite <- Hsum. setoid_replace a with (1 * a) at 2 by ring.
      apply Qmult_lt_compat_r; assumption.
Qed.

(* records of a whole Gillespie run; Pev is what is known of every chosen transition *)
Definition stoch_rec (Pev : nat * nat * event -> Prop) (o : obs) : Prop :=
  match o with
  | OHandler _ _ _ _ m => m = None \/ m = Some true
  | OTap _ pi n _ => (exists k, n = NPost k) \/ (exists j ev, n = NEv pi j /\ Pev (pi, j, ev))
  | _ => True
  end.

Lemma posted_stoch : forall Pev t o, posted_rec t o -> stoch_rec Pev o.
Proof.
  intros Pev t o; destruct o; simpl; tauto.
Qed.

Lemma stoch_rec_member : forall Pev k t c e m, stoch_rec Pev (OHandler k t c e (Some m)) -> m = true.
Proof. intros Pev k t c e m [H|H]; [discriminate | inversion H; reflexivity]. Qed.

Lemma act_stoch : forall Pev o, act_obs o -> stoch_rec Pev o.
Proof. intros Pev o; destruct o; simpl; tauto. Qed.

Lemma Forall_skipn : forall A (P : A -> Prop) n l, Forall P l -> Forall P (skipn n l).
Proof.
  intros A P. induction n as [|n IH]; intros l H; [exact H|].
  destruct l as [|x l]; [constructor|]. inversion H; subst. apply IH; assumption.
Qed.

Section StochGen.
(* IR: an invariant of the stream of uniform variates; Pev: the fact established at each selection *)
Variable IR : list Q -> Prop.
Variable Pev : nat * nat * event -> Prop.
Hypothesis IR_skipn : forall n l, IR l -> IR (skipn n l).
Hypothesis Hsel : forall s x dt s3, IR (rands s) -> Qeq_bool (sum_rates s (transitions tb)) 0 = false ->
  stoch_select s = Some (x, dt, s3) -> Pev x.

Lemma stoch_loop_gen : forall pf fuel t ev s, IR (rands s) -> Forall (stoch_rec Pev) (out s) ->
  Forall (stoch_rec Pev) (out (snd (stoch_loop tb pf fuel t ev s))).
Proof.
  intros pf. induction fuel as [|f IH]; intros t ev s Hr Ho; [exact Ho|].
  assert (Hpend : forall t' s0, IR (rands s0) -> out s0 = out s ->
            IR (rands (snd (run_pending tb pf t' 0 s0))) /\
            Forall (stoch_rec Pev) (out (snd (run_pending tb pf t' 0 s0)))).
  { intros t' s0 Hr0 Eo. destruct (run_pending_records pf t' 0%nat s0) as [l (E & R & _ & O1 & _)].
    split; [rewrite O1; exact Hr0|]. rewrite E, Eo. apply Forall_app. split; [|exact Ho].
    exact (Forall_impl _ (posted_stoch Pev t') R). }
  rewrite stoch_loop_S. destruct (at_equil t s); [exact Ho|].
  destruct (Qeq_bool (sum_rates s (transitions tb)) 0) eqn:Ha.
  - unfold next_pending_time. cbv zeta.
    destruct (head (queue (discard s))) as [h|]; cbn [option_map]; [|exact Ho].
    destruct (Hpend (e_time h) (discard s) Hr eq_refl) as [Hr' Ho'].
    destruct (run_pending tb pf (e_time h) 0 (discard s)) as [n s'']. apply IH; assumption.
  - destruct (stoch_select s) as [[[x dt] s3]|] eqn:Esel; [|exact Ho].
    assert (Hp := Hsel s x dt s3 Hr Ha Esel).
    destruct (stoch_select_shape s x dt s3 Esel) as (_ & nr & _ & ->). cbv zeta.
    destruct (Hpend (Qred (t + dt)) (advance nr 1 0 s) (IR_skipn nr _ Hr) eq_refl) as [Hr4 Ho4].
    destruct (run_pending tb pf (Qred (t + dt)) 0 (advance nr 1 0 s)) as [n s4]. cbn [snd] in Hr4, Ho4.
    set (s5 := set_clock (Qred (t + dt)) s4).
    destruct (locus s5 (ev_locus (snd x))) as [|e0 l0] eqn:El.
    + rewrite (stoch_fire_empty x _ _ s5 El). apply IH; assumption.
    + (* the event function is entered on a member: the record carries [Some true] *)
      destruct (stoch_fire_member x (Qred (t + dt)) (ev + n)%nat s5) as [e [He Ef]]; [rewrite El; discriminate|].
      rewrite Ef. destruct x as [[pi j] evt]. cbn [snd] in *.
      destruct (fire_event_spec pi j evt (Qred (t + dt)) e (advance 0 0 1 s5)) as [(_ & F2 & _) [l [A Eo]]].
      apply IH; [rewrite F2; exact Hr4|]. rewrite Eo.
      change (locus (advance 0 0 1 s5) (ev_locus evt)) with (locus s5 (ev_locus evt)).
      rewrite (proj2 (mem_In e _) He).
      constructor; [right; exists j, evt; split; [reflexivity | exact Hp]|].
      apply Forall_app; split; [exact (Forall_impl _ (act_stoch Pev) A)|].
      constructor; [right; reflexivity|exact Ho4].
Qed.

Lemma setup_state_out : forall rs ls ds,
  Forall act_obs (out (setup_state tb rs ls ds)) /\ rands (setup_state tb rs ls ds) = rs.
Proof.
  intros rs ls ds. apply (user_setup_any tb (fun _ s => Forall act_obs (out s) /\ rands s = rs)).
  - intros p t e a s [Ho Er]. destruct (do_action_spec p t e a s) as [(_ & F2 & _) E].
    split; [exact (ext_Forall _ _ _ E Ho)|rewrite F2; exact Er].
  - split; [constructor|reflexivity].
Qed.

Lemma stoch_run_gen : forall pf fuel rs ls ds, IR rs ->
  Forall (stoch_rec Pev) (r_out (stoch_run tb pf fuel rs ls ds)).
Proof.
  intros pf fuel rs ls ds Hr. destruct (setup_state_out rs ls ds) as [Ho Er].
  pose proof (stoch_loop_gen pf fuel 0 0%nat (setup_state tb rs ls ds)) as H. rewrite Er in H.
  specialize (H Hr (Forall_impl _ (act_stoch Pev) Ho)). unfold stoch_run.
  destruct (stoch_loop tb pf fuel 0 0 (setup_state tb rs ls ds)) as [[t ev] s]. apply Forall_rev. exact H.
Qed.
End StochGen.

(* unconditional: handlers are called on members, taps name registered events *)
Lemma stoch_run_member : forall pf fuel rs ls ds,
  Forall (stoch_rec (fun x => In x (all_events tb))) (r_out (stoch_run tb pf fuel rs ls ds)).
Proof.
  intros pf fuel rs ls ds. apply (stoch_run_gen (fun _ => True)); [tauto| |exact I].
  intros s x dt s3 _ _ E. exact (proj1 (stoch_select_shape s x dt s3 E)).
Qed.

(* with non-negative probabilities and uniform variates in [0,1): only events of positive probability fire *)
Lemma stoch_run_positive : nonneg_table -> forall pf fuel rs ls ds, Forall unit_rand rs ->
  Forall (stoch_rec (fun x => In x (all_events tb) /\ 0 < ev_p (snd x))) (r_out (stoch_run tb pf fuel rs ls ds)).
Proof.
  intros Hnn pf fuel rs ls ds. apply (stoch_run_gen (Forall unit_rand)); [intros n l; apply Forall_skipn|].
  intros s x dt s3 Hrs Ha E. destruct (stoch_select_pos s x dt s3 Hnn Hrs Ha E) as (h1 & h2 & _). split; assumption.
Qed.

End KM.
