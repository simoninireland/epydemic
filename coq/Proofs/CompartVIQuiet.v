(* What the quiescence statements for SIR_VariableInfection (C07_quiescent for it: C07_vi_quiescent*
   in Properties/C07.v) use besides the run invariant: no call changes the infectivities
   ([inf_const]), and with registered probabilities and infectivities >= 0 ([vi_nonneg]) every
   probability of the dynamic distribution is >= 0 (vi_dnonneg). *)
From Coq Require Import List ZArith QArith Bool Arith Lia.
From EpyV Require Import Lib.Prelude Model.Kernel Model.KernelDyn Model.Loci Model.Compart Model.CompartVI
  Proofs.KernelBase Proofs.KernelMember Proofs.KernelSync Proofs.LociBase Proofs.LociLocus Proofs.LociInv
  Proofs.CompartRun Proofs.CompartSort Proofs.CompartInv Proofs.CompartDiagram
  Proofs.KernelDyn Proofs.KernelDynLoops Proofs.KernelDynRun Proofs.CompartVI.
Import ListNotations.
Close Scope Q_scope.

Section VQ.
Variable vm : vimodel.
Variables (nodes : list Z) (edges : list (Z * Z)) (init : list (Z * Z)) (inf : list (Z * Z * Q)) (maxtime : Q) (monitor : option Q).
Let D := mk_vitable vm nodes edges init inf maxtime monitor.
Let si := vim_si vm.
Implicit Types s : st viworld.

(* the edge attribute `infectivity` is what set-up stored *)
Definition inf_const s : Prop := vi_inf (world s) = inf.

Lemma inf_const_dafter {c s} : inf_const s -> inf_const (dafter D c s).
Proof.
  intros H. pose proof (dafter_lw D c s) as A. destruct (dcall_args c) as [[k t] e]. destruct A as [_ A].
  unfold inf_const. rewrite A. unfold D. rewrite vi_prog_of. destruct (nth_error (cm_kinds (vi_cm vm)) k); [|exact H].
  rewrite lift_prog_fst. exact H.
Qed.

Definition vi_nonneg (w : viworld) : Prop :=
  (forall ev, In ev (vim_events vm) -> (0 <= ce_p ev)%Q) /\ (forall x, In x (vi_inf w) -> (0 <= snd x)%Q).

Lemma entry_p_nonneg w e : vi_nonneg w -> (0 <= de_p (vi_entry vm w e))%Q.
Proof.
  intros [_ H]. cbn [vi_entry de_p]. destruct e as [n|n m]; [apply Qle_refl|].
  unfold infectivity. destruct (find _ (vi_inf w)) as [x|] eqn:E; cbn [option_map]; [|apply Qle_refl].
  apply find_some in E. apply H. exact (proj1 E).
Qed.

Lemma vi_dnonneg {lc w} : vi_nonneg w -> dnonneg D lc w.
Proof.
  intros Hnn x Hx. apply dtransitions_In in Hx. destruct x as [[[pi j] ev]|pi d]; cbn [trans_p snd].
  - destruct (all_events_vi Hx) as [_ [cev [En ->]]]. cbn [mk_ev ev_p].
    apply (proj1 Hnn). eapply nth_error_In. exact En.
  - destruct (vi_dyn_shape Hx) as [_ [e [_ ->]]]. apply entry_p_nonneg. exact Hnn.
Qed.

(* what the distribution is made of: every registered per-element event, every element of the SI locus *)
Lemma vi_event_transition lc w j cev : nth_error (vim_events vm) j = Some cev -> ce_elem cev = true ->
  In (TStat (vi_mpi monitor, j, mk_ev j cev)) (dtransitions D lc w).
Proof.
  intros Ej Hel. unfold dtransitions. apply in_or_app. left. unfold D. rewrite vi_dper_element. apply in_or_app. left.
  apply in_map. unfold per_element. apply filter_In. split; [|exact Hel].
  rewrite all_events_eq. apply (all_events_mk (vi_cm vm) nodes edges init maxtime monitor). split; [reflexivity|].
  exists cev. split; [exact Ej | reflexivity].
Qed.

Lemma vi_entry_transition lc w e : In e (nth si lc []) -> In (TDyn (vi_mpi monitor) (vi_entry vm w e)) (dtransitions D lc w).
Proof.
  intros He. unfold dtransitions. apply in_or_app. left. unfold D. rewrite vi_dper_element. apply in_or_app. right.
  apply in_map_iff. exists e. split; [reflexivity | exact He].
Qed.

End VQ.

Arguments vi_dnonneg {vm nodes edges init inf maxtime monitor lc w}.
Arguments inf_const_dafter {vm nodes edges init inf maxtime monitor c s}.
