(* SIvR.infect tests "vaccinated and the vaccine has taken effect" inline (Model/CompartV.v,
   vhandler); [effective] names that test for the statements of Properties/C07.v. *)
From Coq Require Import List ZArith QArith Bool Arith Lia.
From EpyV Require Import Lib.Prelude Model.Kernel Model.Loci Model.Compart Model.CompartV.
Import ListNotations.
Open Scope Q_scope.

Definition effective (w : vworld) (off t : Q) (n : Z) : bool :=
  match vacc_time w n with Some tv => Qltb (tv + off) t | None => false end.
