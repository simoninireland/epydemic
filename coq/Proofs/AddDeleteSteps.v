(* C19, part 2: what the event functions add and delete do to the world (one event). *)
From Coq Require Import List ZArith Bool Arith.
From EpyV Require Import Lib.Lists Lib.Prelude Model.Kernel Model.Loci Model.Compart Model.AddDelete
                         Proofs.LociBase Proofs.LociInv Proofs.AddDelete.
Import ListNotations.
Close Scope Q_scope.
Close Scope Z_scope.

(* a well-formed network: edges join nodes, absent nodes carry no attribute, no node is listed twice *)
Definition gok (s : state) : Prop := graph_ok s /\ NoDup (st_nodes s).
Definition has_comp (s : state) : Prop := forall v, In v (st_nodes s) -> exists c, st_attr s v = Some (Some c).

Lemma has_comp_not_raises : forall s v, has_comp s -> In v (st_nodes s) -> getc_raises s v = false.
Proof.
  intros s v H Hv. unfold getc_raises. apply has_node_In in Hv as Hn. rewrite Hn. cbn [negb orb].
  destruct (H v Hv) as [c ->]. reflexivity.
Qed.

(* The operations of the compartmented model (Model/Loci.v) do to nodes, edges and attributes what
   the operations of Process do, and rewrite the contents of the loci, never their number. *)
Definition net_eq (s s' : state) : Prop :=
  st_nodes s' = st_nodes s /\ st_edges s' = st_edges s /\ (forall v, st_attr s' v = st_attr s v)
  /\ length (st_loci s') = length (st_loci s).

Lemma net_eq_refl : forall s, net_eq s s.
Proof. intro s. repeat split. Qed.

Lemma net_eq_trans : forall a b c, net_eq a b -> net_eq b c -> net_eq a c.
Proof.
  intros a b c [A1 [A2 [A3 A4]]] [B1 [B2 [B3 B4]]].
  split; [congruence|]. split; [congruence|]. split; [intro v; rewrite B3; apply A3 | congruence].
Qed.

Lemma net_eq_raises : forall s s' v, net_eq s s' -> getc_raises s' v = getc_raises s v.
Proof. intros s s' v [A [_ [C _]]]. unfold getc_raises, has_node. rewrite A, C. reflexivity. Qed.

Lemma call_net : forall tbl h s e, net_eq s (call tbl h s e).
Proof. intros. split; [reflexivity|]. split; [reflexivity|]. split; [reflexivity | apply call_length]. Qed.

Lemma with_attr_net : forall s s' n a, net_eq s s' -> net_eq (with_attr s n a) (with_attr s' n a).
Proof.
  intros s s' n a [A [B [C D]]]. split; [exact A|]. split; [exact B|]. split; [|exact D].
  intro v. cbn [with_attr st_attr]. rewrite C. reflexivity.
Qed.

Lemma set_compartment_net : forall tbl s n c, has_node s n = true ->
  snd (set_compartment tbl s n c) = Done /\ net_eq (with_attr s n (Some (Some c))) (fst (set_compartment tbl s n c)).
Proof. intros tbl s n c H. unfold set_compartment. rewrite H. split; [reflexivity | apply call_net]. Qed.

(* a call that raises leaves the state as it was *)
Lemma change_compartment_net : forall tbl s n c,
  net_eq (if getc_raises s n then s else with_attr s n (Some (Some c))) (fst (change_compartment tbl s n c))
  /\ (getc_raises s n = false -> snd (change_compartment tbl s n c) = Done).
Proof.
  intros tbl s n c. unfold change_compartment. destruct (getc_raises s n); cbn [fst snd].
  - split; [apply net_eq_refl | discriminate].
  - split; [|reflexivity]. eapply net_eq_trans; [|apply call_net]. apply with_attr_net.
    destruct (getc s n); [apply call_net | apply net_eq_refl].
Qed.

Lemma add_edge_net : forall tbl s n m,
  has_node s n = true -> has_node s m = true -> getc_raises s n = false -> getc_raises s m = false ->
  snd (add_edge tbl s n m) = Done /\ net_eq (fst (p_add_edge s n m)) (fst (add_edge tbl s n m)).
Proof.
  intros tbl s n m A B C D. unfold add_edge, p_add_edge. rewrite A, B, C, D. split; [reflexivity | apply call_net].
Qed.

Lemma rm_loop_net : forall tbl inc s, net_eq s (fold_left (fun s e => call_remove tbl s (E (fst e) (snd e))) inc s).
Proof.
  intros tbl inc. induction inc as [|e inc IH]; intros s; cbn [fold_left]; [apply net_eq_refl|].
  eapply net_eq_trans; [apply call_net | apply IH].
Qed.

Lemma remove_node_net : forall tbl s n, getc_raises s n = false ->
  snd (remove_node tbl s n) = Done /\ net_eq (fst (p_remove_node s n)) (fst (remove_node tbl s n)).
Proof.
  intros tbl s n Hr. unfold remove_node, p_remove_node. rewrite Hr.
  apply getc_raises_false, proj1, has_node_In in Hr. rewrite Hr. split; [reflexivity|].
  assert (L : net_eq s (call_remove tbl (fold_left (fun s e => call_remove tbl s (E (fst e) (snd e))) (incident (st_edges s) n) s) (N n)))
    by (eapply net_eq_trans; [apply rm_loop_net | apply call_net]).
  destruct L as [A [B [C D]]]. unfold net_eq. cbn [fst st_nodes st_edges st_attr st_loci]. rewrite A, B, D.
  repeat split. intro v. rewrite C. reflexivity.
Qed.

(* what changeCompartment may do to a network: give a node a compartment, nothing else *)
Definition keeps (s s' : state) : Prop :=
  st_nodes s' = st_nodes s /\ st_edges s' = st_edges s /\ length (st_loci s') = length (st_loci s)
  /\ (forall v, (exists c, st_attr s v = Some (Some c)) -> exists c, st_attr s' v = Some (Some c))
  /\ (forall v, ~ In v (st_nodes s) -> st_attr s' v = st_attr s v).

Lemma keeps_refl : forall s, keeps s s.
Proof. intro s. repeat split; auto. Qed.

Lemma keeps_trans : forall a b c, keeps a b -> keeps b c -> keeps a c.
Proof.
  intros a b c [A1 [A2 [A3 [A4 A5]]]] [B1 [B2 [B3 [B4 B5]]]].
  split; [congruence|]. split; [congruence|]. split; [congruence|]. split; [auto|].
  intros v Hv. rewrite B5 by (rewrite A1; exact Hv). apply A5, Hv.
Qed.

Lemma change_compartment_keeps : forall tbl s n c, keeps s (fst (change_compartment tbl s n c)).
Proof.
  intros tbl s n c. destruct (change_compartment_net tbl s n c) as [[A [B [C D]]] _].
  destruct (getc_raises s n) eqn:Er; cbn [with_attr st_nodes st_edges st_attr st_loci] in A, B, C, D; (split; [exact A|]; split; [exact B|]; split; [exact D|]; split).
  - intros v H. rewrite C. exact H.
  - intros v _. apply C.
  - intros v H. rewrite C. destruct (Z.eqb v n); eauto.
  - intros v Hv. rewrite C. destruct (Z.eqb_spec v n) as [->|_]; [|reflexivity]. exfalso. apply Hv, (getc_raises_false _ _ Er).
Qed.

Definition without_node (s : state) (n : Z) (s' : state) : Prop :=
  st_nodes s' = filter (fun v => negb (Z.eqb v n)) (st_nodes s)
  /\ st_edges s' = filter (fun e => negb (touches n e)) (st_edges s)
  /\ (forall v, st_attr s' v = if Z.eqb v n then None else st_attr s v).

Lemma p_remove_node_without : forall s n, has_node s n = true ->
  snd (p_remove_node s n) = Done /\ without_node s n (fst (p_remove_node s n)).
Proof. intros s n H. unfold p_remove_node. rewrite H. repeat split. Qed.

Lemma gok_add_node : forall s n, gok s -> ~ In n (st_nodes s) ->
  gok (mkState (st_nodes s ++ [n]) (st_edges s) (st_attr s) (st_loci s)).
Proof.
  intros s n [[G1 G2] G3] Hn. split; [split|]; cbn [st_nodes st_edges st_attr].
  - intros a b Hab. rewrite !in_app_iff. destruct (G1 a b Hab). auto.
  - intros v Hv. apply G2. intro H. apply Hv, in_app_iff. auto.
  - apply NoDup_snoc; assumption.
Qed.

Lemma keeps_gok : forall s s', keeps s s' -> gok s -> gok s'.
Proof.
  intros s s' [A [B [_ [_ C]]]] [[G1 G2] G3]. split; [split|]; rewrite ?A, ?B; try assumption.
  intros v Hv. rewrite C by exact Hv. apply G2, Hv.
Qed.

Lemma without_node_In : forall s n s', without_node s n s' ->
  (forall v, In v (st_nodes s') <-> In v (st_nodes s) /\ v <> n)
  /\ (forall e, In e (st_edges s') <-> In e (st_edges s) /\ touches n e = false).
Proof.
  intros s n s' [A [B _]]. split; intro x.
  - rewrite A, filter_In, negb_true_iff, Z.eqb_neq. tauto.
  - rewrite B, filter_In, negb_true_iff. tauto.
Qed.

Lemma without_node_net : forall s n a b, net_eq a b -> without_node s n a -> without_node s n b.
Proof.
  intros s n a b [A [B [C _]]] [X [Y Z]]. split; [congruence|]. split; [congruence|]. intro v. rewrite C. apply Z.
Qed.

Lemma without_node_length : forall s n s', without_node s n s' -> NoDup (st_nodes s) -> In n (st_nodes s) ->
  S (length (st_nodes s')) = length (st_nodes s).
Proof.
  intros s n s' Wn Hnd Hn. symmetry. apply (NoDup_remove_length n _ _ Hnd); [| exact Hn | apply (without_node_In s n s' Wn)].
  rewrite (proj1 Wn). apply NoDup_filter, Hnd.
Qed.

Lemma graph_ok_without : forall s n s', without_node s n s' -> graph_ok s -> graph_ok s'.
Proof.
  intros s n s' Wn [G1 G2]. destruct (without_node_In s n s' Wn) as [Hv He]. split.
  - intros a b Hab. apply He in Hab. destruct Hab as [Hab Ht].
    unfold touches in Ht. cbn [fst snd] in Ht. apply orb_false_iff in Ht. destruct Ht as [T1 T2].
    apply Z.eqb_neq in T1, T2. destruct (G1 a b Hab) as [Ha Hb]. split; apply Hv; auto.
  - intros v Hn. destruct Wn as [_ [_ C]]. rewrite C. destruct (Z.eqb_spec v n) as [_|Hne]; [reflexivity|].
    apply G2. intro H. apply Hn, Hv. auto.
Qed.

Lemma gok_without : forall s n s', without_node s n s' -> gok s -> gok s'.
Proof.
  intros s n s' Wn [G G3]. split; [apply (graph_ok_without s n s' Wn G)|].
  destruct Wn as [A _]. rewrite A. apply NoDup_filter, G3.
Qed.

Lemma adjb_app : forall a b x y, adjb (a ++ b) x y = adjb a x y || adjb b x y.
Proof. intros. unfold adjb. apply existsb_app. Qed.

Definition untouched (es : list (Z * Z)) (n : Z) : Prop := forall e, In e es -> touches n e = false.

Lemma untouched_adjb : forall es n m, untouched es n -> adjb es n m = false.
Proof.
  intros es n m H. unfold adjb. apply not_true_is_false. intro Hx. apply existsb_exists in Hx.
  destruct Hx as [e [He Hs]]. specialize (H e He). unfold touches in H. apply orb_false_iff in H. destruct H as [H1 H2].
  unfold same_edge in Hs. rewrite H1, H2 in Hs. cbn [andb orb] in Hs. rewrite andb_false_r in Hs. discriminate.
Qed.

Lemma untouched_incident : forall es n, untouched es n -> incident es n = [].
Proof.
  intros es n H. unfold incident. induction es as [|e es IH]; [reflexivity|]. cbn [flat_map].
  assert (He : touches n e = false) by (apply H; left; reflexivity).
  unfold touches in He. apply orb_false_iff in He. destruct He as [-> ->]. cbn [app].
  apply IH. intros e' He'. apply H. right. exact He'.
Qed.

Lemma graph_untouched : forall s n, graph_ok s -> ~ In n (st_nodes s) -> untouched (st_edges s) n.
Proof.
  intros s n [G1 _] Hn [a b] He. destruct (G1 a b He) as [Ha Hb]. unfold touches. cbn [fst snd].
  apply orb_false_iff. split; apply Z.eqb_neq; intro; subst; contradiction.
Qed.

Lemma incident_star : forall i es, incident (map (pair i) es) i = map (pair i) es.
Proof.
  intros i es. unfold incident. induction es as [|j es IH]; [reflexivity|]. cbn [map flat_map fst snd].
  rewrite Z.eqb_refl. cbn [app]. f_equal. exact IH.
Qed.

Lemma neighbours_star : forall s i es edges0, untouched edges0 i -> st_edges s = edges0 ++ map (pair i) es -> neighbours s i = es.
Proof.
  intros s i es edges0 H E. unfold neighbours, incident. rewrite E, flat_map_app.
  fold (incident edges0 i) (incident (map (pair i) es) i). rewrite (untouched_incident _ _ H), incident_star. cbn [app].
  rewrite map_map. apply map_id.
Qed.

Section Steps.
Variable cf : adcfg.

Lemma tracked_with_disease : tracked_edges cf = true -> with_disease cf = true.
Proof. unfold tracked_edges, with_disease. destruct (ac_combo cf); [discriminate|auto|auto]. Qed.

(* a node on which no call of add or delete can raise *)
Definition present (s : state) (v : Z) : Prop :=
  has_node s v = true /\ (with_disease cf = true -> getc_raises s v = false).

Lemma net_eq_present : forall s s' v, net_eq s s' -> present s v -> present s' v.
Proof.
  intros s s' v H P. pose proof (net_eq_raises s s' v H) as R. destruct H as [A _].
  unfold present, has_node in *. rewrite A, R. exact P.
Qed.

Lemma link_net : forall s i j, present s i -> present s j ->
  snd (link cf s i j) = Done /\ net_eq (fst (p_add_edge s i j)) (fst (link cf s i j)).
Proof.
  intros s i j [Hi Hi'] [Hj Hj']. unfold link. destruct (tracked_edges cf) eqn:T.
  - pose proof (tracked_with_disease T) as D. apply add_edge_net; auto.
  - split; [unfold p_add_edge; rewrite Hi, Hj; reflexivity | apply net_eq_refl].
Qed.

Lemma link_present : forall s i j, present s i -> present s j -> forall v, present s v -> present (fst (link cf s i j)) v.
Proof.
  intros s i j Pi Pj v P. apply (net_eq_present _ _ v (proj2 (link_net s i j Pi Pj))).
  unfold p_add_edge. destruct (negb (has_node s i) || negb (has_node s j)); exact P.
Qed.

Lemma link_all_net : forall es s i, NoDup es -> ~ In i es -> present s i -> (forall j, In j es -> present s j) ->
  (forall j, In j es -> adjb (st_edges s) i j = false) ->
  snd (link_all cf s i es) = true
  /\ net_eq (mkState (st_nodes s) (st_edges s ++ map (pair i) es) (st_attr s) (st_loci s)) (fst (link_all cf s i es)).
Proof.
  induction es as [|j es IH]; intros s i Hn Hi Pi Pes Hadj; cbn [link_all map].
  - rewrite app_nil_r. split; [reflexivity | repeat split].
  - inversion Hn as [|? ? Hj Hn']; subst.
    destruct (link_net s i j Pi (Pes j (or_introl eq_refl))) as [L1 L2].
    pose proof (link_present s i j Pi (Pes j (or_introl eq_refl))) as Pres.
    unfold p_add_edge in L2. rewrite (proj1 Pi), (proj1 (Pes j (or_introl eq_refl))), (Hadj j (or_introl eq_refl)) in L2.
    destruct (link cf s i j) as [s1 o]. cbn [fst snd negb orb] in L1, L2. subst o.
    destruct L2 as [A [B [C D]]]. cbn [st_nodes st_edges st_attr st_loci] in A, B, C, D.
    destruct (IH s1 i Hn') as [I1 [I2 [I3 [I4 I5]]]].
    + intro H. apply Hi. right. exact H.
    + apply Pres, Pi.
    + intros j' Hj'. apply Pres, Pes. right. exact Hj'.
    + (* the edge (i, j) just added does not join i and j': j <> j' and i <> j' *)
      intros j' Hj'. rewrite B, adjb_app, (Hadj j' (or_intror Hj')). cbn [adjb existsb orb]. unfold same_edge. cbn [fst snd].
      destruct (Z.eqb_spec j j') as [->|_]; [contradiction|].
      destruct (Z.eqb_spec i j') as [->|_]; [exfalso; apply Hi; right; exact Hj'|]. rewrite andb_false_r. reflexivity.
    + destruct (link_all cf s1 i es) as [s2 ok]. cbn [fst snd st_nodes st_edges st_attr st_loci] in *. subst ok.
      split; [reflexivity|]. unfold net_eq. cbn [st_nodes st_edges st_attr st_loci].
      rewrite I2, I3, I5, A, B, D, <- app_assoc. repeat split. intro v. rewrite I4. apply C.
Qed.

(* the bookkeeping invariant: the network is well formed, the all-nodes locus lists exactly its nodes, once each,
   and with a disease every node carries a compartment *)
Definition Base (w : adworld) : Prop :=
  gok (aw_st w) /\ NoDup (aw_all w) /\ (forall v, In v (aw_all w) <-> In v (st_nodes (aw_st w)))
  /\ (with_disease cf = true -> has_comp (aw_st w)).

Lemma Base_present : forall w v, Base w -> In v (st_nodes (aw_st w)) -> present (aw_st w) v.
Proof.
  intros w v [_ [_ [_ HC]]] Hv. split; [apply has_node_In, Hv|]. intro D. apply has_comp_not_raises; auto.
Qed.

Lemma Base_keeps : forall w w', aw_all w' = aw_all w -> keeps (aw_st w) (aw_st w') -> Base w -> Base w'.
Proof.
  intros w w' Ea K [HG [HA [HAN HC]]]. pose proof K as [A [_ [_ [D _]]]]. unfold Base. rewrite Ea, A.
  split; [exact (keeps_gok _ _ K HG)|]. split; [exact HA|]. split; [exact HAN|].
  intros Dz v Hv. rewrite A in Hv. apply D, (HC Dz), Hv.
Qed.

Lemma set_world_st_st : forall w s all ds st r k, aw_st (set_world_st w s all ds st r k) = s.
Proof. reflexivity. Qed.

(* add taken apart: the draw loop; the nodes it returns ([] when the ranks run out); the network
   after addNewNode; the network add leaves behind *)
Definition add_picks (w : adworld) : option (list Z * list nat) :=
  let i := new_node_name (aw_st w) in picks (ac_deg cf) (zsort (zadd i (aw_all w))) i [] (aw_draws w).
Definition add_links (w : adworld) : list Z := match add_picks w with Some (es, _) => es | None => [] end.
Definition new_state (w : adworld) : state :=
  let i := new_node_name (aw_st w) in fst (mark_new cf (p_add_node (aw_st w) i) i).
Definition add_state (w : adworld) : state := fst (link_all cf (new_state w) (new_node_name (aw_st w)) (add_links w)).

Lemma add_step_st : forall w, aw_st (add_step cf w) = add_state w.
Proof.
  intro w. unfold add_step, add_state, add_links, add_picks, new_state. cbv zeta.
  destruct (mark_new cf (p_add_node (aw_st w) (new_node_name (aw_st w))) (new_node_name (aw_st w))) as [s2 o2]. cbn [fst].
  destruct (picks _ _ _ _ _) as [[es ds]|]; [|reflexivity].
  destruct (link_all cf s2 (new_node_name (aw_st w)) es) as [s3 ok]. reflexivity.
Qed.

Lemma add_links_spec : forall w, Base w -> let es := add_links w in
  NoDup es /\ ~ In (new_node_name (aw_st w)) es /\ incl es (st_nodes (aw_st w))
  /\ (forall ds, add_picks w = Some (es, ds) -> length es = ac_deg cf).
Proof.
  intros w [_ [_ [HAN _]]]. unfold add_links. destruct (add_picks w) as [[es ds]|] eqn:Ep; cbv zeta;
    [|split; [constructor|]; split; [intros []|]; split; [apply incl_nil_l | discriminate]].
  unfold add_picks in Ep. cbv zeta in Ep. set (i := new_node_name (aw_st w)) in *.
  assert (HL : zsort (zadd i (aw_all w)) <> []).
  { intro H. assert (Hi : In i (zsort (zadd i (aw_all w)))) by (apply zsort_In, zadd_In; right; reflexivity).
    rewrite H in Hi. destruct Hi. }
  destruct (picks_spec HL Ep (NoDup_nil Z) (fun H => H) (incl_nil_l _)) as [new [E1 [E2 [E3 [E4 E5]]]]].
  cbn [app] in E1. subst new. split; [exact E3|]. split; [exact E4|]. split; [|intros _ _; exact E2].
  intros j Hj. pose proof (E5 j Hj) as H. apply zsort_In, zadd_In in H. destruct H as [H| ->]; [apply HAN, H | contradiction].
Qed.

(* the network s grown by the node i - susceptible when there is a disease - and edges from i to es *)
Definition grown (s : state) (i : Z) (es : list Z) : state :=
  mkState (st_nodes s ++ [i]) (st_edges s ++ map (pair i) es)
          (fun v => if with_disease cf && Z.eqb v i then Some (Some (ac_S cf)) else st_attr s v) (st_loci s).

Lemma new_state_net : forall w, Base w -> let s := aw_st w in let i := new_node_name s in
  snd (mark_new cf (p_add_node s i) i) = Done /\ net_eq (grown s i []) (new_state w).
Proof.
  intros w HB s i. unfold new_state, p_add_node, mark_new. fold s i.
  rewrite (proj2 (zmem_false i (st_nodes s)) (new_node_name_fresh s) : has_node s i = false).
  set (s1 := mkState (st_nodes s ++ [i]) (st_edges s) (st_attr s) (st_loci s)).
  unfold net_eq, grown. destruct (with_disease cf); cbn [st_nodes st_edges st_attr st_loci fst snd andb map]; rewrite app_nil_r; [|repeat split].
  destruct (set_compartment_net (ac_tbl cf) s1 i (ac_S cf)) as [D [A [B [C L]]]].
  { apply has_node_In. cbn [st_nodes]. apply in_app_iff. right. left. reflexivity. }
  rewrite A, B, L. repeat split; [exact D | exact C].
Qed.

Lemma new_state_present : forall w, Base w -> forall v, In v (st_nodes (aw_st w) ++ [new_node_name (aw_st w)]) ->
  present (new_state w) v.
Proof.
  intros w HB v Hv. apply (net_eq_present _ _ v (proj2 (new_state_net w HB))).
  unfold present, getc_raises, has_node. cbn [grown st_nodes st_attr].
  rewrite (proj2 (zmem_In v _) Hv). split; [reflexivity|]. intro D. rewrite D. cbn [negb orb andb].
  destruct (Z.eqb_spec v (new_node_name (aw_st w))) as [_|Hne]; [reflexivity|].
  apply in_app_iff in Hv. destruct Hv as [Hv|[Hv|[]]]; [|congruence].
  destruct HB as [_ [_ [_ HC]]]. destruct (HC D v Hv) as [c ->]. reflexivity.
Qed.

(* everything add does to the network, whether or not the draw loop completes *)
Lemma add_state_net : forall w, Base w -> let s := aw_st w in let i := new_node_name s in
  snd (link_all cf (new_state w) i (add_links w)) = true /\ net_eq (grown s i (add_links w)) (add_state w).
Proof.
  intros w HB s i. destruct (new_state_net w HB) as [_ [A [B [C D]]]]. pose proof (new_state_present w HB) as P. fold s i in A, B, C, D, P.
  cbn [grown st_nodes st_edges st_attr st_loci] in A, B, C, D. rewrite app_nil_r in B.
  destruct (add_links_spec w HB) as [E1 [E2 [E3 _]]]. fold s i in E2, E3.
  destruct (link_all_net (add_links w) (new_state w) i E1 E2) as [K1 K2].
  - apply P, in_app_iff. right. left. reflexivity.
  - intros j Hj. apply P, in_app_iff. left. apply E3, Hj.
  - intros j Hj. rewrite B. apply untouched_adjb, graph_untouched; [apply HB | apply new_node_name_fresh].
  - split; [exact K1|]. eapply net_eq_trans; [|exact K2].
    unfold net_eq, grown. cbn [st_nodes st_edges st_attr st_loci]. rewrite A, B, D. repeat split. exact C.
Qed.

Lemma add_neighbours : forall w, Base w -> neighbours (add_state w) (new_node_name (aw_st w)) = add_links w.
Proof.
  intros w HB. destruct (add_state_net w HB) as [_ [_ [Ee _]]].
  apply (neighbours_star _ _ _ (st_edges (aw_st w))); [|exact Ee].
  apply graph_untouched; [apply HB | apply new_node_name_fresh].
Qed.

(* add as a function of the world, with the outcomes of all calls resolved *)
Lemma add_step_eq : forall w, Base w -> let i := new_node_name (aw_st w) in
  add_step cf w = match add_picks w with
                  | None => set_world_st w (add_state w) (aw_all w ++ [i]) [] true false None
                  | Some (es, ds) => set_world_st w (add_state w) (aw_all w ++ [i]) ds false false (Some (KAdd i es))
                  end.
Proof.
  intros w HB i. destruct (new_state_net w HB) as [D _]. destruct (add_state_net w HB) as [K _]. fold i in D, K.
  assert (Hall : zadd i (aw_all w) = aw_all w ++ [i]).
  { apply zadd_fresh. intro H. apply HB in H. exact (new_node_name_fresh _ H). }
  unfold add_state, add_links, new_state, add_picks in *. unfold add_step. fold i in K |- *. rewrite Hall in *.
  destruct (mark_new cf (p_add_node (aw_st w) i) i) as [s2 o2]. cbn [fst snd] in *. subst o2.
  destruct (picks (ac_deg cf) (zsort (aw_all w ++ [i])) i [] (aw_draws w)) as [[es ds]|]; [|reflexivity].
  destruct (link_all cf s2 i es) as [s3 ok]. cbn [fst snd] in *. subst ok. reflexivity.
Qed.

Lemma add_step_all : forall w, Base w -> aw_all (add_step cf w) = aw_all w ++ [new_node_name (aw_st w)].
Proof. intros w HB. rewrite (add_step_eq w HB). destruct (add_picks w) as [[es ds]|]; reflexivity. Qed.

Lemma add_step_base : forall w, Base w -> Base (add_step cf w).
Proof.
  intros w HB. pose proof HB as [[HG HN] [HA [HAN HC]]].
  pose proof (new_node_name_fresh (aw_st w)) as Hfresh.
  pose proof (add_step_all w HB) as Ea.
  destruct (add_state_net w HB) as [_ [En [Ee [Et _]]]]. destruct (add_links_spec w HB) as [_ [_ [Eo _]]].
  set (i := new_node_name (aw_st w)) in *. cbn [grown st_nodes st_edges st_attr] in En, Ee, Et.
  unfold Base. rewrite add_step_st, Ea. split; [split; [split|]|split; [|split]].
  - intros a b Hab. rewrite Ee in Hab. rewrite En, !in_app_iff. apply in_app_iff in Hab.
    destruct Hab as [Hab|Hab]; [destruct (proj1 HG a b Hab); auto|].
    apply in_map_iff in Hab. destruct Hab as [j [[= <- <-] Hj]]. split; [right; left; reflexivity | left; apply Eo, Hj].
  - intros v Hv. rewrite Et. rewrite En in Hv. destruct (Z.eqb_spec v i) as [->|Hne].
    + exfalso. apply Hv, in_app_iff. right. left. reflexivity.
    + rewrite andb_false_r. apply HG. intro H. apply Hv, in_app_iff. left. exact H.
  - rewrite En. apply NoDup_snoc; assumption.
  - apply NoDup_snoc; [exact HA|]. intro H. apply HAN in H. contradiction.
  - intro v. rewrite En, !in_app_iff, HAN. tauto.
  - intros D v Hv. rewrite Et, D. cbn [andb]. destruct (Z.eqb v i) eqn:Ev; [eauto|].
    rewrite En in Hv. apply in_app_iff in Hv. destruct Hv as [Hv|[Hv|[]]]; [apply (HC D), Hv|].
    apply Z.eqb_neq in Ev. congruence.
Qed.

(* the combination's part of removeNode only touches the compartment of the node about to go *)
Lemma mark_removed_net : forall s n, present s n -> let s1 := fst (mark_removed cf s n) in
  snd (mark_removed cf s n) = Done /\ present s1 n /\ without_node s n (fst (p_remove_node s1 n))
  /\ length (st_loci s1) = length (st_loci s).
Proof.
  intros s n [H P]. unfold mark_removed. destruct (with_disease cf) eqn:D; cbn [fst snd].
  - destruct (change_compartment_net (ac_tbl cf) s n (ac_R cf)) as [A B]. rewrite (P eq_refl) in A.
    set (s1 := fst (change_compartment (ac_tbl cf) s n (ac_R cf))) in *.
    assert (P1 : present s1 n).
    { apply (net_eq_present _ _ n A). unfold present, getc_raises, has_node in *. cbn [with_attr st_nodes st_attr]. rewrite H, Z.eqb_refl. auto. }
    split; [apply B, P; reflexivity|]. split; [exact P1|].
    destruct (p_remove_node_without s1 n (proj1 P1)) as [_ [A' [B' C']]]. destruct A as [X1 [X2 [X3 X4]]]. cbn in X1, X2, X3, X4.
    split; [|exact X4]. split; [rewrite A', X1; reflexivity|]. split; [rewrite B', X2; reflexivity|].
    intro v. rewrite C', X3. destruct (Z.eqb v n); reflexivity.
  - split; [reflexivity|]. split; [split; [exact H | rewrite D; exact P]|]. split; [apply p_remove_node_without, H | reflexivity].
Qed.

Lemma unlink_net : forall s n, present s n ->
  snd (unlink cf s n) = Done /\ net_eq (fst (p_remove_node s n)) (fst (unlink cf s n)).
Proof.
  intros s n [H P]. unfold unlink, with_disease in *.
  destruct (ac_combo cf); [| apply remove_node_net, P; reflexivity |];
    (split; [apply p_remove_node_without, H | apply net_eq_refl]).
Qed.

(* the network delete leaves behind *)
Definition delete_state (w : adworld) (n : Z) : state :=
  fst (unlink cf (fst (mark_removed cf (aw_st w) n)) n).

Lemma delete_step_st : forall w n, aw_st (delete_step cf w n) = delete_state w n.
Proof.
  intros w n. unfold delete_step, delete_state. destruct (mark_removed cf (aw_st w) n) as [s1 o1]. cbn [fst].
  destruct (unlink cf s1 n) as [s2 o2]. reflexivity.
Qed.

Lemma delete_state_net : forall w n, Base w -> In n (st_nodes (aw_st w)) ->
  snd (mark_removed cf (aw_st w) n) = Done /\ snd (unlink cf (fst (mark_removed cf (aw_st w) n)) n) = Done
  /\ without_node (aw_st w) n (delete_state w n)
  /\ length (st_loci (delete_state w n)) = length (st_loci (aw_st w)).
Proof.
  intros w n HB Hn. destruct (mark_removed_net (aw_st w) n (Base_present w n HB Hn)) as [M [P1 [Wn L]]].
  destruct (unlink_net _ n P1) as [U N]. split; [exact M|]. split; [exact U|].
  split; [exact (without_node_net _ _ _ _ N Wn)|]. unfold delete_state. rewrite (proj2 (proj2 (proj2 N))), <- L.
  unfold p_remove_node. rewrite (proj1 P1). reflexivity.
Qed.

Lemma delete_step_eq : forall w n, Base w -> In n (st_nodes (aw_st w)) ->
  delete_step cf w n
  = set_world_st w (delete_state w n) (zdiscard n (aw_all w)) (aw_draws w) false false (Some (KDelete n)).
Proof.
  intros w n HB Hn. destruct (delete_state_net w n HB Hn) as [M [U _]]. unfold delete_state in *. unfold delete_step.
  destruct (mark_removed cf (aw_st w) n) as [s1 o1]. cbn [fst snd] in *. subst o1.
  destruct (unlink cf s1 n) as [s2 o2]. cbn [fst snd] in *. subst o2. reflexivity.
Qed.

Lemma delete_step_base : forall w n, Base w -> In n (st_nodes (aw_st w)) -> Base (delete_step cf w n).
Proof.
  intros w n HB Hn. pose proof HB as [HG [HA [HAN HC]]].
  destruct (delete_state_net w n HB Hn) as [_ [_ [Wn _]]]. destruct (without_node_In _ _ _ Wn) as [Hv _].
  rewrite (delete_step_eq w n HB Hn). unfold Base. rewrite set_world_st_st. cbn [aw_all set_world_st].
  split; [exact (gok_without _ _ _ Wn HG)|]. split; [apply zdiscard_NoDup, HA|]. split.
  - intro v. rewrite zdiscard_In, Hv, HAN. tauto.
  - intros D v Hx. apply Hv in Hx. destruct Hx as [Hx Hne]. destruct Wn as [_ [_ C]]. rewrite C.
    apply Z.eqb_neq in Hne. rewrite Hne. apply (HC D), Hx.
Qed.

End Steps.
