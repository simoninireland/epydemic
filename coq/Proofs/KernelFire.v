(* C04 at the level of single operations and of run_pending from an arbitrary well-formed state:
   frame property of moves (they never read the output), so that the invariants of KernelQueue
   hold of the output a call produces; ids that are gone stay gone ([gone]); lazily deleted
   entries were un-posted by the user ([dinv]); what un-posting and querying an id do. *)
From Coq Require Import List ZArith QArith Qabs Bool Arith Lia Lqa Sorted.
From EpyV Require Import Model.Kernel Proofs.KernelBase Proofs.KernelQueue.
Import ListNotations.
Open Scope Q_scope.

(* moves do not read the output: [d] is what a move adds to it *)
Lemma umove_frame {c n q o c' n' q' o'} : umove (c, n, q, o) (c', n', q', o') ->
  exists d, o' = d ++ o /\ forall o2, umove (c, n, q, o2) (c', n', q', d ++ o2).
Proof.
  intros H. elim H using umove_cases.
  - intros x Hx. exists [x]. split; [reflexivity|]. intros o2. apply um_emit, Hx.
  - intros t p e prog rep Ht. exists []. split; [reflexivity|]. intros o2. apply um_post, Ht.
  - intros x Hx Hl. exists [OPosted (e_id x) (e_time x)]. split; [reflexivity|]. intros o2. apply um_posted; assumption.
  - intros i x F. exists [OUnpost i (Some (Some (e_time x)))]. split; [reflexivity|]. intros o2. apply um_kill, F.
Qed.

Lemma umoves_frame {c n q o c' n' q' o'} : umoves (c, n, q, o) (c', n', q', o') ->
  exists d, o' = d ++ o /\ forall o2, umoves (c, n, q, o2) (c', n', q', d ++ o2).
Proof.
  intros U.
  refine (umoves_inv (fun c1 n1 q1 o1 => exists d, o1 = d ++ o /\ forall o2, umoves (c, n, q, o2) (c1, n1, q1, d ++ o2))
            _ U _).
  - intros * H (d & -> & F). destruct (umove_frame H) as (d1 & -> & F1).
    exists (d1 ++ d). split; [apply app_assoc|]. intros o2. rewrite <- app_assoc.
    exact (umoves_trans (F o2) (umoves_one (F1 (d ++ o2)))).
  - exists []. split; [reflexivity|]. intros o2. apply us_refl.
Qed.

Lemma kmove_frame {c n q o l c' n' q' o'} : kmove (c, n, q, o) l (c', n', q', o') ->
  exists d, o' = d ++ o /\ forall o2, kmove (c, n, q, o2) l (c', n', q', d ++ o2).
Proof.
  intros H. elim H using kmove_cases.
  - intros c1 n1 q1 o1 U. destruct (umoves_frame U) as (d & E & F).
    exists d. split; [exact E|]. intros ox. apply km_u, F.
  - intros f. exists []. split; [reflexivity|]. intros ox. apply km_discard.
  - intros c1. exists []. split; [reflexivity|]. intros ox. apply km_clock.
  - intros h n2 q2 o2 Hh Hl U Hs. destruct (umoves_frame U) as (d & E & F).
    exists (trec h :: d ++ [hrec h]). split; [cbn; rewrite E, <- app_assoc; reflexivity|].
    intros ox. cbn. rewrite <- app_assoc. exact (km_posted _ _ _ _ h _ _ _ Hh Hl (F (hrec h :: ox)) Hs).
  - intros k e m pi j n2 q2 o2 U. destruct (umoves_frame U) as (d & E & F).
    exists (OTap c pi (NEv pi j) e :: d ++ [OHandler k c c e (Some m)]).
    split; [cbn; rewrite E, <- app_assoc; reflexivity|].
    intros ox. cbn. rewrite <- app_assoc. eapply km_event, (F (_ :: ox)).
Qed.

Lemma kmoves_frame {c n q o l c' n' q' o'} : kmoves (c, n, q, o) l (c', n', q', o') ->
  exists d, o' = d ++ o /\ forall o2, kmoves (c, n, q, o2) l (c', n', q', d ++ o2).
Proof.
  intros K.
  refine (kmoves_inv (fun lg c1 n1 q1 o1 => exists d, o1 = d ++ o /\ forall o2, kmoves (c, n, q, o2) lg (c1, n1, q1, d ++ o2))
            _ [] K _).
  - intros * H (d & -> & F). destruct (kmove_frame H) as (d1 & -> & F1).
    exists (d1 ++ d). split; [apply app_assoc|]. intros o2. rewrite <- app_assoc.
    exact (kmoves_snoc (F o2) (F1 (d ++ o2))).
  - exists []. split; [reflexivity|]. intros o2. apply ks_refl.
Qed.

(* [gone i]: id i was allocated and no live entry carries it (fired, or un-posted and lazily deleted) *)
Definition gone (i n : nat) (q : list entry) : Prop := (i < n)%nat /\ find_live i q = None.

Lemma gone_umove i {c n q o c' n' q' o'} : umove (c, n, q, o) (c', n', q', o') -> gone i n q -> gone i n' q'.
Proof.
  intros H [A B]. elim H using umove_cases; try (intros; split; assumption).
  - intros t p e prog rep _. split; [lia|]. apply find_live_none. intros y [<-|Hy] E; [cbn in E; lia|].
    rewrite find_live_none in B. auto.
  - intros j x _. split; [exact A|]. apply find_live_none. intros y Hy E. rewrite find_live_none in B.
    apply kill_in in Hy. destruct Hy as [[Hy _]|[z [_ [_ ->]]]]; [auto|reflexivity].
Qed.

Lemma gone_umoves i {c n q o c' n' q' o'} : umoves (c, n, q, o) (c', n', q', o') -> gone i n q -> gone i n' q'.
Proof. exact (umoves_inv (fun _ n q _ => gone i n q) (@gone_umove i)). Qed.

Lemma gone_incl i n q q' : incl q' q -> gone i n q -> gone i n q'.
Proof.
  intros Hi [A B]. split; [exact A|]. rewrite find_live_none in *. intros y Hy. apply B, Hi, Hy.
Qed.

Lemma gone_kmove i {c n q o l c' n' q' o'} : kmove (c, n, q, o) l (c', n', q', o') ->
  gone i n q -> gone i n' q' /\ ~ In i (map e_id l).
Proof.
  intros H G. elim H using kmove_cases.
  - intros c1 n1 q1 o1 U. split; [exact (gone_umoves i U G)|intros []].
  - intros f. split; [|intros []]. eapply gone_incl; [apply discard_dead_incl|exact G].
  - intros _. split; [exact G|intros []].
  - intros h n2 q2 o2 Hh Hl U _. split.
    + apply (gone_umoves i U). eapply gone_incl; [apply remove_id_incl|exact G].
    + cbn. intros [E|[]]. destruct G as [_ B]. rewrite find_live_none in B.
      rewrite (B h (head_in _ _ Hh) E) in Hl. discriminate.
  - intros k e m pi j n2 q2 o2 U. split; [exact (gone_umoves i U G)|intros []].
Qed.

Lemma gone_kmoves i {c n q o l c' n' q' o'} : kmoves (c, n, q, o) l (c', n', q', o') ->
  gone i n q -> gone i n' q' /\ ~ In i (map e_id l).
Proof.
  intros K G.
  refine (kmoves_inv (fun lg _ n q _ => gone i n q /\ ~ In i (map e_id lg)) _ [] K (conj G (fun F => F))).
  intros * H [A B]. destruct (gone_kmove i H A) as [A' B']. split; [exact A'|].
  rewrite map_app. intros Hi. apply in_app_or in Hi. tauto.
Qed.

(* lazily deleted entries were un-posted by the user *)
Definition dinv (q : list entry) (o : list obs) : Prop :=
  forall x, In x q -> e_live x = false -> In (unposted x) o.

Lemma dinv_umove {c n q o c' n' q' o'} : wfk n q -> umove (c, n, q, o) (c', n', q', o') -> dinv q o -> dinv q' o'.
Proof.
  intros Hw H D. elim H using umove_cases.
  - intros x _ y Hy Hl. right. auto.
  - intros t p e prog rep _ y [<-|Hy] Hl; [discriminate|auto].
  - intros x _ _ y Hy Hl. right. auto.
  - intros i x F. pose proof (find_live_some _ _ _ F) as [Hx [Hi Hlx]].
    intros y Hy Hl. apply kill_in in Hy. destruct Hy as [[Hy _]|[z [Hz [Hzi ->]]]]; [right; auto|].
    destruct (e_live z) eqn:Ez; [|right; rewrite (dead_of_dead z Ez); auto].
    assert (z = x) by (eapply NoDup_id_inj; [apply Hw|assumption|assumption|congruence]). subst z. left.
    unfold unposted. cbn. rewrite Hi. reflexivity.
Qed.

Lemma dinv_umoves {c n q o c' n' q' o'} : umoves (c, n, q, o) (c', n', q', o') -> wfk n q -> dinv q o -> dinv q' o'.
Proof.
  intros U Hw D. refine (proj2 (umoves_inv (fun _ n q o => wfk n q /\ dinv q o) _ U (conj Hw D))).
  intros * H [A B]. split; [exact (wfk_umove H A)|exact (dinv_umove A H B)].
Qed.

Lemma dinv_incl q q' o x : incl q' q -> dinv q o -> dinv q' (x :: o).
Proof. intros Hi D y Hy Hl. right. apply D; auto. Qed.

Lemma dinv_kmove {c n q o l c' n' q' o'} : wfk n q -> kmove (c, n, q, o) l (c', n', q', o') -> dinv q o -> dinv q' o'.
Proof.
  intros Hw H D. elim H using kmove_cases.
  - intros c1 n1 q1 o1 U. exact (dinv_umoves U Hw D).
  - intros f y Hy. apply D. exact (discard_dead_incl _ _ _ Hy).
  - intros _. exact D.
  - intros h n2 q2 o2 _ _ U _ y Hy Hly. right. revert y Hy Hly.
    exact (dinv_umoves U (wfk_remove _ _ _ Hw) (dinv_incl q _ _ _ (remove_id_incl _ _) D)).
  - intros k e m pi j n2 q2 o2 U y Hy Hly. right. revert y Hy Hly.
    exact (dinv_umoves U Hw (dinv_incl q _ _ _ (incl_refl _) D)).
Qed.

Lemma dinv_kmoves {c n q o l c' n' q' o'} : kmoves (c, n, q, o) l (c', n', q', o') -> wfk n q -> dinv q o -> dinv q' o'.
Proof.
  intros K Hw D.
  refine (proj2 (kmoves_inv (fun _ _ n q o => wfk n q /\ dinv q o) _ [] K (conj Hw D))).
  intros _ * H [A B]. split; [exact (wfk_kmoves (kmoves_one H) A)|exact (dinv_kmove A H B)].
Qed.

Section Ops.
Context {W : Type}.
Implicit Types s : st W.

Definition gone_st (i : nat) s : Prop := gone i (nextid s) (queue s).

(* the id an AUnpost k / AQuery k addresses *)
Definition the_id (k : nat) s : nat := nth (k mod length (ids s)) (ids s) 0%nat.

Lemma unpost_live p t e k fatal s x : ids s <> [] -> find_live (the_id k s) (queue s) = Some x ->
  do_action p t e (AUnpost k fatal) s =
  emit (OUnpost (the_id k s) (Some (Some (e_time x)))) (set_queue (kill (the_id k s) (queue s)) s).
Proof.
  intros Hi Hf. unfold the_id in *. cbn [do_action]. destruct (ids s) as [|i0 l0]; [contradiction|].
  rewrite Hf. reflexivity.
Qed.

Lemma query_spec p t e k s : ids s <> [] ->
  do_action p t e (AQuery k) s = emit (OQuery (the_id k s) (option_map e_time (find_live (the_id k s) (queue s)))) s.
Proof. intros Hi. unfold the_id. cbn [do_action]. destruct (ids s) as [|i0 l0]; [contradiction|]. reflexivity. Qed.

(* run_pending from any well-formed state: everything [ginv] says holds of the output [d] that
   the call produces *)
Lemma run_pendingL_ginv {tb fuel t n s n' s' l} : wf s ->
  run_pendingL tb fuel t n s = (n', s', l) ->
  exists d, out s' = d ++ out s /\ ginv (nextid s') (queue s') d l.
Proof.
  rewrite wf_wfk. intros Hw H. apply run_pendingL_kmoves in H. destruct (kmoves_frame H) as (d & E & F).
  exists d. split; [exact E|]. specialize (F []). rewrite app_nil_r in F.
  exact (ginv_kmoves [] F (ginv_nil _ _ Hw)).
Qed.

Lemma run_pendingL_cons {tb fuel t n s n' s' l} y : wf s ->
  run_pendingL tb fuel t n s = (n', s', l) -> In y (queue s) -> e_live y = true ->
  In y l \/ In y (queue s') \/ In (unposted y) (out s').
Proof.
  rewrite wf_wfk. intros Hw H Hy Hl. apply run_pendingL_kmoves in H.
  destruct (cons_kmoves y [] Hl H Hw (or_introl Hy)) as [C|[C|C]]; auto.
Qed.

(* each firing of a repeating entry posts its successor, which then fires, stays queued or is un-posted *)
Lemma run_pendingL_rep_step {tb fuel t n s n' s' l} x ddt : wf s ->
  run_pendingL tb fuel t n s = (n', s', l) -> In x l -> e_rep x = Some ddt -> 0 <= ddt ->
  exists y, succ_of x ddt y /\ (In y l \/ In y (queue s') \/ In (unposted y) (out s')).
Proof.
  intros Hw H Hx Hr Hd. destruct (run_pendingL_ginv Hw H) as [d [E G]].
  destruct (g_rep G x ddt Hx Hr Hd) as [y [A [B|[B|B]]]]; exists y; (split; [exact A|]); auto.
  right. right. rewrite E. apply in_or_app. left. exact B.
Qed.

Lemma run_actions_gone p t e acts s i : gone_st i s -> gone_st i (run_actions p t e acts s).
Proof. exact (gone_umoves i (run_actions_umoves p t e acts s)). Qed.

Lemma do_action_wf p t e a s : wf s -> wf (do_action p t e a s).
Proof. rewrite !wf_wfk. exact (wfk_umoves (do_action_umoves p t e a s)). Qed.

End Ops.
