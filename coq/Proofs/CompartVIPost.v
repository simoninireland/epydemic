(* C07_diagram for ALL calls of the posted-removal subclass of SIR_VariableInfection
   ([sir_vi_gen p (Some T)]: setUp posts, for every initially infected node n, postEvent(T, n, remove)).
   Queue invariant (the counterpart of Proofs/CompartFixed.v's for the fixed-recovery models): every
   queued entry is Monitor.observe or remove on a node that was a seed; world invariant: a seed is
   infected or removed at all times.  Hence a posted call is remove on a node in I (arrow I > R) or in
   R (nothing changes), or Monitor.observe (nothing changes). *)
From Coq Require Import List ZArith QArith Bool Arith Lia.
From EpyV Require Import Model.Kernel Model.KernelDyn Model.Loci Model.Compart Model.CompartVI Proofs.KernelBase
  Proofs.CompartInv Proofs.KernelDyn Proofs.KernelDynLoops Proofs.CompartVI.
Import ListNotations.
Close Scope Q_scope.

(* which (program, element) pairs are queued: it unfolds to Proofs/KernelDynLoops.v's [queued] *)
Section QueueE.
Context {W : Type}.
Implicit Types s : st W.
Variable P : nat -> Kernel.elem -> Prop.

Definition qinvE s : Prop := Forall (fun x => P (e_prog x) (e_elem x)) (queue s).

End QueueE.

Section VP.
Variables (pRemove T : Q).
Variables (nodes : list Z) (edges : list (Z * Z)) (init : list (Z * Z)) (inf : list (Z * Z * Q)) (maxtime : Q) (monitor : option Q).
Let vm := sir_vi_gen pRemove (Some T).
Let D := mk_vitable vm nodes edges init inf maxtime monitor.
Let s0 := Loci.setup (vim_specs vm) nodes edges init.
Implicit Types s : st viworld.

Definition seeds : list Z := nodes_in s0 1.

(* Monitor.observe (program 2), or remove (program 0) on a seed *)
Definition post_class (k : nat) (x : Kernel.elem) : Prop := k = 2 \/ (k = 0 /\ exists n, x = EN n /\ In n seeds).

Lemma kinds_post : cm_kinds (vi_cm vm) = [HNode 2; HLeft 1 true None; HObs].
Proof. reflexivity. Qed.

Lemma post_progs k t e lc w : Forall (posts_okE post_class e) (snd (prog_of (d_tb D) k t e lc w)).
Proof.
  unfold D. rewrite vi_prog_of. destruct (nth_error (cm_kinds (vi_cm vm)) k) as [h|] eqn:E; [|constructor].
  rewrite lift_prog_snd. apply handler_posts_ok.
  apply nth_error_In in E. rewrite kinds_post in E. destruct E as [<-|[<-|[<-|[]]]]; reflexivity.
Qed.

Lemma post_setup : forall p, In p (t_procs (d_tb D)) -> Forall (posts_okE post_class (EN 0)) (p_setup p).
Proof.
  unfold D, mk_vitable, mk_table. cbn [d_tb t_procs cm_seed_post vi_cm vm sir_vi_gen vim_seed_post option_map].
  assert (M : Forall (posts_okE post_class (EN 0))
                (map (fun n => APostOn (EN n) T 0) (nodes_in (Loci.setup (cm_specs (vi_cm (sir_vi_gen pRemove (Some T)))) nodes edges init) 1))).
  { apply Forall_forall. intros a Ha. apply in_map_iff in Ha. destruct Ha as [n [<- Hn]]. cbn [posts_okE]. right.
    split; [reflexivity|]. exists n. split; [reflexivity | exact Hn]. }
  destruct monitor as [delta|]; cbn [In]; intros p [<-|[<-|[]]] || intros p [<-|[]]; cbn [p_setup]; try exact M.
  constructor; [left; reflexivity | constructor].
Qed.

(* a seed is infected or removed *)
Definition SD s : Prop := forall n, In n seeds ->
  getc (cw_st (vi_base (world s))) n = Some 1%Z \/ getc (cw_st (vi_base (world s))) n = Some 2%Z.

(* JP: the run invariant of this file *)
Definition JP s : Prop := VJ vm nodes edges s /\ qinvE post_class s /\ SD s.

Lemma JP_VJ s : JP s -> VJ vm nodes edges s.
Proof. intros H. apply H. Qed.
Lemma JP_queued s : JP s -> qinvE post_class s.
Proof. intros H. apply H. Qed.
Lemma JP_SD s : JP s -> SD s.
Proof. intros H. apply H. Qed.

Lemma arrows_post : vi_arrows vm = [(1, 2); (3, 1)]%Z.
Proof. reflexivity. Qed.

(* every call: what changes is an arrow of the model *)
Theorem post_call_diagram Xtr c s : JP s -> dcall_ok D Xtr c s ->
  forall v, getc (cw_st (vi_base (world (dafter D c s)))) v <> getc (cw_st (vi_base (world s))) v ->
  exists l c', getc (cw_st (vi_base (world s))) v = Some l /\ getc (cw_st (vi_base (world (dafter D c s)))) v = Some c'
    /\ In (l, c') (vi_arrows vm).
Proof.
  intros (Hj & Hq & Hsd) Hok v Hne. destruct c as [x t e|pi d t|h].
  - apply (vi_call_diagram Hj Hok); [intros hh; discriminate | exact Hne].
  - apply (vi_call_diagram Hj Hok); [intros hh; discriminate | exact Hne].
  - destruct Hok as [Hh _]. apply head_in in Hh.
    assert (Hp : post_class (e_prog h) (e_elem h)) by (unfold qinvE in Hq; rewrite Forall_forall in Hq; exact (Hq h Hh)).
    pose proof (dafter_lw D (DPost h) s) as A. cbn [dcall_args] in A. destruct A as [_ A]. rewrite A in *. clear A.
    unfold D in *. rewrite vi_prog_of in *. destruct Hp as [Hk|[Hk [n [He Hn]]]]; rewrite Hk in *.
    + exfalso. apply Hne. cbn [nth_error cm_kinds vi_cm vm sir_vi_gen cm_events cm_extra vim_events vim_infect map app].
      destruct (world s); reflexivity.
    + rewrite He in *. cbn [nth_error cm_kinds vi_cm vm sir_vi_gen cm_events cm_extra vim_events vim_infect map app ce_kind] in *.
      rewrite lift_prog_fst in *. cbn [vi_base] in *. rewrite handler_st in *. cbn [moved] in *. rewrite cc_getc in *.
      destruct (getc_raises (cw_st (vi_base (world s))) n); [congruence|].
      destruct (Z.eqb_spec v n) as [->|_]; [|congruence].
      destruct (Hsd n Hn) as [G|G]; [|congruence].
      exists 1%Z, 2%Z. split; [exact G|]. split; [reflexivity|]. left. reflexivity.
Qed.

Lemma SD_dafter Xtr c s : JP s -> dcall_ok D Xtr c s -> SD (dafter D c s).
Proof.
  intros Hjp Hok n Hn. pose proof Hjp as (_ & _ & Hsd).
  assert (Dec : forall a b : option Z, {a = b} + {a <> b}) by (intros a b; decide equality; apply Z.eq_dec).
  destruct (Dec (getc (cw_st (vi_base (world (dafter D c s)))) n) (getc (cw_st (vi_base (world s))) n)) as [E|E].
  - rewrite E. exact (Hsd n Hn).
  - destruct (post_call_diagram Xtr c s Hjp Hok n E) as (l & c' & G1 & G2 & Ha). rewrite G2.
    rewrite arrows_post in Ha. destruct (Hsd n Hn) as [G|G]; rewrite G in G1; inversion G1; subst l;
      destruct Ha as [Ha|[Ha|[]]]; inversion Ha; subst. right. reflexivity.
Qed.

Lemma JP_dsched s s' : JP s -> dsched s s' -> JP s'.
Proof.
  intros Hjp Hs. split; [exact (VJ_dsched _ _ _ s s' (JP_VJ s Hjp) Hs)|].
  split; [exact (queued_incl post_class s s' (dsched_queue Hs) (JP_queued s Hjp))|]. unfold SD. rewrite (dsched_world Hs). exact (JP_SD s Hjp).
Qed.

Lemma JP_dafter Xtr c s : JP s -> dcall_ok D Xtr c s -> JP (dafter D c s).
Proof.
  intros Hjp Hok. pose proof Hjp as (Hj & Hq & _). split; [apply VJ_dafter; [reflexivity | exact Hj]|].
  split; [exact (dafter_queued D post_class post_progs Xtr c s Hok Hq) | exact (SD_dafter Xtr c s Hjp Hok)].
Qed.

Lemma JP_setup rs ls ds : graph_okb nodes edges = true -> init_ok (vi_cm vm) nodes init = true -> JP (setup_state (d_tb D) rs ls ds).
Proof.
  intros Hg Hi. split; [apply VJ_setup; [reflexivity | exact Hg | exact Hi]|].
  split; [exact (setup_queued D post_class post_setup rs ls ds)|].
  intros n Hn. unfold D. rewrite vi_setup_world.
  left. unfold mk_vitable, mk_table. cbn [d_tb t_world vi_base cw_st].
  unfold seeds, nodes_in in Hn. apply filter_In in Hn. destruct Hn as [_ Hn].
  change (Loci.setup (cm_specs (vi_cm vm)) nodes edges init) with s0.
  destruct (getc s0 n) as [c|]; [|discriminate]. apply Z.eqb_eq in Hn. subst c. reflexivity.
Qed.

End VP.

Arguments JP_VJ {pRemove T nodes edges init s}.
Arguments JP_queued {pRemove T nodes edges init s}.
Arguments JP_SD {pRemove T nodes edges init s}.
