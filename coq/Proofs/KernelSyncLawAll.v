(* The one-step selection law of the synchronous model for every table (any number of per-element
   and fixed-rate events, on any loci): with the whole oracle of a timestep scripted, what the step
   selects is distributed as the concatenation, in registration order, of independent selections -
   one per per-element event, each the image of one independent Bernoulli(p) trial per element the
   event's locus holds at the start of the step - followed by the independent fixed-rate events,
   each at most once on a uniformly drawn element; then the marginals of that product law, and the
   state in which the selected events fire (Section LawStep: the scripted oracle is used up exactly). *)
From Coq Require Import List ZArith QArith Bool Arith Lia.
From EpyV Require Lib.Dist.
From EpyV Require Import Lib.Prelude Lib.Lists Model.Kernel Proofs.KernelMember Proofs.KernelSync Proofs.Binomial Proofs.KernelSyncLaw.
Import ListNotations.
Open Scope Q_scope.

Lemma patterns_app : forall B (P : B -> bool) l1 l2 (f : list bool -> dist B),
  prob P (bind (patterns (l1 ++ l2)) f) ==
  prob P (bind (patterns l1) (fun m1 => bind (patterns l2) (fun m2 => f (m1 ++ m2)))).
Proof.
  intros B P. induction l1 as [|p l1 IH]; intros l2 f.
  - cbn [app patterns]. rewrite prob_bind_ret_l. reflexivity.
  - cbn [app patterns]. rewrite !prob_bind_assoc. apply prob_bind_ext. intros b _ _.
    rewrite !prob_bind_assoc.
    rewrite (prob_bind_ext _ _ P (patterns (l1 ++ l2)) _ (fun m => f (b :: m)))
      by (intros m _ _; apply prob_bind_ret_l).
    rewrite (IH l2 (fun m => f (b :: m))).
    apply prob_bind_ext. intros m1 _ _. rewrite prob_bind_ret_l. reflexivity.
Qed.

Lemma rands_of_app : forall m1 m2, rands_of (m1 ++ m2) = rands_of m1 ++ rands_of m2.
Proof. intros. unfold rands_of. apply map_app. Qed.

Lemma rands_of_length : forall m, length (rands_of m) = length m.
Proof. intros. unfold rands_of. apply map_length. Qed.

Lemma spec_trials_app_le : forall x p els rs1 rs2, (length els <= length rs1)%nat ->
  spec_trials x p els (rs1 ++ rs2) = spec_trials x p els rs1.
Proof.
  intros x p. induction els as [|e els IH]; intros rs1 rs2 H; [reflexivity|].
  destruct rs1 as [|r rs1]; [cbn [length] in H; lia|]. cbn [length] in H.
  cbn [spec_trials app hd tl]. rewrite (IH rs1 rs2) by lia. reflexivity.
Qed.

Lemma skipn_app_exact : forall A n (l1 l2 : list A), length l1 = n -> skipn n (l1 ++ l2) = l2.
Proof. intros A n l1 l2 <-. rewrite skipn_app, skipn_all, Nat.sub_diag. reflexivity. Qed.

(* independent selections, one per event, concatenated in registration order *)
Fixpoint selected_all (lc : list (list elem)) (evs : list xev) : dist (list (xev * elem)) :=
  match evs with
  | [] => ret []
  | x :: evs' => bind (selected_dist x (ev_p (snd x)) (block lc x))
                      (fun a => bind (selected_all lc evs') (fun b => ret (a ++ b)))
  end.

Definition probs_of (lc : list (list elem)) (evs : list xev) : list Q :=
  flat_map (fun x => repeat (ev_p (snd x)) (length (block lc x))) evs.

Definition probs_ok (evs : list xev) : Prop := forall x, In x evs -> 0 <= ev_p (snd x) /\ ev_p (snd x) < 2.

Lemma spec_elem_law : forall lc evs, probs_ok evs -> forall P,
  prob P (bind (patterns (probs_of lc evs)) (fun m => ret (spec_elem lc evs (rands_of m)))) ==
  prob P (selected_all lc evs).
Proof.
  intros lc. induction evs as [|x evs IH]; intros Hok P.
  - cbn [probs_of flat_map patterns spec_elem selected_all]. rewrite prob_bind_ret_l. reflexivity.
  - destruct (Hok x (or_introl eq_refl)) as [H0 H2].
    assert (Hok' : probs_ok evs) by (intros y Hy; apply Hok; right; exact Hy).
    cbn [probs_of flat_map selected_all]. fold (probs_of lc evs).
    rewrite patterns_app, patterns_repeat.
    unfold selected_dist at 1. rewrite prob_bind_assoc.
    apply prob_bind_ext. intros m1 q1 Hin. rewrite prob_bind_ret_l.
    pose proof (supp_in (masks_length _ _) Hin) as Hlen.
    (* the right-hand side: push the predicate through the concatenation *)
    rewrite (prob_bind_ret _ _ P (fun b => map (pair x) (pick m1 (block lc x)) ++ b) (selected_all lc evs)).
    rewrite <- (IH Hok' (fun b => P (map (pair x) (pick m1 (block lc x)) ++ b))).
    rewrite !prob_bind_ret. apply prob_ext_In. intros m2 q2 _. f_equal.
    cbn [spec_elem]. rewrite rands_of_app.
    rewrite spec_trials_app_le by (rewrite rands_of_length, Hlen; apply le_n).
    rewrite skipn_app_exact by (rewrite rands_of_length; exact Hlen).
    rewrite spec_trials_pick. rewrite <- Hlen at 1. rewrite (outcomes_rands_of _ m1 H0 H2). reflexivity.
Qed.

Lemma mass_masks : forall n p, mass (masks n p) == 1.
Proof.
  induction n as [|n IH]; intros p; cbn [masks]; [apply mass_ret|].
  rewrite mass_bind; [apply mass_trial|]. intros b _ _. rewrite mass_bind; [apply IH|]. intros; apply mass_ret.
Qed.

Lemma mass_selected_dist : forall X (x : X) p els, mass (selected_dist x p els) == 1.
Proof. intros X x p els. unfold selected_dist. rewrite mass_bind; [apply mass_masks|]. intros; apply mass_ret. Qed.

Lemma mass_selected_all : forall lc evs, mass (selected_all lc evs) == 1.
Proof.
  intros lc. induction evs as [|x evs IH]; cbn [selected_all]; [apply mass_ret|].
  rewrite mass_bind; [apply mass_selected_dist|]. intros a _ _. rewrite mass_bind; [exact IH|]. intros; apply mass_ret.
Qed.

(* the number of pairs of a selection that belong to the events eqx singles out *)
Definition count_for (eqx : xev -> bool) (sel : list (xev * elem)) : nat := length (filter (fun xe => eqx (fst xe)) sel).

Lemma count_for_app : forall eqx a b, count_for eqx (a ++ b) = (count_for eqx a + count_for eqx b)%nat.
Proof. intros. unfold count_for. rewrite filter_app, app_length. reflexivity. Qed.

Lemma count_for_all : forall eqx x (l : list elem), eqx x = true -> count_for eqx (map (pair x) l) = length l.
Proof.
  intros eqx x l H. unfold count_for. induction l as [|e l IH]; [reflexivity|].
  cbn [map filter fst]. rewrite H. cbn [length]. rewrite IH. reflexivity.
Qed.

Lemma count_for_none : forall eqx x (l : list elem), eqx x = false -> count_for eqx (map (pair x) l) = 0%nat.
Proof.
  intros eqx x l H. unfold count_for. induction l as [|e l IH]; [reflexivity|].
  cbn [map filter fst]. rewrite H. exact IH.
Qed.

Lemma selected_dist_support : forall X (x : X) p els,
  supp (selected_dist x p els) (fun a => exists m, a = map (pair x) (pick m els) /\ length m = length els).
Proof.
  intros X x p els. eapply supp_bind; [apply masks_length|]. intros m Hm. apply supp_ret. exists m. auto.
Qed.

Lemma selected_all_none : forall eqx lc evs, (forall y, In y evs -> eqx y = false) ->
  supp (selected_all lc evs) (fun b => count_for eqx b = 0%nat).
Proof.
  intros eqx lc. induction evs as [|y evs IH]; intros Hn; cbn [selected_all]; [apply supp_ret; reflexivity|].
  eapply supp_bind; [apply selected_dist_support|]. intros a (m & -> & _).
  eapply supp_bind; [apply IH; intros z Hz; apply Hn; right; exact Hz|]. intros b Hb. apply supp_ret.
  rewrite count_for_app, Hb, (count_for_none eqx y _ (Hn y (or_introl eq_refl))). reflexivity.
Qed.

(* every event of the table that eqx singles out exactly once: the number of elements selected for it
   is binomial in the size of its block, whatever the other events are and wherever it stands *)
Theorem selected_all_count : forall eqx lc evs1 x evs2 k,
  eqx x = true -> (forall y, In y (evs1 ++ evs2) -> eqx y = false) ->
  prob (fun sel => Nat.eqb k (count_for eqx sel)) (selected_all lc (evs1 ++ x :: evs2)) ==
  binomial_pmf (length (block lc x)) (ev_p (snd x)) k.
Proof.
  intros eqx lc. induction evs1 as [|y evs1 IH]; intros x evs2 k Hx Hn.
  - cbn [app selected_all].
    rewrite (prob_bind_indicator _ _ _ (fun a => Nat.eqb k (count_for eqx a))).
    + rewrite <- selected_binomial with (x := x). apply prob_ext_In. intros a q Ha.
      apply (supp_in (selected_dist_support _ _ _ _)) in Ha. destruct Ha as (m & -> & _).
      rewrite (count_for_all eqx x _ Hx), map_length. reflexivity.
    + intros a q _.
      rewrite (prob_bind_ret _ _ (fun sel => Nat.eqb k (count_for eqx sel)) (fun b => a ++ b)).
      rewrite (prob_ext_In _ _ (fun _ => Nat.eqb k (count_for eqx a))).
      * rewrite prob_const. destruct (Nat.eqb k (count_for eqx a)); [apply mass_selected_all | reflexivity].
      * intros b qb Hb. rewrite count_for_app, (supp_in (selected_all_none eqx lc evs2 Hn) Hb), Nat.add_0_r. reflexivity.
  - cbn [app selected_all].
    assert (Hy : eqx y = false) by (apply Hn; left; reflexivity).
    rewrite (prob_bind_const _ _ _ _ _ (binomial_pmf (length (block lc x)) (ev_p (snd x)) k)).
    + rewrite mass_selected_dist. ring.
    + intros a q Ha. apply (supp_in (selected_dist_support _ _ _ _)) in Ha. destruct Ha as (m & -> & _).
      rewrite (prob_bind_ret _ _ (fun sel => Nat.eqb k (count_for eqx sel)) (fun b => map (pair y) (pick m (block lc y)) ++ b)).
      rewrite <- (IH x evs2 k Hx (fun z Hz => Hn z (or_intror Hz))).
      apply prob_ext. intros b. rewrite count_for_app, (count_for_none eqx y _ Hy). reflexivity.
Qed.

(* a rank drawn uniformly from a locus of n elements *)
Definition uniform (n : nat) : dist nat := map (fun k => (k, 1 / qn n)) (seq 0 n).

Lemma uniform_support : forall n, supp (uniform n) (fun k => (k < n)%nat).
Proof.
  intros n k q H. unfold uniform in H. apply in_map_iff in H. destruct H as (k' & E & H).
  inversion E; subst. apply in_seq in H. lia.
Qed.

(* the oracle of the fixed-rate part, call by call: one variate per active event, and a rank - uniform
   over the locus as it is - for each success *)
Fixpoint fixed_script (lc : list (list elem)) (fevs : list xev) : dist (list bool * list nat) :=
  match fevs with
  | [] => ret ([], [])
  | x :: fevs' =>
      if active lc x then
        bind (trial (ev_p (snd x))) (fun b : bool =>
          if b then bind (uniform (length (lookup lc x))) (fun k =>
                    bind (fixed_script lc fevs') (fun md => ret (true :: fst md, k :: snd md)))
          else bind (fixed_script lc fevs') (fun md => ret (false :: fst md, snd md)))
      else fixed_script lc fevs'
  end.

(* the law claimed: each active fixed-rate event happens at most once, with its probability, on a
   uniformly drawn element of its locus, independently of the others *)
Fixpoint fixed_all (lc : list (list elem)) (fevs : list xev) : dist (list (xev * elem)) :=
  match fevs with
  | [] => ret []
  | x :: fevs' =>
      if active lc x then
        bind (trial (ev_p (snd x))) (fun b : bool =>
          if b then bind (uniform (length (lookup lc x))) (fun k =>
                    bind (fixed_all lc fevs') (fun r => ret ((x, nth k (lookup lc x) (EN 0)) :: r)))
          else fixed_all lc fevs')
      else fixed_all lc fevs'
  end.

Lemma spec_fixed_law : forall lc fevs, probs_ok fevs -> forall P,
  prob P (bind (fixed_script lc fevs) (fun md => ret (spec_fixed lc fevs (rands_of (fst md)) (snd md)))) ==
  prob P (fixed_all lc fevs).
Proof.
  intros lc. induction fevs as [|x fevs IH]; intros Hok P.
  - cbn [fixed_script fixed_all spec_fixed]. rewrite prob_bind_ret_l. reflexivity.
  - destruct (Hok x (or_introl eq_refl)) as [H0 H2].
    assert (Hok' : probs_ok fevs) by (intros y Hy; apply Hok; right; exact Hy).
    cbn [fixed_script fixed_all]. destruct (active lc x) eqn:Ha.
    + rewrite prob_bind_assoc. apply prob_bind_ext. intros b _ _. destruct b.
      * rewrite prob_bind_assoc. apply prob_bind_ext. intros k qk Hk. apply (supp_in (uniform_support _)) in Hk.
        rewrite prob_bind_assoc.
        rewrite (prob_bind_ret _ _ P (fun r => (x, nth k (lookup lc x) (EN 0)) :: r) (fixed_all lc fevs)).
        rewrite <- (IH Hok' (fun r => P ((x, nth k (lookup lc x) (EN 0)) :: r))).
        rewrite (prob_bind_ret _ _ (fun r => P ((x, nth k (lookup lc x) (EN 0)) :: r))).
        rewrite <- (prob_bind_ret _ _ P (fun md => (x, nth k (lookup lc x) (EN 0)) :: spec_fixed lc fevs (rands_of (fst md)) (snd md))).
        apply prob_bind_ext. intros md _ _. rewrite prob_bind_ret_l. cbn [fst snd].
        cbn [spec_fixed rands_of map hd tl]. rewrite Ha, (scripted _ true H0 H2), (Nat.mod_small _ _ Hk). reflexivity.
      * rewrite prob_bind_assoc. rewrite <- (IH Hok' P).
        apply prob_bind_ext. intros md _ _. rewrite prob_bind_ret_l. cbn [fst snd].
        cbn [spec_fixed rands_of map hd tl]. rewrite Ha, (scripted _ false H0 H2). reflexivity.
    + rewrite <- (IH Hok' P). apply prob_bind_ext. intros md _ _. cbn [spec_fixed]. rewrite Ha. reflexivity.
Qed.

Lemma spec_elem_app : forall lc evs rs1 rs2, (count_elem lc evs <= length rs1)%nat ->
  spec_elem lc evs (rs1 ++ rs2) = spec_elem lc evs rs1.
Proof.
  intros lc. induction evs as [|x evs IH]; intros rs1 rs2 H; [reflexivity|].
  cbn [count_elem] in H. cbn [spec_elem].
  rewrite spec_trials_app_le by lia. rewrite skipn_app. replace (length (block lc x) - length rs1)%nat with 0%nat by lia.
  rewrite IH by (rewrite skipn_length; lia). reflexivity.
Qed.

Lemma patterns_length : forall ps, supp (patterns ps) (fun m => length m = length ps).
Proof.
  induction ps as [|p ps IH]; cbn [patterns]; [apply supp_ret; reflexivity|].
  eapply supp_bind; [apply supp_any|]. intros b _. eapply supp_bind; [apply IH|].
  intros m Hm. apply supp_ret. cbn [length]. rewrite Hm. reflexivity.
Qed.

Lemma probs_of_length : forall lc evs, length (probs_of lc evs) = count_elem lc evs.
Proof. exact trials_length. Qed.

Section LawFull.
Context {W : Type}.
Variable tb : table W.

(* the selection of a timestep with the whole oracle scripted: the per-element trials, then the
   fixed-rate part call by call *)
Definition select_dist_full (s : st W) : dist (list (xev * elem)) :=
  bind (patterns (probs_of (loci s) (per_element tb))) (fun m =>
    bind (fixed_script (loci s) (fixed_rate tb)) (fun md =>
      ret (fst (tranche tb (set_oracle (rands_of (m ++ fst md)) (lns s) (snd md) s))))).

(* EVERY table: what a timestep selects is the independent per-element selections in registration
   order, followed by the independent fixed-rate events *)
Theorem select_dist_full_law : forall (s : st W), probs_ok (per_element tb) -> probs_ok (fixed_rate tb) ->
  forall P, prob P (select_dist_full s) ==
            prob P (bind (selected_all (loci s) (per_element tb))
                         (fun a => bind (fixed_all (loci s) (fixed_rate tb)) (fun b => ret (a ++ b)))).
Proof.
  intros s Hpe Hfr P. unfold select_dist_full.
  (* right-hand side: replace the two product laws by the scripted oracles *)
  transitivity (prob P (bind (bind (patterns (probs_of (loci s) (per_element tb)))
                                   (fun m => ret (spec_elem (loci s) (per_element tb) (rands_of m))))
                             (fun a => bind (fixed_all (loci s) (fixed_rate tb)) (fun b => ret (a ++ b))))).
  - rewrite prob_bind_assoc. apply prob_bind_ext. intros m qm Hm. rewrite prob_bind_ret_l.
    rewrite (prob_bind_ret _ _ P (fun b => spec_elem (loci s) (per_element tb) (rands_of m) ++ b)).
    rewrite <- (spec_fixed_law (loci s) (fixed_rate tb) Hfr).
    rewrite (prob_bind_ret _ _ (fun b => P (spec_elem (loci s) (per_element tb) (rands_of m) ++ b))).
    rewrite (prob_bind_ret _ _ P).
    apply prob_ext. intros md. f_equal.
    rewrite tranche_spec. cbn [fst]. unfold spec_tranche. cbn [set_oracle loci rands draws].
    apply (supp_in (patterns_length _)) in Hm. rewrite probs_of_length in Hm.
    rewrite rands_of_app.
    rewrite spec_elem_app by (rewrite rands_of_length; lia).
    rewrite skipn_app_exact by (rewrite rands_of_length; exact Hm). reflexivity.
  - (* swap in the product law of the per-element part *)
    set (g := fun a => bind (fixed_all (loci s) (fixed_rate tb)) (fun b => ret (a ++ b))).
    assert (Hgen : forall (d1 d2 : dist (list (xev * elem))),
              (forall Q, prob Q d1 == prob Q d2) -> prob P (bind d1 g) == prob P (bind d2 g)).
    { intros d1 d2 H. unfold g.
      rewrite !(prob_bind_swap _ _ _ P _ (fixed_all (loci s) (fixed_rate tb)) (fun a b => ret (a ++ b))).
      apply prob_bind_ext. intros b _ _.
      rewrite !(prob_bind_ret _ _ P (fun a => a ++ b)). apply H. }
    apply Hgen. intros Q. apply spec_elem_law. exact Hpe.
Qed.

End LawFull.

Lemma prob_map_const : forall A (R : A -> bool) c (ks : list A),
  prob R (map (fun k => (k, c)) ks) == qn (length (filter R ks)) * c.
Proof.
  intros A R c. induction ks as [|k ks IH].
  - cbn [map prob filter length]. unfold qn. cbn [Z.of_nat inject_Z]. ring.
  - cbn [map prob filter]. rewrite IH. destruct (R k).
    + cbn [length]. replace (S (length (filter R ks))) with (1 + length (filter R ks))%nat by reflexivity.
      rewrite qn_add. change (qn 1) with 1. ring.
    + ring.
Qed.

(* [uniform] is Dist.uniform, whose weights add up to 1 *)
Lemma mass_uniform : forall n, (0 < n)%nat -> mass (uniform n) == 1.
Proof. intros n H. rewrite mass_total. exact (Dist.total_uniform n H). Qed.

Lemma uniform_element : forall A (d : A) (l : list A) (Q : A -> bool), (0 < length l)%nat ->
  prob (fun k => Q (nth k l d)) (uniform (length l)) == qn (length (filter Q l)) / qn (length l).
Proof.
  intros A d l Q H. unfold uniform. rewrite prob_map_const.
  rewrite (filter_map_length (fun k => nth k l d) Q), map_nth_seq.
  field. exact (qn_pos _ H).
Qed.

Lemma active_nonempty : forall lc x, active lc x = true -> (0 < length (lookup lc x))%nat.
Proof.
  intros lc x H. unfold active in H. destruct (lookup lc x); [discriminate | cbn [length]; lia].
Qed.

Lemma mass_fixed_all : forall lc fevs, mass (fixed_all lc fevs) == 1.
Proof.
  intros lc. induction fevs as [|x fevs IH]; cbn [fixed_all]; [apply mass_ret|].
  destruct (active lc x) eqn:Ha; [|exact IH]. rewrite mass_bind; [apply mass_trial|]. intros [|] _ _; [|exact IH].
  rewrite mass_bind; [apply (mass_uniform _ (active_nonempty _ _ Ha))|]. intros k _ _.
  rewrite mass_bind; [exact IH|]. intros; apply mass_ret.
Qed.

(* some pair of the selection belongs to an event eqx singles out and carries an element with feature Q *)
Definition hit (eqx : xev -> bool) (Q : elem -> bool) (r : list (xev * elem)) : bool :=
  existsb (fun xe => eqx (fst xe) && Q (snd xe)) r.

Lemma fixed_all_none : forall eqx Q lc fevs, (forall y, In y fevs -> eqx y = false) ->
  supp (fixed_all lc fevs) (fun r => hit eqx Q r = false).
Proof.
  intros eqx Q lc. induction fevs as [|y fevs IH]; intros Hn; cbn [fixed_all]; [apply supp_ret; reflexivity|].
  assert (IH' := IH (fun z Hz => Hn z (or_intror Hz))).
  destruct (active lc y); [|exact IH']. eapply supp_bind; [apply supp_any|]. intros [|] _; [|exact IH'].
  eapply supp_bind; [apply supp_any|]. intros k _. eapply supp_bind; [exact IH'|]. intros r Hr. apply supp_ret.
  unfold hit. cbn [existsb fst snd]. rewrite (Hn y (or_introl eq_refl)). exact Hr.
Qed.

(* An active fixed-rate event that eqx singles out, anywhere in the table: it selects an element with
   feature Q with probability p * (number of such elements in its locus) / (size of the locus) - hence it
   happens with probability p (Q = everything) and on a uniformly drawn element. *)
Theorem fixed_all_hit : forall eqx Q lc f1 x f2,
  eqx x = true -> (forall y, In y (f1 ++ f2) -> eqx y = false) -> active lc x = true ->
  prob (hit eqx Q) (fixed_all lc (f1 ++ x :: f2)) ==
  ev_p (snd x) * (qn (length (filter Q (lookup lc x))) / qn (length (lookup lc x))).
Proof.
  intros eqx Q lc. induction f1 as [|y f1 IH]; intros x f2 Hx Hn Ha.
  - cbn [app fixed_all]. rewrite Ha. rewrite prob_bind_trial.
    assert (H2 : prob (hit eqx Q) (fixed_all lc f2) == 0).
    { rewrite (prob_ext_In _ _ (fun _ => false)); [apply prob_false|].
      intros r q Hr. exact (supp_in (fixed_all_none eqx Q lc f2 Hn) Hr). }
    rewrite H2.
    rewrite (prob_bind_indicator _ _ _ (fun k => Q (nth k (lookup lc x) (EN 0)))).
    + rewrite (uniform_element _ (EN 0) (lookup lc x) Q (active_nonempty _ _ Ha)). ring.
    + intros k q _. rewrite (prob_bind_ret _ _ (hit eqx Q)).
      rewrite (prob_ext_In _ _ (fun _ => Q (nth k (lookup lc x) (EN 0)))).
      * rewrite prob_const. destruct (Q (nth k (lookup lc x) (EN 0))); [apply mass_fixed_all | reflexivity].
      * intros r qr Hr. unfold hit. cbn [existsb fst snd]. rewrite Hx. cbn [andb].
        fold (hit eqx Q r). rewrite (supp_in (fixed_all_none eqx Q lc f2 Hn) Hr). apply orb_false_r.
  - cbn [app fixed_all].
    assert (Hy : eqx y = false) by (apply Hn; left; reflexivity).
    assert (IH' := IH x f2 Hx (fun z Hz => Hn z (or_intror Hz)) Ha).
    destruct (active lc y) eqn:Hay; [|exact IH'].
    rewrite prob_bind_trial.
    rewrite (prob_bind_const _ _ (hit eqx Q) _ _ (ev_p (snd x) * (qn (length (filter Q (lookup lc x))) / qn (length (lookup lc x))))).
    + rewrite (mass_uniform _ (active_nonempty _ _ Hay)), IH'. ring.
    + intros k q _. rewrite (prob_bind_ret _ _ (hit eqx Q)). rewrite <- IH'.
      apply prob_ext. intros r. unfold hit. cbn [existsb fst snd]. rewrite Hy. reflexivity.
Qed.

(* what the fixed-rate script hands out is consumed exactly: one variate per active event, one rank per success *)
Lemma fixed_script_support : forall lc fevs, probs_ok fevs -> forall md q, In (md, q) (fixed_script lc fevs) ->
  length (fst md) = count_fixed lc fevs /\
  length (spec_fixed lc fevs (rands_of (fst md)) (snd md)) = length (snd md).
Proof.
  intros lc. induction fevs as [|x fevs IH]; intros Hok; cbn [fixed_script]; [apply supp_ret; split; reflexivity|].
  destruct (Hok x (or_introl eq_refl)) as [H0 H2]. assert (IH' := IH (fun y Hy => Hok y (or_intror Hy))).
  unfold count_fixed in *. cbn [filter spec_fixed]. destruct (active lc x); [|exact IH'].
  eapply supp_bind; [apply supp_any|]. intros [|] _.
  - eapply supp_bind; [apply supp_any|]. intros k _. eapply supp_bind; [exact IH'|]. intros md [L1 L2].
    apply supp_ret. cbn [fst snd length rands_of map hd tl]. rewrite (scripted _ true H0 H2).
    fold (rands_of (fst md)). cbn [length]. rewrite L1, L2. split; reflexivity.
  - eapply supp_bind; [exact IH'|]. intros md [L1 L2].
    apply supp_ret. cbn [fst snd length rands_of map hd tl]. rewrite (scripted _ false H0 H2).
    fold (rands_of (fst md)). rewrite L1, L2. split; reflexivity.
Qed.

Section LawStep.
Context {W : Type}.
Variable tb : table W.

(* the law of (a view of) the state after the timestep's tranche, with the whole oracle scripted *)
Definition step_dist_full {A} (t : Q) (s : st W) (view : st W -> A) : dist A :=
  bind (patterns (probs_of (loci s) (per_element tb))) (fun m =>
    bind (fixed_script (loci s) (fixed_rate tb)) (fun md =>
      ret (view (snd (tranche_step tb t 0 (set_oracle (rands_of (m ++ fst md)) (lns s) (snd md) s)))))).

(* the state in which the selected events fire: the oracle of the selection used up, everything else as it was *)
Definition after_selection (s : st W) : st W := set_oracle [] (lns s) [] s.

Lemma tranche_state : forall (s : st W) m qm md qd, probs_ok (fixed_rate tb) ->
  In (m, qm) (patterns (probs_of (loci s) (per_element tb))) -> In (md, qd) (fixed_script (loci s) (fixed_rate tb)) ->
  snd (tranche tb (set_oracle (rands_of (m ++ fst md)) (lns s) (snd md) s)) = after_selection s.
Proof.
  intros s m qm md qd Hfr Hm Hmd. rewrite tranche_spec. cbn [snd].
  apply (supp_in (patterns_length _)) in Hm. rewrite probs_of_length in Hm.
  destruct (fixed_script_support (loci s) (fixed_rate tb) Hfr md qd Hmd) as [L1 L2].
  cbn [loci rands draws set_oracle].
  assert (Er : tranche_rands tb (loci s) = length (rands_of (m ++ fst md))).
  { rewrite rands_of_length, app_length, Hm, L1. reflexivity. }
  assert (Ed : tranche_draws tb (loci s) (rands_of (m ++ fst md)) (snd md) = length (snd md)).
  { unfold tranche_draws. rewrite rands_of_app, skipn_app_exact by (rewrite rands_of_length; exact Hm). exact L2. }
  rewrite Ed, Er. exact (advance_all (set_oracle (rands_of (m ++ fst md)) (lns s) (snd md) s)).
Qed.

End LawStep.
