(* C03 / C04: time.  Two invariants that constrain how the clock moves:
   [ord_inv]  every fired entry precedes, in (time, id), every live entry still queued (the
              theorems C04_order_...);
   [tinv]     handler and tap times never decrease and never exceed the times of live entries
              (C03_monotone_..., C03_end_..., C04_stochastic_end, C04_synchronous_end);
   and the pairing of handler and tap records with the event counters (C03_agree_...,
   C03_handler_clock_..., C03_count_...).
   Neither invariant survives an arbitrary change of the clock, so both are carried through the
   loops by hand; [tinv] moreover holds only as long as the run is not stuck. *)
From Coq Require Import List ZArith QArith Qabs Bool Arith Lia Lqa Sorted.
From EpyV Require Import Model.Kernel Proofs.KernelBase Proofs.KernelLoops Proofs.KernelQueue.
Import ListNotations.
Open Scope Q_scope.

Lemma ss_snoc {A} (R : A -> A -> Prop) l a :
  StronglySorted R l -> Forall (fun x => R x a) l -> StronglySorted R (l ++ [a]).
Proof.
  induction l as [|x l IH]; cbn; intros Hs Hf; [constructor; constructor|].
  inversion Hs; subst. inversion Hf; subst. constructor; [apply IH; assumption|].
  apply Forall_app. split; [assumption|constructor; [assumption|constructor]].
Qed.

Lemma ss_app {A} (R : A -> A -> Prop) l1 l2 :
  StronglySorted R l1 -> StronglySorted R l2 -> (forall x y, In x l1 -> In y l2 -> R x y) ->
  StronglySorted R (l1 ++ l2).
Proof.
  induction l1 as [|x l1 IH]; cbn; intros H1 H2 H; [exact H2|].
  inversion H1; subst. constructor; [apply IH; auto|].
  apply Forall_app. split; [assumption|]. rewrite Forall_forall. intros y Hy. apply H; auto.
Qed.

Lemma ss_rev {A} (R : A -> A -> Prop) l : StronglySorted R l -> StronglySorted (fun a b => R b a) (rev l).
Proof.
  induction 1 as [|a l Hs IH Hf]; cbn; [constructor|].
  apply ss_snoc; [exact IH|]. rewrite Forall_forall in *. intros x Hx. apply Hf. apply in_rev. exact Hx.
Qed.

Lemma ss_filter {A} (R : A -> A -> Prop) f l : StronglySorted R l -> StronglySorted R (filter f l).
Proof.
  induction 1 as [|a l Hs IH Hf]; cbn; [constructor|].
  destruct (f a); [|exact IH]. constructor; [exact IH|].
  rewrite Forall_forall in *. intros x Hx. apply filter_In in Hx. apply Hf, Hx.
Qed.

Lemma filter_rev' {A} (f : A -> bool) l : filter f (rev l) = rev (filter f l).
Proof.
  induction l as [|x l IH]; cbn; [reflexivity|]. rewrite filter_app, IH. cbn.
  destruct (f x); cbn; [reflexivity|apply app_nil_r].
Qed.

(* the fired entries [lg] are in firing order; each precedes every live queued entry, was due by
   the clock, and has an id already allocated (so that nothing posted later can precede it) *)
Record ord_inv (c : Q) (n : nat) (q lg : list entry) : Prop := {
  o_wf : wfk n q;
  o_sorted : StronglySorted (fun a b => before a b = true) lg;
  o_last : forall f, In f lg ->
     (forall x, In x q -> e_live x = true -> before f x = true) /\ e_time f <= c /\ (e_id f < n)%nat }.

Arguments o_wf {c n q lg}.
Arguments o_sorted {c n q lg}.
Arguments o_last {c n q lg}.

Lemma ord_nil c n q : wfk n q -> ord_inv c n q [].
Proof. intros Hw. split; [exact Hw|constructor|intros f []]. Qed.

Lemma ord_umove {c n q o c' n' q' o' lg} : umove (c, n, q, o) (c', n', q', o') -> ord_inv c n q lg -> ord_inv c' n' q' lg.
Proof.
  intros H [O1 O2 O3]. split; [exact (wfk_umove H O1)|exact O2|].
  elim H using umove_cases.
  - intros x _. exact O3.
  - (* post: the new entry is not due before the clock and has a larger id *)
    intros t p e prog rep Ht f Hf. destruct (O3 f Hf) as [A [B C]]. split; [|split; [exact B|lia]].
    intros x [<-|Hx] Hl; [|auto]. apply before_true. cbn.
    destruct (Qlt_le_dec (e_time f) t) as [Hlt|Hle]; [left; exact Hlt|right; split; [lra|exact C]].
  - intros x _ _. exact O3.
  - intros i y _ f Hf. destruct (O3 f Hf) as [A [B C]]. split; [|split; assumption].
    intros x Hx Hl. apply kill_live_in in Hx; [|exact Hl]. apply A; [apply Hx|exact Hl].
Qed.

Lemma ord_umoves {lg c n q o c' n' q' o'} : umoves (c, n, q, o) (c', n', q', o') -> ord_inv c n q lg -> ord_inv c' n' q' lg.
Proof. apply (umoves_inv (fun c n q _ => ord_inv c n q lg)). intros *. exact ord_umove. Qed.

Lemma ord_discard c n q lg f : ord_inv c n q lg -> ord_inv c n (discard_dead f q) lg.
Proof.
  intros [O1 O2 O3]. split; [apply wfk_discard, O1|exact O2|].
  intros x Hx. destruct (O3 x Hx) as [A B]. split; [|exact B].
  intros y Hy. apply A. eapply discard_dead_incl; eassumption.
Qed.

Lemma ord_clock c n q lg c' : (forall f, In f lg -> e_time f <= c') -> ord_inv c n q lg -> ord_inv c' n q lg.
Proof.
  intros Hc [O1 O2 O3]. split; [exact O1|exact O2|].
  intros x Hx. destruct (O3 x Hx) as [A [B C]]. auto.
Qed.

Lemma ord_pop c n q lg h : head q = Some h -> e_live h = true -> ord_inv c n q lg ->
  ord_inv (e_time h) n (remove_id (e_id h) q) (lg ++ [h]).
Proof.
  intros Hh Hl [O1 O2 O3]. pose proof (head_in _ _ Hh) as Hin. split; [apply wfk_remove, O1| |].
  - apply ss_snoc; [exact O2|]. rewrite Forall_forall. intros f Hf. apply (O3 f Hf); assumption.
  - intros f Hf. apply in_app_or in Hf. destruct Hf as [Hf|[<-|[]]].
    + destruct (O3 f Hf) as [A [B C]]. split; [|split; [|exact C]].
      * intros x Hx. apply A. eapply remove_id_incl; eassumption.
      * apply before_time_le, A; assumption.
    + split; [|split; [lra|]].
      * intros x Hx Hlx. apply before_total; [|eapply head_min; [exact Hh|eapply remove_id_incl; exact Hx]].
        intros E. apply (remove_id_gone (e_id h) q (proj1 O1)).
        pose proof (in_map e_id _ _ Hx) as Hm. rewrite E in Hm. exact Hm.
      * destruct O1 as [_ Hlt]. rewrite Forall_forall in Hlt. apply Hlt, Hin.
Qed.

Definition is_ht (x : obs) : bool := match x with OHandler _ _ _ _ _ | OTap _ _ _ _ => true | _ => false end.
Definition time_of (x : obs) : Q := match x with OHandler _ t _ _ _ => t | OTap t _ _ _ => t | _ => 0 end.
Definition obs_times (o : list obs) : list Q := map time_of (filter is_ht o).
(* newest first: every time is at least every older one *)
Definition desc : list Q -> Prop := StronglySorted (fun a b : Q => b <= a).

(* [L] is a time between the latest handler or tap record and every live entry and the clock *)
Record tinv (L c : Q) (q : list entry) (o : list obs) : Prop := {
  t_desc : desc (L :: obs_times o);
  t_clock : L <= c;
  t_live : forall x, In x q -> e_live x = true -> L <= e_time x }.
Arguments t_desc {L c q o}.
Arguments t_clock {L c q o}.
Arguments t_live {L c q o}.

Lemma neutral_not_ht x : neutral x = true -> is_ht x = false.
Proof. destruct x; cbn; congruence. Qed.

Lemma tinv_emit_other L c q o x : is_ht x = false -> tinv L c q o -> tinv L c q (x :: o).
Proof. intros Hx [T1 T2 T3]. split; auto. unfold obs_times. cbn. rewrite Hx. exact T1. Qed.

Lemma tinv_emit_at L c q o x : is_ht x = true -> time_of x == L -> tinv L c q o -> tinv L c q (x :: o).
Proof.
  intros Hx H1 [T1 T2 T3]. split; auto. unfold obs_times. cbn. rewrite Hx. cbn.
  inversion T1 as [|? ? Hs Hf]; subst. constructor; [constructor; [exact Hs|]|constructor; [rewrite H1; apply Qle_refl|exact Hf]].
  eapply Forall_impl; [|exact Hf]. cbn. intros; lra.
Qed.

Lemma tinv_umove L c n q o c' n' q' o' : umove (c, n, q, o) (c', n', q', o') -> tinv L c q o -> tinv L c' q' o'.
Proof.
  intros H T. pose proof T as [T1 T2 T3]. elim H using umove_cases.
  - intros x Hx. apply tinv_emit_other; [apply neutral_not_ht; assumption|exact T].
  - intros t p e prog rep Ht. split; [exact T1|exact T2|]. intros x [<-|Hx] Hl; [cbn; lra|auto].
  - intros x _ _. apply tinv_emit_other; [reflexivity|exact T].
  - intros i x _. apply tinv_emit_other; [reflexivity|]. split; [exact T1|exact T2|].
    intros y Hy Hl. apply kill_live_in in Hy; [|exact Hl]. apply T3; [apply Hy|exact Hl].
Qed.

Lemma tinv_umoves {L c n q o c' n' q' o'} : umoves (c, n, q, o) (c', n', q', o') -> tinv L c q o -> tinv L c' q' o'.
Proof. exact (umoves_inv (fun c _ q o => tinv L c q o) (tinv_umove L)). Qed.

Lemma tinv_discard L c q o f : tinv L c q o -> tinv L c (discard_dead f q) o.
Proof.
  intros [T1 T2 T3]. split; auto. intros x Hx. apply T3. eapply discard_dead_incl; eassumption.
Qed.

Lemma tinv_raise L c q o L' c' : L <= L' -> L' <= c' ->
  (forall x, In x q -> e_live x = true -> L' <= e_time x) -> tinv L c q o -> tinv L' c' q o.
Proof.
  intros H1 H2 H3 [T1 T2 T3]. split; auto.
  inversion T1 as [|? ? Hs Hf]; subst. constructor; [exact Hs|].
  eapply Forall_impl; [|exact Hf]. cbn. intros; lra.
Qed.

Lemma tinv_pop L c q o h : head q = Some h -> e_live h = true -> tinv L c q o ->
  tinv (e_time h) (e_time h) (remove_id (e_id h) q) (hrec h :: o).
Proof.
  intros Hh Hl T. pose proof (head_in _ _ Hh) as Hin.
  assert (HL : L <= e_time h) by (apply (t_live T); assumption).
  apply tinv_emit_at; [reflexivity|cbn; lra|].
  apply (tinv_raise L c); [exact HL|lra| |].
  - intros x Hx _. apply notbefore_time_le. eapply head_min; [exact Hh|eapply remove_id_incl; exact Hx].
  - destruct T as [T1 T2 T3]. split; auto. intros x Hx. apply T3. eapply remove_id_incl; eassumption.
Qed.

Section T.
Context {W : Type}.
Implicit Types s : st W.

Definition ord_st s lg : Prop := ord_inv (clock s) (nextid s) (queue s) lg.
Definition tinv_st L s : Prop := tinv L (clock s) (queue s) (out s).

Lemma tinv_core L s s' : core_of s' = core_of s -> tinv_st L s -> tinv_st L s'.
Proof. intros E. exact (of_core (fun c _ q o => tinv L c q o) E). Qed.

Lemma ord_osame {s s' lg} : osame s s' -> ord_st s lg -> ord_st s' lg.
Proof. intros H. exact (of_core (fun c n q _ => ord_inv c n q lg) (osame_core _ _ H)). Qed.
Lemma tinv_osame {L s s'} : osame s s' -> tinv_st L s -> tinv_st L s'.
Proof. intros H. exact (tinv_core L s s' (osame_core _ _ H)). Qed.

Lemma tinv_st_discard L s : tinv_st L s -> tinv_st L (discard s).
Proof. apply tinv_discard. Qed.

Lemma tinv_set_clock L {s} L' c : L <= L' -> L' <= c ->
  (forall x, In x (queue s) -> e_live x = true -> L' <= e_time x) -> tinv_st L s -> tinv_st L' (set_clock c s).
Proof. apply tinv_raise. Qed.

Lemma ord_pend_step tb h s0 lg : head (queue s0) = Some h -> e_live h = true ->
  ord_st s0 lg -> ord_st (pend_step tb h s0) (lg ++ [h]).
Proof.
  intros Hh Hl O. destruct (pend_step_shape tb h s0) as [n2 [q2 [o2 [U E]]]].
  exact (of_core (fun c n q _ => ord_inv c n q _) E (ord_umoves U (ord_pop (clock s0) _ _ _ _ Hh Hl O))).
Qed.

Lemma tinv_pend_step tb {h s0 L} : head (queue s0) = Some h -> e_live h = true ->
  tinv_st L s0 -> tinv_st (e_time h) (pend_step tb h s0).
Proof.
  intros Hh Hl T. destruct (pend_step_shape tb h s0) as [n2 [q2 [o2 [U E]]]].
  apply (of_core (fun c _ q o => tinv _ c q o) E).
  apply tinv_emit_at; [reflexivity|cbn; lra|].
  exact (tinv_umoves U (tinv_pop L (clock s0) _ _ _ Hh Hl T)).
Qed.

Lemma ord_fire_event tb x t e s lg : ord_st s lg -> ord_st (fire_event tb x t e s) lg.
Proof.
  intros O. destruct (fire_event_shape tb x t e s) as [k [m [pi [j [n2 [q2 [o2 [U E]]]]]]]].
  exact (of_core (fun c n q _ => ord_inv c n q lg) E (ord_umoves U O)).
Qed.

Lemma tinv_fire_event tb x t e s : clock s = t -> tinv_st t s -> tinv_st t (fire_event tb x t e s).
Proof.
  intros <- T. destruct (fire_event_shape tb x (clock s) e s) as [k [m [pi [j [n2 [q2 [o2 [U E]]]]]]]].
  apply (of_core (fun c _ q o => tinv _ c q o) E).
  apply tinv_emit_at; [reflexivity|cbn; lra|].
  apply (tinv_umoves U). apply tinv_emit_at; [reflexivity|cbn; lra|exact T].
Qed.

Lemma run_pendingL_ord {tb fuel t n s lg n' s' l} :
  ord_st s lg -> run_pendingL tb fuel t n s = (n', s', l) -> ord_st s' (lg ++ l).
Proof.
  exact (lift_run_pendingL tb ord_st (fun _ _ O => O) (fun _ lg => ord_discard _ _ _ lg _) (ord_pend_step tb)).
Qed.

(* [L'] is the time of the last entry fired, or [L] when none was *)
Lemma run_pendingL_tinv {tb fuel t L n s n' s' l} : tinv_st L s ->
  run_pendingL tb fuel t n s = (n', s', l) -> stuck s' = false ->
  exists L', tinv_st L' s' /\ L <= L' /\ (L' <= t \/ L' = L) /\
             (forall x, In x (queue s') -> e_live x = true -> t < e_time x).
Proof.
  intros T H Hs. revert L T.
  refine (run_pendingL_ind tb t (fun _ s _ s' _ => stuck s' = false -> forall L, tinv_st L s ->
            exists L', tinv_st L' s' /\ L <= L' /\ (L' <= t \/ L' = L) /\
                       (forall x, In x (queue s') -> e_live x = true -> t < e_time x)) _ _ _ fuel n s n' s' l H Hs).
  - discriminate.
  - intros n0 s0 Hd Hs0 L T. exists L. split; [apply tinv_st_discard, T|split; [lra|split; [right; reflexivity|]]].
    intros x Hx _. exact (Hd x Hx).
  - intros _ s0 h _ s1 _ Eh Hl Et IH Hs1 L T. pose proof (tinv_st_discard _ _ T) as T0.
    destruct (IH Hs1 _ (tinv_pend_step tb Eh Hl T0)) as [L' [A [B [C D]]]].
    assert (L <= e_time h) by (apply (t_live T0); [apply head_in; exact Eh|exact Hl]).
    exists L'. split; [exact A|split; [lra|split; [|exact D]]].
    left. destruct C as [C|C]; [exact C|rewrite C; exact Et].
Qed.

Lemma osame_stuck s s' : osame s s' -> stuck s' = false -> stuck s = false.
Proof. intros H. apply omono_live, osame_omono, H. Qed.

Lemma run_pendingL_stuck tb fuel t n s n' s' l :
  run_pendingL tb fuel t n s = (n', s', l) -> stuck s' = false -> stuck s = false.
Proof.
  intros H. apply omono_live. destruct (run_pendingL_omono _ _ _ _ _ _ _ _ H) as [E M].
  split; [rewrite E; apply incl_refl|exact M].
Qed.

Lemma run_pendingL_head_fires tb f t n s h : head (queue (discard s)) = Some h -> e_time h <= t ->
  run_pendingL tb (S f) t n (discard s) =
  let '(n', s', l) := run_pendingL tb f t (S n) (pend_step tb h (discard s)) in (n', s', h :: l).
Proof.
  intros Hh Ht. cbn [run_pendingL]. rewrite discard_discard, Hh.
  apply Qle_bool_iff in Ht. rewrite Ht. reflexivity.
Qed.

Definition fired_le (lg : list entry) (t : Q) : Prop := forall f, In f lg -> e_time f <= t.

Lemma fired_le_nil t : fired_le [] t.
Proof. intros f []. Qed.

Lemma fired_le_app lg l t : fired_le lg t -> fired_le l t -> fired_le (lg ++ l) t.
Proof. intros A B f Hf. apply in_app_or in Hf. destruct Hf; auto. Qed.

Lemma fired_le_mono lg t t' : t <= t' -> fired_le lg t -> fired_le lg t'.
Proof. intros H A f Hf. specialize (A f Hf). lra. Qed.

(* the invariant of both loops for the order of firing: the fired entries are in order and
   precede what is queued, and all were due by the loop's time [t] *)
Definition OI (t : Q) s (lg : list entry) : Prop := ord_st s lg /\ fired_le lg t.

(* run_pending up to [t], then the clock set to [t]: what both loops do *)
Lemma run_pendingL_ord_to {tb fuel t n s lg n' s' l} :
  OI t s lg -> run_pendingL tb fuel t n s = (n', s', l) -> OI t (set_clock t s') (lg ++ l).
Proof.
  intros [A B] H.
  assert (B' : fired_le (lg ++ l) t)
    by (apply fired_le_app; [exact B|intros f Hf; exact (proj1 (run_pendingL_fired_le H f Hf))]).
  split; [exact (ord_clock _ _ _ _ _ B' (run_pendingL_ord A H))|exact B'].
Qed.

Lemma run_pendingL_tinv_to {tb fuel t n s n' s' l L} : tinv_st L s -> L <= t ->
  run_pendingL tb fuel t n s = (n', s', l) -> stuck s' = false -> tinv_st t (set_clock t s').
Proof.
  intros T HL H Hs. destruct (run_pendingL_tinv T H Hs) as [L' [A [B [C D]]]].
  apply (tinv_set_clock L' t t); [destruct C as [C| ->]; [exact C|exact HL]|apply Qle_refl| |exact A].
  intros y Hy Hly. specialize (D y Hy Hly). lra.
Qed.

(* run_pending up to the time of the live head: the head fires, at the latest record time *)
Lemma run_pendingL_tinv_head {tb fuel n s h n' s' l L} : tinv_st L s -> head (queue (discard s)) = Some h ->
  run_pendingL tb fuel (e_time h) n (discard s) = (n', s', l) -> stuck s' = false -> tinv_st (e_time h) s'.
Proof.
  intros T Hh Hrp Hs. pose proof (tinv_st_discard _ _ T) as T0. pose proof (discard_head_live _ _ Hh) as Hl.
  destruct fuel as [|f]; [cbn in Hrp; injection Hrp as _ <- _; discriminate|].
  rewrite (run_pendingL_head_fires tb f _ _ _ h Hh (Qle_refl _)) in Hrp.
  destruct (run_pendingL tb f (e_time h) (S n) _) as [[n1 s1] l1] eqn:E. injection Hrp as _ <- _.
  destruct (run_pendingL_tinv (tinv_pend_step tb Hh Hl T0) E Hs) as [L' [A [B [C D]]]].
  apply (tinv_raise L' (clock s1)); [destruct C as [C|C]; [exact C|rewrite C; apply Qle_refl]| | |exact A].
  - pose proof (t_clock A). lra.
  - intros y Hy Hly. specialize (D y Hy Hly). lra.
Qed.

End T.

Section Stoch.
Context {W : Type}.
Implicit Types s : st W.
Variable tb : table W.
Variable pf : nat.
Hypothesis Hnn : nonneg_tb tb.

(* with non-negative rates, what makes the loop's time go forward *)
Definition lns_ok s : Prop := Forall (Qle 0) (lns s).

Lemma lns_ok_omono s s' : omono s s' -> lns_ok s -> lns_ok s'.
Proof. intros [Hi _] H. unfold lns_ok in *. rewrite Forall_forall in *. intros x Hx. apply H, Hi, Hx. Qed.

Lemma stoch_loopL_ord {fuel t ev s lg t' ev' s' l} :
  lns_ok s -> OI t s lg -> stoch_loopL tb pf fuel t ev s = (t', ev', s', l) -> OI t' s' (lg ++ l).
Proof.
  intros HC HI H.
  refine (proj2 (stoch_loopL_inv tb pf (fun t _ s lg => lns_ok s /\ OI t s lg) _ _ (conj HC HI) H)).
  - intros t1 _ s1 lg1 HI1. exact HI1.
  - intros t1 _ s1 lg1 r [C [A B]] _ Hs.
    pose proof (lns_ok_omono _ _ (step_spec_omono Hs) C) as C'.
    destruct Hs as [Hnone | | h n s2 l1 Hh Hrp | s3 nt n s4 l1 Hos Hnt Hrp | s3 nt n s4 l1 s6 x e Hos Hnt Hrp Hos6];
      (split; [exact C'|]).
    + split; [apply ord_discard, A|exact B].
    + split; [exact A|exact B].
    + (* the fired entries precede the live head, the bound of this call *)
      pose proof (ord_discard _ _ _ _ (length (queue s1)) A : ord_st (discard s1) lg1) as A0.
      split; [exact (run_pendingL_ord A0 Hrp)|]. apply fired_le_app.
      * intros f Hf. apply before_time_le.
        apply (o_last A0 f Hf); [apply head_in; exact Hh|exact (discard_head_live _ _ Hh)].
      * intros f Hf. exact (proj1 (run_pendingL_fired_le Hrp f Hf)).
    + exact (run_pendingL_ord_to (conj (ord_osame Hos A) (fired_le_mono _ _ _ (Hnt Hnn C) B)) Hrp).
    + destruct (run_pendingL_ord_to (conj (ord_osame Hos A) (fired_le_mono _ _ _ (Hnt Hnn C) B)) Hrp) as [A5 B5].
      split; [|exact B5]. apply ord_fire_event, (ord_osame Hos6), A5.
Qed.

(* the invariant of the stochastic loop for record times, as long as the run is not stuck: none
   exceeds the loop's time [t], which no live entry precedes *)
Definition TI (t : Q) s : Prop := stuck s = false -> tinv_st t s.

Lemma stoch_loopL_tinv {fuel t ev s t' ev' s' l} :
  lns_ok s -> TI t s -> stoch_loopL tb pf fuel t ev s = (t', ev', s', l) -> TI t' s'.
Proof.
  intros HC HI H.
  refine (proj2 (stoch_loopL_inv tb pf (fun t _ s _ => lns_ok s /\ TI t s) _ _ (lg := []) (conj HC HI) H)).
  - intros t1 _ s1 _ [C _]. split; [exact C|discriminate].
  - intros t1 _ s1 _ r [C D] _ Hs. pose proof (step_spec_omono Hs) as M.
    assert (G : stuck (res_state r) = false ->
                match r with Stop s2 => tinv_st t1 s2 | Cont nt _ s2 _ => tinv_st nt s2 end).
    { intros Hr. specialize (D (omono_live _ _ M Hr)).
      destruct Hs as [Hnone | | h n s2 l1 Hh Hrp | s3 nt n s4 l1 Hos Hnt Hrp | s3 nt n s4 l1 s6 x e Hos Hnt Hrp Hos6];
        cbn [res_state] in Hr.
      - apply tinv_st_discard, D.
      - discriminate Hr.
      - exact (run_pendingL_tinv_head D Hh Hrp Hr).
      - exact (run_pendingL_tinv_to (tinv_osame Hos D) (Hnt Hnn C) Hrp Hr).
      - rewrite fire_event_stuck in Hr.
        apply tinv_fire_event; [exact (osame_clock _ _ Hos6)|]. apply (tinv_osame Hos6).
        exact (run_pendingL_tinv_to (tinv_osame Hos D) (Hnt Hnn C) Hrp (osame_stuck _ _ Hos6 Hr)). }
    destruct r; (split; [exact (lns_ok_omono _ _ M C)|exact G]).
Qed.

End Stoch.

Section Sync.
Context {W : Type}.
Implicit Types s : st W.
Variable tb : table W.
Variable pf : nat.

Lemma fire_tranche_ord {t evs nev s nev' s' lg} :
  ord_st s lg -> fire_tranche tb t evs nev s = (nev', s') -> ord_st s' lg.
Proof.
  intros O H. refine (fire_tranche_inv tb t (fun _ s1 => ord_st s1 lg) _ O H).
  intros _ s1 x e O1. apply ord_fire_event, O1.
Qed.

Lemma fire_tranche_stuck {t evs nev s nev' s'} :
  fire_tranche tb t evs nev s = (nev', s') -> stuck s' = stuck s.
Proof.
  intros H. refine (fire_tranche_inv tb t (fun _ s1 => stuck s1 = stuck s) _ eq_refl H).
  intros _ s1 x e O1. rewrite fire_event_stuck. exact O1.
Qed.

Lemma fire_tranche_tinv {t evs nev s nev' s'} : clock s = t -> tinv_st t s ->
  fire_tranche tb t evs nev s = (nev', s') -> tinv_st t s'.
Proof.
  intros Hc T H.
  refine (proj1 (fire_tranche_inv tb t (fun _ s1 => tinv_st t s1 /\ clock s1 = t) _ (conj T Hc) H)).
  intros _ s1 x e [T1 C1]. split; [apply tinv_fire_event; assumption|rewrite fire_event_clock; exact C1].
Qed.

Lemma sync_loopL_ord {fuel t ev k s lg t' ev' k' s' l} :
  OI t s lg -> sync_loopL tb pf fuel t ev k s = (t', ev', k', s', l) -> OI t' s' (lg ++ l).
Proof.
  intros HI H.
  refine (sync_loopL_inv tb pf (fun t _ _ s lg => OI t s lg) _ _ HI H).
  - intros t1 _ _ s1 lg1 HI1. exact HI1.
  - intros t1 _ _ s1 lg1 nev s3 l1 [A B] _ Hs.
    inversion Hs as [n s0 l0 s2 evs nev1 s31 Hrp Hos Hft]; subst.
    destruct (run_pendingL_ord_to (s := set_clock t1 s1) (conj (ord_clock _ _ _ _ _ B A) B) Hrp) as [A1 B1].
    split; [exact (fire_tranche_ord (ord_osame Hos A1) Hft)|].
    apply (fired_le_mono _ t1); [rewrite Qred_correct; lra|exact B1].
Qed.

(* the invariant of the synchronous loop for record times, as long as the run is not stuck:
   every record so far was made by the step before the one about to run *)
Definition TIy (t : Q) s : Prop := stuck s = false -> exists L, L + 1 == t /\ tinv_st L s.

Lemma sync_loopL_tinv {fuel t ev k s t' ev' k' s' l} :
  TIy t s -> sync_loopL tb pf fuel t ev k s = (t', ev', k', s', l) -> TIy t' s'.
Proof.
  intros HI H.
  refine (sync_loopL_inv tb pf (fun t _ _ s _ => TIy t s) _ _ (lg := []) HI H).
  - intros t1 _ _ s1 _ _. discriminate.
  - intros t1 _ _ s1 _ nev s3 l1 D _ Hs Es3.
    destruct (D (omono_live _ _ (sync_spec_omono Hs) Es3)) as [L [HL T]].
    inversion Hs as [n s0 l0 s2 evs nev1 s31 Hrp Hos Hft]; subst.
    rewrite (fire_tranche_stuck Hft) in Es3.
    exists t1. split; [rewrite Qred_correct; reflexivity|].
    refine (fire_tranche_tinv (osame_clock _ _ Hos) (tinv_osame Hos _) Hft).
    refine (run_pendingL_tinv_to (L := L) _ _ Hrp (osame_stuck _ _ Hos Es3)); [|lra].
    apply (tinv_set_clock L L t1); [apply Qle_refl|lra|apply (t_live T)|exact T].
Qed.

Lemma inj_nat_0 : inject_Z (Z.of_nat 0) == 0.
Proof. reflexivity. Qed.
Lemma inj_nat_S j : inject_Z (Z.of_nat (S j)) == inject_Z (Z.of_nat j) + 1.
Proof. rewrite Nat2Z.inj_succ. unfold Z.succ. rewrite inject_Z_plus. reflexivity. Qed.

(* the loop variable counts the steps: on exit it is t + (number of iterations), and it only
   stops at a step where the exit test holds *)
Lemma sync_loopL_time {fuel t ev k s t' ev' k' s' l} :
  sync_loopL tb pf fuel t ev k s = (t', ev', k', s', l) ->
  exists m : nat, t' == t + inject_Z (Z.of_nat m) /\
    (stuck s' = false -> at_end tb t' s' = true) /\
    (forall j : nat, (j < m)%nat -> Qle_bool (t_maxtime tb) (t + inject_Z (Z.of_nat j)) = false).
Proof.
  revert t ev k s t' ev' k' s' l. induction fuel as [|f IH]; intros t ev k s t' ev' k' s' l; cbn [sync_loopL].
  - intros [= <- <- <- <- <-]. exists 0%nat. split; [rewrite inj_nat_0; lra|split; [cbn; discriminate|intros; lia]].
  - destruct (at_end tb t s) eqn:Em.
    + intros [= <- <- <- <- <-]. exists 0%nat. split; [rewrite inj_nat_0; lra|split; [intros _; exact Em|intros; lia]].
    + destruct (sync_step tb pf t s) as [[nev s3] l1].
      destruct (sync_loopL tb pf f _ _ _ s3) as [[[[t1 ev1] k1] sf] l2] eqn:E. intros [= <- <- <- <- <-].
      apply IH in E. destruct E as [m [Ht [He Hj]]]. exists (S m). split; [|split; [exact He|]].
      * rewrite Ht, Qred_correct, inj_nat_S. lra.
      * (* step j of this loop is step j - 1 of the rest; step 0 failed the exit test *)
        unfold at_end in Em. apply orb_false_iff in Em. destruct Em as [Em _]. apply Qle_bool_false in Em.
        intros j Hlt. apply Qle_bool_false. destruct j as [|j]; [rewrite inj_nat_0; lra|].
        specialize (Hj j ltac:(lia)). apply Qle_bool_false in Hj. rewrite Qred_correct in Hj. rewrite inj_nat_S. lra.
Qed.

End Sync.

Definition is_tap (x : obs) : bool := match x with OTap _ _ _ _ => true | _ => false end.
Definition is_handler (x : obs) : bool := match x with OHandler _ _ _ _ _ => true | _ => false end.
Definition ht (o : list obs) : list obs := filter is_ht o.
Definition ntaps (o : list obs) : nat := length (filter is_tap o).
Definition nhandlers (o : list obs) : nat := length (filter is_handler o).

(* newest first: each tap sits on the handler record of the same event: same time (handler argument
   = clock seen by the handler = tap time), same element, and a name of the right kind *)
Inductive paired : list obs -> Prop :=
| pr_nil : paired []
| pr_posted k t e p l : paired l -> paired (OTap t p (NPost k) e :: OHandler k t t e None :: l)
| pr_event k t e m p j l : paired l -> paired (OTap t p (NEv p j) e :: OHandler k t t e (Some m) :: l).

(* the same, oldest first (the order of [r_out]) *)
Inductive paired_fwd : list obs -> Prop :=
| pf_nil : paired_fwd []
| pf_posted k t e p l : paired_fwd l -> paired_fwd (OHandler k t t e None :: OTap t p (NPost k) e :: l)
| pf_event k t e m p j l : paired_fwd l -> paired_fwd (OHandler k t t e (Some m) :: OTap t p (NEv p j) e :: l).

Lemma paired_fwd_app l1 l2 : paired_fwd l1 -> paired_fwd l2 -> paired_fwd (l1 ++ l2).
Proof. induction 1; cbn; intros H2; [exact H2|constructor; auto|constructor; auto]. Qed.

Lemma paired_rev l : paired l -> paired_fwd (rev l).
Proof.
  induction 1 as [|k t e p l _ IH|k t e m p j l _ IH]; cbn; [constructor|..];
    rewrite <- app_assoc; (apply paired_fwd_app; [exact IH|]); cbn; constructor; constructor.
Qed.

Lemma paired_counts l : paired l -> length (filter is_tap l) = length (filter is_handler l).
Proof. induction 1; cbn; [reflexivity|f_equal; assumption|f_equal; assumption]. Qed.

Lemma filter_ht_tap o : filter is_tap (filter is_ht o) = filter is_tap o.
Proof. induction o as [|x o IH]; cbn; [reflexivity|]. destruct x; cbn; rewrite IH; reflexivity. Qed.
Lemma filter_ht_handler o : filter is_handler (filter is_ht o) = filter is_handler o.
Proof. induction o as [|x o IH]; cbn; [reflexivity|]. destruct x; cbn; rewrite IH; reflexivity. Qed.

Lemma ntaps_ht o : ntaps o = length (filter is_tap (ht o)).
Proof. unfold ntaps, ht. rewrite filter_ht_tap. reflexivity. Qed.

Lemma ht_umove {c n q o c' n' q' o'} : umove (c, n, q, o) (c', n', q', o') -> ht o' = ht o.
Proof.
  intros H. elim H using umove_cases; try reflexivity.
  intros x Hx. unfold ht. cbn. rewrite (neutral_not_ht x Hx). reflexivity.
Qed.

Lemma ht_umoves {c n q o c' n' q' o'} : umoves (c, n, q, o) (c', n', q', o') -> ht o' = ht o.
Proof.
  intros U. refine (umoves_inv (fun _ _ _ o1 => ht o1 = ht o) _ U eq_refl).
  intros * H <-. exact (ht_umove H).
Qed.

Section Count.
Context {W : Type}.
Implicit Types s : st W.
Variable tb : table W.
Variable pf : nat.

Lemma out_of_core {s c n q o} : core_of s = (c, n, q, o) -> out s = o.
Proof. intros E. exact (of_core (fun _ _ _ o1 => o1 = o) E eq_refl). Qed.

Lemma ht_pend_step h s0 : ht (out (pend_step tb h s0)) = trec h :: hrec h :: ht (out s0).
Proof.
  destruct (pend_step_shape tb h s0) as [n2 [q2 [o2 [U E]]]]. rewrite (out_of_core E).
  apply ht_umoves in U. unfold ht in *. cbn. rewrite U. reflexivity.
Qed.

Lemma ht_fire_event x t e s : clock s = t -> exists k m pi j,
  ht (out (fire_event tb x t e s)) = OTap t pi (NEv pi j) e :: OHandler k t t e (Some m) :: ht (out s).
Proof.
  intros <-. destruct (fire_event_shape tb x (clock s) e s) as [k [m [pi [j [n2 [q2 [o2 [U E]]]]]]]].
  exists k, m, pi, j. rewrite (out_of_core E).
  apply ht_umoves in U. unfold ht in *. cbn. rewrite U. reflexivity.
Qed.

(* the invariant of both loops for the counters: handler and tap records come in pairs and the
   loop's event counter [ev] is the number of taps *)
Definition CI (ev : nat) s : Prop := paired (ht (out s)) /\ ev = ntaps (out s).

Lemma CI_osame {ev s s'} : osame s s' -> CI ev s -> CI ev s'.
Proof. intros H. unfold CI. rewrite (out_of_core (osame_core _ _ H)). auto. Qed.

Lemma CI_pend_step ev h s0 : CI ev s0 -> CI (S ev) (pend_step tb h s0).
Proof.
  intros [P C]. unfold CI. rewrite ntaps_ht, ht_pend_step. split; [constructor; exact P|].
  cbn. f_equal. rewrite C. apply ntaps_ht.
Qed.

Lemma CI_fire_event ev x t e s : clock s = t -> CI ev s -> CI (S ev) (fire_event tb x t e s).
Proof.
  intros Hc [P C]. destruct (ht_fire_event x t e s Hc) as [k [m [pi [j E]]]].
  unfold CI. rewrite ntaps_ht, E. split; [constructor; exact P|].
  cbn. f_equal. rewrite C. apply ntaps_ht.
Qed.

Lemma run_pendingL_count {fuel t n s n' s' l ev} : CI ev s ->
  run_pendingL tb fuel t n s = (n', s', l) -> CI (ev + length l) s'.
Proof.
  intros C H. revert ev C.
  refine (run_pendingL_ind tb t (fun _ s _ s' l => forall ev, CI ev s -> CI (ev + length l) s') _ _ _ fuel n s n' s' l H).
  - intros _ s0 ev C. rewrite Nat.add_0_r. exact C.
  - intros _ s0 _ ev C. rewrite Nat.add_0_r. exact C.
  - intros _ s0 h _ s1 l1 _ _ _ IH ev C. cbn [length]. rewrite Nat.add_succ_r.
    exact (IH (S ev) (CI_pend_step ev h (discard s0) C)).
Qed.

Lemma stoch_loopL_count {fuel t ev s t' ev' s' l} :
  CI ev s -> stoch_loopL tb pf fuel t ev s = (t', ev', s', l) -> CI ev' s'.
Proof.
  intros HI H.
  refine (stoch_loopL_inv tb pf (fun _ ev s _ => CI ev s) _ _ (lg := []) HI H).
  - intros _ ev1 s1 _ C. exact C.
  - intros t1 ev1 s1 _ r C _ Hs.
    destruct Hs as [Hnone | | h n s2 l1 Hh Hrp | s3 nt n s4 l1 Hos Hnt Hrp | s3 nt n s4 l1 s6 x e Hos Hnt Hrp Hos6];
      try exact C; rewrite (run_pendingL_length Hrp).
    + exact (run_pendingL_count (s := discard s1) C Hrp).
    + exact (run_pendingL_count (CI_osame Hos C) Hrp).
    + rewrite Nat.add_succ_r. apply CI_fire_event; [exact (osame_clock _ _ Hos6)|].
      exact (CI_osame Hos6 (run_pendingL_count (CI_osame Hos C) Hrp)).
Qed.

Lemma sync_loopL_count {fuel t ev k s t' ev' k' s' l} :
  CI ev s -> sync_loopL tb pf fuel t ev k s = (t', ev', k', s', l) -> CI ev' s'.
Proof.
  intros HI H.
  refine (sync_loopL_inv tb pf (fun _ ev _ s _ => CI ev s) _ _ (lg := []) HI H).
  - intros _ ev1 _ s1 _ C. exact C.
  - intros t1 ev1 _ s1 _ nev s3 l1 C _ Hs.
    inversion Hs as [n s0 l0 s2 evs nev1 s31 Hrp Hos Hft]; subst.
    pose proof (run_pendingL_count (s := set_clock t1 s1) C Hrp) as A.
    rewrite <- (run_pendingL_length Hrp : n = length l1) in A.
    refine (proj1 (fire_tranche_inv tb t1 (fun j sx => CI (ev1 + j) sx /\ clock sx = t1) _ _ Hft)).
    + intros j sx x e [C1 Hc]. split; [rewrite Nat.add_succ_r; apply CI_fire_event; assumption|].
      rewrite fire_event_clock. exact Hc.
    + split; [exact (CI_osame Hos A)|exact (osame_clock _ _ Hos)].
Qed.

End Count.
