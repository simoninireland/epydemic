(* The union-find of Model/NewmanZiff.v (C13).  The array: paths to the root ([path]), path compression
   ([compr], [rootOf_spec]).  The graph: connectivity [conn] of an edge list, edge lists up to orientation
   ([esub], [eeq]).  The invariant [UF a es] that ties the two, kept by compression ([UF_compr]), by an edge
   inside a component ([UF_same]) and by join ([UF_join]). *)
From Coq Require Import List ZArith Bool Arith Lia.
From EpyV Require Import Lib.Prelude Lib.Lists Model.NewmanZiff.
Import ListNotations.

Lemma set_length a : forall n v, length (set a n v) = length a.
Proof. induction a as [|x a IH]; intros [|n] v; cbn; auto. Qed.

Lemma get_set_same a : forall n v, n < length a -> get (set a n v) n = v.
Proof.
  unfold get. induction a as [|x a IH]; intros [|n] v H; cbn in *; try lia; auto.
  apply IH; lia.
Qed.

Lemma get_set_other a : forall n m v, n <> m -> get (set a n v) m = get a m.
Proof.
  unfold get. induction a as [|x a IH]; intros [|n] [|m] v H; cbn in *; try lia; auto.
Qed.

Lemma unocc_set a n v : unocc (set a n v) = unocc a.
Proof. unfold unocc. rewrite set_length. reflexivity. Qed.

Lemma get_out a n : length a <= n -> get a n = 0%Z.
Proof. intros H. unfold get. apply nth_overflow. exact H. Qed.

Lemma unocc_pos a : (0 < unocc a)%Z.
Proof. unfold unocc. lia. Qed.

Lemma get_repeat v N : forall n, n < N -> get (repeat v N) n = v.
Proof. unfold get. induction N as [|N IH]; intros [|n] H; cbn; try lia; auto. apply IH. lia. Qed.

(* [path a n r d]: following parent entries from n reaches the root r in d steps *)
Inductive path (a : list Z) : nat -> nat -> nat -> Prop :=
| path_root n : n < length a -> (get a n < 0)%Z -> path a n n 0
| path_step n r d : n < length a -> (0 <= get a n)%Z -> path a (Z.to_nat (get a n)) r d -> path a n r (S d).

Definition occ (a : list Z) (n : nat) : Prop := n < length a /\ get a n <> unocc a.
Definition is_root (a : list Z) (r : nat) : Prop := r < length a /\ (get a r < 0)%Z.

Lemma repeat_root v N x : is_root (repeat v N) x <-> x < N /\ (v < 0)%Z.
Proof.
  unfold is_root. rewrite repeat_length. split; intros [H1 H2]; (split; [exact H1|]); rewrite get_repeat in * by exact H1; exact H2.
Qed.

Lemma repeat_occ v N x : occ (repeat v N) x <-> x < N /\ v <> (Z.of_nat N + 1)%Z.
Proof.
  unfold occ, unocc. rewrite repeat_length. split; intros [H1 H2]; (split; [exact H1|]); rewrite get_repeat in * by exact H1; exact H2.
Qed.

Lemma path_lt {a n r d} : path a n r d -> n < length a /\ is_root a r.
Proof. induction 1 as [n H1 H2|n r d H1 H2 H3 [IH1 IH2]]; unfold is_root; auto. Qed.

Lemma path_occ {a n r d} : path a n r d -> occ a n.
Proof.
  intros H. destruct H as [n H1 H2|n r d H1 H2 H3]; split; auto.
  - pose proof (unocc_pos a). lia.
  - intros E. apply path_lt in H3. destruct H3 as [H3 _]. rewrite E in H3. unfold unocc in H3. lia.
Qed.

Lemma path_det {a n r d} : path a n r d -> forall {r' d'}, path a n r' d' -> r = r' /\ d = d'.
Proof.
  induction 1 as [n H1 H2|n r d H1 H2 H3 IH]; intros r' d' P; inversion P; subst; try lia; auto.
  destruct (IH _ _ H4) as [-> ->]. auto.
Qed.

Lemma path_of_root {a r} : is_root a r -> path a r r 0.
Proof. intros [H1 H2]. constructor; auto. Qed.

Lemma path_root_inv {a r s d} : is_root a r -> path a r s d -> s = r /\ d = 0.
Proof. intros H P. destruct (path_det (path_of_root H) P) as [-> <-]. auto. Qed.

(* [compr a a']: a' arises from a by overwriting non-root entries with the root of their tree *)
Record compr (a a' : list Z) : Prop := {
  c_len : length a' = length a;
  c_neg : forall x, (get a x < 0)%Z -> get a' x = get a x;
  c_neg' : forall x, (get a' x < 0)%Z -> (get a x < 0)%Z;
  c_unocc : forall x, get a' x = unocc a' <-> get a x = unocc a;
  c_path : forall m s e, path a m s e -> exists e', e' <= e /\ path a' m s e'
}.
Arguments c_len {a a'} _.
Arguments c_neg {a a'} _ {x} _.
Arguments c_neg' {a a'} _ {x} _.
Arguments c_unocc {a a'} _ x.
Arguments c_path {a a'} _ {m s e} _.

Lemma compr_refl a : compr a a.
Proof. constructor; auto; try tauto. intros m s e P. exists e. auto. Qed.

Lemma compr_trans {a b c} : compr a b -> compr b c -> compr a c.
Proof.
  intros [L1 N1 M1 U1 P1] [L2 N2 M2 U2 P2]. constructor.
  - congruence.
  - intros x H. rewrite N2; [apply N1; exact H | rewrite N1; exact H].
  - intros x H. apply M1, M2, H.
  - intros x. rewrite U2. apply U1.
  - intros m s e P. destruct (P1 _ _ _ P) as (e1 & Le1 & Q1). destruct (P2 _ _ _ Q1) as (e2 & Le2 & Q2).
    exists e2. split; [lia | exact Q2].
Qed.

Lemma compr_set {a n r d} : (0 <= get a n)%Z -> path a n r d -> compr a (set a n (Z.of_nat r)).
Proof.
  intros Hn P. destruct (path_lt P) as [Ln [Lr Rr]]. destruct (path_occ P) as [_ On].
  assert (Hnr : n <> r) by (intros ->; lia).
  constructor.
  - apply set_length.
  - intros x H. apply get_set_other. intros ->. lia.
  - intros x H. destruct (Nat.eq_dec n x) as [->|Ne].
    + rewrite get_set_same in H by exact Ln. lia.
    + rewrite get_set_other in H by exact Ne. exact H.
  - intros x. rewrite unocc_set. destruct (Nat.eq_dec n x) as [->|Ne].
    + rewrite get_set_same by exact Ln. unfold unocc. split; intros E; [lia | contradiction].
    + rewrite get_set_other by exact Ne. tauto.
  - (* a path keeps its steps, except that from n it now takes one *)
    intros m s e Q. induction Q as [m H1 H2|m s e H1 H2 H3 IH].
    + exists 0. split; [lia|]. constructor; [rewrite set_length; exact H1|].
      rewrite get_set_other; [exact H2 | intros ->; lia].
    + destruct IH as (e' & Le & Q'). destruct (Nat.eq_dec n m) as [->|Ne].
      * destruct (path_det P (path_step _ _ _ _ H1 H2 H3)) as [<- _].
        exists 1. split; [lia|]. apply path_step.
        -- rewrite set_length; exact H1.
        -- rewrite get_set_same by exact H1. lia.
        -- rewrite get_set_same by exact H1. rewrite Nat2Z.id. constructor; [rewrite set_length; exact Lr|].
           rewrite get_set_other by exact Hnr. exact Rr.
      * exists (S e'). split; [lia|]. apply path_step.
        -- rewrite set_length; exact H1.
        -- rewrite get_set_other by exact Ne. exact H2.
        -- rewrite get_set_other by exact Ne. exact Q'.
Qed.

Lemma rootOf_spec : forall fuel a n r d, path a n r d -> d < fuel ->
  exists a', rootOf fuel a n = (a', r) /\ compr a a'.
Proof.
  induction fuel as [|f IH]; intros a n r d P Hd; [lia|].
  cbn [rootOf]. destruct P as [n H1 H2|n r d H1 H2 H3].
  - apply Z.ltb_lt in H2. rewrite H2. exists a. split; [reflexivity | apply compr_refl].
  - assert (E : (get a n <? 0)%Z = false) by (apply Z.ltb_ge; exact H2). rewrite E.
    destruct (IH a _ r d H3 ltac:(lia)) as (a1 & E1 & C1). rewrite E1.
    exists (set a1 n (Z.of_nat r)). split; [reflexivity|].
    apply (compr_trans C1).
    destruct (c_path C1 (path_step _ _ _ _ H1 H2 H3)) as (e' & _ & Q).
    apply (fun H => compr_set H Q).
    destruct (Z.lt_ge_cases (get a1 n) 0) as [Hneg|Hge]; [|exact Hge].
    apply (c_neg' C1) in Hneg. lia.
Qed.

Inductive conn (es : list nedge) : nat -> nat -> Prop :=
| conn_refl x : conn es x x
| conn_edge x y : In (x, y) es -> conn es x y
| conn_sym x y : conn es x y -> conn es y x
| conn_trans x y z : conn es x y -> conn es y z -> conn es x z.

Lemma conn_sub es es' : (forall x y, In (x, y) es -> conn es' x y) -> forall x y, conn es x y -> conn es' x y.
Proof.
  intros H x y C. induction C as [x|x y I|x y C IH|x y z C1 IH1 C2 IH2].
  - apply conn_refl.
  - apply H, I.
  - apply conn_sym, IH.
  - eapply conn_trans; eauto.
Qed.

Lemma conn_nil x y : conn [] x y -> x = y.
Proof. induction 1; try congruence. contradiction. Qed.

Lemma conn_cons e es x y : conn es x y -> conn (e :: es) x y.
Proof. apply conn_sub. intros u v I. apply conn_edge. right. exact I. Qed.

Definition esub (es es' : list nedge) : Prop := forall x y, In (x, y) es -> In (x, y) es' \/ In (y, x) es'.
Definition eeq (es es' : list nedge) : Prop := esub es es' /\ esub es' es.

Lemma esub_refl es : esub es es.
Proof. intros x y H. auto. Qed.

Lemma esub_trans a b c : esub a b -> esub b c -> esub a c.
Proof. intros H1 H2 x y H. destruct (H1 _ _ H) as [I|I]; destruct (H2 _ _ I); auto. Qed.

Lemma eeq_refl es : eeq es es.
Proof. split; apply esub_refl. Qed.

Lemma eeq_sym a b : eeq a b -> eeq b a.
Proof. intros [H1 H2]. split; auto. Qed.

Lemma eeq_trans a b c : eeq a b -> eeq b c -> eeq a c.
Proof. intros [H1 H2] [H3 H4]. split; eapply esub_trans; eauto. Qed.

Lemma eeq_nil l : eeq l [] -> l = [].
Proof. intros [H _]. destruct l as [|[x y] l]; [reflexivity|]. destruct (H x y (or_introl eq_refl)) as [[]|[]]. Qed.

Lemma conn_esub es es' : esub es es' -> forall x y, conn es x y -> conn es' x y.
Proof.
  intros H. apply conn_sub. intros x y I. destruct (H _ _ I) as [J|J].
  - apply conn_edge, J.
  - apply conn_sym, conn_edge, J.
Qed.

(* [UF a es]: the array a is a union-find forest for the graph with edge list es on the occupied
   nodes: every occupied node reaches a root (so the parent pointers are acyclic), in fewer steps
   than the size stored there (so rootOf terminates within fuel N); the endpoints of every edge
   have the same root and every node is connected to its root (so the classes of rootOf are the
   connected components, see [uf_classes]); a root stores minus the number of nodes of its tree. *)
Record UF (a : list Z) (es : list nedge) : Prop := {
  uf_total : forall n, occ a n -> exists r d, path a n r d /\ (Z.of_nat d < - get a r)%Z;
  uf_edge : forall x y, In (x, y) es -> exists r d e, path a x r d /\ path a y r e;
  uf_root_conn : forall x r d, path a x r d -> conn es x r;
  uf_size : forall r, is_root a r ->
      exists l, NoDup l /\ (forall x, In x l <-> exists d, path a x r d) /\ (- get a r)%Z = Z.of_nat (length l)
}.
Arguments uf_total {a es} _ {n} _.
Arguments uf_edge {a es} _ {x y} _.
Arguments uf_root_conn {a es} _ {x r d} _.
Arguments uf_size {a es} _ {r} _.

Lemma conn_same_root {a es} : UF a es -> forall x y, conn es x y ->
  (forall r d, path a x r d -> exists e, path a y r e) /\ (forall r d, path a y r d -> exists e, path a x r e).
Proof.
  intros U x y C. induction C as [x|x y I|x y C [IH1 IH2]|x y z C1 [IH1 IH2] C2 [IH3 IH4]].
  - split; intros r d P; exists d; exact P.
  - destruct (uf_edge U I) as (r0 & d0 & e0 & P1 & P2). split; intros r d P.
    + destruct (path_det P P1) as [-> _]. eauto.
    + destruct (path_det P P2) as [-> _]. eauto.
  - split; assumption.
  - split; intros r d P.
    + destruct (IH1 _ _ P) as (e & Q). eauto.
    + destruct (IH4 _ _ P) as (e & Q). eauto.
Qed.

Lemma uf_classes {a es} : UF a es -> forall {n m r s d e}, path a n r d -> path a m s e -> (r = s <-> conn es n m).
Proof.
  intros U n m r s d e P Q. split.
  - intros ->. exact (conn_trans _ _ _ _ (uf_root_conn U P) (conn_sym _ _ _ (uf_root_conn U Q))).
  - intros C. destruct (conn_same_root U _ _ C) as [H _]. destruct (H _ _ P) as (e' & Q').
    apply (path_det Q' Q).
Qed.

Lemma uf_size_le {a es r} : UF a es -> is_root a r -> (0 < - get a r <= Z.of_nat (length a))%Z.
Proof.
  intros U R. destruct (uf_size U R) as (l & ND & Hl & E). rewrite E. split.
  - assert (In r l) by (apply Hl; exists 0; apply path_of_root; exact R).
    destruct l; [contradiction | cbn; lia].
  - apply Nat2Z.inj_le. rewrite <- (seq_length (length a) 0). apply NoDup_incl_length; [exact ND|].
    intros x I. apply Hl in I. destruct I as (d & P). apply in_seq. destruct (path_lt P). lia.
Qed.

Lemma uf_depth {a es n r d} : UF a es -> path a n r d -> d < length a.
Proof.
  intros U P. destruct (uf_total U (path_occ P)) as (r' & d' & P' & Hd).
  destruct (path_det P P') as [-> ->].
  pose proof (uf_size_le U (proj2 (path_lt P'))). lia.
Qed.

Lemma compr_occ {a a'} : compr a a' -> forall x, occ a' x <-> occ a x.
Proof. intros C x. unfold occ. rewrite (c_len C), (c_unocc C). tauto. Qed.

Lemma compr_root {a a'} : compr a a' -> forall r, is_root a' r <-> is_root a r.
Proof.
  intros C r. unfold is_root. rewrite (c_len C). split; intros [H1 H2]; split; auto.
  - apply (c_neg' C), H2.
  - rewrite (c_neg C); exact H2.
Qed.

(* a path of a' is a path of a, which every occupied node has *)
Lemma compr_path_inv {a a' es} : UF a es -> compr a a' -> forall x r d, path a' x r d -> exists d0, d <= d0 /\ path a x r d0.
Proof.
  intros U C x r d P. pose proof (path_occ P) as O. apply (compr_occ C) in O.
  destruct (uf_total U O) as (r0 & d0 & P0 & _). destruct (c_path C P0) as (e' & Le & P').
  destruct (path_det P P') as [-> ->]. eauto.
Qed.

Lemma UF_compr {a a' es} : UF a es -> compr a a' -> UF a' es.
Proof.
  intros U C. constructor.
  - intros n O. apply (compr_occ C) in O. destruct (uf_total U O) as (r & d & P & Hd).
    destruct (c_path C P) as (e' & Le & P'). exists r, e'. split; [exact P'|].
    rewrite (c_neg C); [lia | apply (path_lt P)].
  - intros x y I. destruct (uf_edge U I) as (r & d & e & P & Q).
    destruct (c_path C P) as (d' & _ & P'). destruct (c_path C Q) as (e' & _ & Q'). eauto.
  - intros x r d P. destruct (compr_path_inv U C _ _ _ P) as (d0 & _ & P0). exact (uf_root_conn U P0).
  - intros r R. pose proof R as R0. apply (compr_root C) in R0.
    destruct (uf_size U R0) as (l & ND & Hl & E). exists l. split; [exact ND|]. split.
    + intros x. rewrite Hl. split; intros (d & P).
      * destruct (c_path C P) as (d' & _ & P'). eauto.
      * destruct (compr_path_inv U C _ _ _ P) as (d0 & _ & P0). eauto.
    + rewrite (c_neg C); [exact E | apply R0].
Qed.

(* rootOf(n) on an occupied node of a well-formed array, with the fuel N of the model *)
Lemma root_spec {a es n} : UF a es -> occ a n ->
  exists a' r d, root a n = (a', r) /\ path a n r d /\ compr a a'.
Proof.
  intros U O. destruct (uf_total U O) as (r & d & P & _).
  destruct (rootOf_spec (length a) a n r d P (uf_depth U P)) as (a' & E & C).
  exists a', r, d. auto.
Qed.

Lemma UF_eeq {a es es'} : eeq es es' -> UF a es -> UF a es'.
Proof.
  intros Q U. constructor.
  - apply (@uf_total _ _ U).
  - intros x y I. destruct (proj2 Q _ _ I) as [J|J]; destruct (uf_edge U J) as (r & d & e & P1 & P2); eauto.
  - intros x r d P. exact (conn_esub _ _ (proj1 Q) _ _ (uf_root_conn U P)).
  - apply (@uf_size _ _ U).
Qed.

Lemma UF_same {a es n m c dn dm} : UF a es -> path a n c dn -> path a m c dm -> UF a ((n, m) :: es).
Proof.
  intros U Pn Pm. constructor.
  - apply (@uf_total _ _ U).
  - intros x y [E|I]; [injection E as <- <-; eauto | apply (uf_edge U I)].
  - intros x r d P. apply conn_cons, (uf_root_conn U P).
  - apply (@uf_size _ _ U).
Qed.

Section Join.
  Context {a : list Z} {c1 c2 : nat}.
  Hypothesis R1 : is_root a c1.
  Hypothesis R2 : is_root a c2.
  Hypothesis Ne : c1 <> c2.

  Let a' := fst (join a c1 c2).

  Lemma join_fst : a' = set (set a c2 (Z.of_nat c1)) c1 (get a c1 + get a c2)%Z.
  Proof.
    unfold a', join. cbn [fst]. rewrite get_set_other by (intros E; apply Ne; auto). reflexivity.
  Qed.

  Lemma join_len : length a' = length a.
  Proof. rewrite join_fst, !set_length. reflexivity. Qed.

  Lemma join_get_c1 : get a' c1 = (get a c1 + get a c2)%Z.
  Proof. rewrite join_fst. apply get_set_same. rewrite set_length. apply R1. Qed.

  Lemma join_get_c2 : get a' c2 = Z.of_nat c1.
  Proof. rewrite join_fst. rewrite get_set_other by exact Ne. apply get_set_same. apply R2. Qed.

  Lemma join_get_other x : x <> c1 -> x <> c2 -> get a' x = get a x.
  Proof. intros H1 H2. rewrite join_fst. rewrite !get_set_other by auto. reflexivity. Qed.

  Lemma join_snd : snd (join a c1 c2) = (- get a' c1)%Z.
  Proof. reflexivity. Qed.

  Lemma join_unocc x : get a' x = unocc a' <-> get a x = unocc a.
  Proof.
    unfold unocc. rewrite join_len. destruct R1 as [L1 N1], R2 as [L2 N2].
    destruct (Nat.eq_dec x c1) as [->|H1]; [rewrite join_get_c1; lia|].
    destruct (Nat.eq_dec x c2) as [->|H2]; [rewrite join_get_c2; lia|].
    rewrite join_get_other by auto. tauto.
  Qed.

  Lemma join_occ x : occ a' x <-> occ a x.
  Proof. unfold occ. rewrite join_len, join_unocc. tauto. Qed.

  Lemma join_root r : is_root a' r <-> is_root a r /\ r <> c2.
  Proof.
    unfold is_root. rewrite join_len. destruct R1 as [L1 N1], R2 as [L2 N2].
    destruct (Nat.eq_dec r c1) as [->|H1]; [rewrite join_get_c1; split; [intros [? ?]; repeat split; auto | intros [[? ?] ?]; split; auto; lia]|].
    destruct (Nat.eq_dec r c2) as [->|H2]; [rewrite join_get_c2; split; [intros [? ?]; lia | intros [_ ?]; contradiction]|].
    rewrite join_get_other by auto. tauto.
  Qed.

  (* the root map: c2's tree now hangs under c1 *)
  Definition jroot (r : nat) : nat := if Nat.eqb r c2 then c1 else r.
  Definition jdepth (r d : nat) : nat := if Nat.eqb r c2 then S d else d.

  Lemma path_join x r d : path a x r d -> path a' x (jroot r) (jdepth r d).
  Proof.
    destruct R1 as [L1 N1], R2 as [L2 N2].
    assert (Pc1 : path a' c1 c1 0).
    { constructor; [rewrite join_len; exact L1 | rewrite join_get_c1; lia]. }
    induction 1 as [x H1 H2|x r d H1 H2 H3 IH]; unfold jroot, jdepth in *.
    - destruct (Nat.eqb_spec x c2) as [->|Hx].
      + apply path_step; [rewrite join_len; exact L2 | rewrite join_get_c2; lia |].
        rewrite join_get_c2, Nat2Z.id. exact Pc1.
      + destruct (Nat.eq_dec x c1) as [->|Hx1]; [exact Pc1|].
        constructor; [rewrite join_len; exact H1 | rewrite join_get_other by auto; exact H2].
    - assert (x <> c1) by (intros ->; lia). assert (x <> c2) by (intros ->; lia).
      assert (E : get a' x = get a x) by (apply join_get_other; auto).
      destruct (Nat.eqb_spec r c2) as [->|Hr]; (apply path_step; [rewrite join_len; exact H1 | rewrite E; exact H2 | rewrite E; exact IH]).
  Qed.

  Context {es : list nedge}.
  Hypothesis U : UF a es.

  (* a path of a' is the image of a path of a, which every occupied node has *)
  Lemma path_join_inv x r d : path a' x r d -> exists r0 d0, path a x r0 d0 /\ r = jroot r0 /\ d = jdepth r0 d0.
  Proof.
    intros P. pose proof (path_occ P) as O. apply join_occ in O.
    destruct (uf_total U O) as (r0 & d0 & P0 & _). exists r0, d0. split; [exact P0|].
    apply (path_det P (path_join _ _ _ P0)).
  Qed.

  Lemma jroot_c1 : jroot c1 = c1.
  Proof. unfold jroot. destruct (Nat.eqb_spec c1 c2); [contradiction | reflexivity]. Qed.

  Lemma jroot_c2 : jroot c2 = c1.
  Proof. unfold jroot. rewrite Nat.eqb_refl. reflexivity. Qed.

  (* the tree of c1 is now the two trees together, the other trees are as they were *)
  Lemma join_size r : is_root a' r ->
    exists l, NoDup l /\ (forall x, In x l <-> exists d, path a' x r d) /\ (- get a' r)%Z = Z.of_nat (length l).
  Proof.
    intros R. apply join_root in R. destruct R as [R Hr2]. destruct (Nat.eq_dec r c1) as [->|Hr1].
    - destruct (uf_size U R1) as (l1 & ND1 & Hl1 & E1). destruct (uf_size U R2) as (l2 & ND2 & Hl2 & E2).
      exists (l1 ++ l2). split; [|split].
      + apply NoDup_app_iff. split; [assumption|]. split; [assumption|]. intros x I1 I2. apply Hl1 in I1. apply Hl2 in I2.
        destruct I1 as (d1 & P1), I2 as (d2 & P2). destruct (path_det P1 P2). contradiction.
      + intros x. rewrite in_app_iff, Hl1, Hl2. split.
        * intros [(d & P)|(d & P)]; apply path_join in P; rewrite ?jroot_c1, ?jroot_c2 in P; eauto.
        * intros (d & P). destruct (path_join_inv _ _ _ P) as (r0 & d0 & P0 & E & _). unfold jroot in E.
          destruct (Nat.eqb_spec r0 c2) as [->|Hr0]; [right; eauto | left; subst r0; eauto].
      + rewrite join_get_c1, app_length. lia.
    - destruct (uf_size U R) as (l & ND & Hl & E). exists l. split; [exact ND|]. split.
      + intros x. rewrite Hl. split; intros (d & P).
        * apply path_join in P. unfold jroot in P. destruct (Nat.eqb_spec r c2); [contradiction|]. eauto.
        * destruct (path_join_inv _ _ _ P) as (r0 & d0 & P0 & E0 & _). unfold jroot in E0.
          destruct (Nat.eqb_spec r0 c2) as [->|Hr0]; [contradiction | subst r0; eauto].
      + rewrite join_get_other by auto. exact E.
  Qed.

  Context {n m dn dm : nat}.
  Hypothesis Pn : path a n c1 dn.
  Hypothesis Pm : path a m c2 dm.

  Lemma UF_join : UF a' ((n, m) :: es).
  Proof.
    pose proof (uf_size_le U R1) as S1. pose proof (uf_size_le U R2) as S2.
    constructor.
    - intros x O. apply join_occ in O. destruct (uf_total U O) as (r & d & P & Hd).
      exists (jroot r), (jdepth r d). split; [apply path_join; exact P|].
      unfold jroot, jdepth. destruct (Nat.eqb_spec r c2) as [->|Hr].
      + rewrite join_get_c1. lia.
      + destruct (Nat.eq_dec r c1) as [->|Hr1]; [rewrite join_get_c1; lia|].
        rewrite join_get_other by auto. exact Hd.
    - intros x y [E|I].
      + injection E as <- <-. exists c1, (jdepth c1 dn), (jdepth c2 dm). split.
        * rewrite <- jroot_c1 at 1. apply path_join; exact Pn.
        * rewrite <- jroot_c2 at 1. apply path_join; exact Pm.
      + destruct (uf_edge U I) as (r & d & e & P1 & P2). exists (jroot r), (jdepth r d), (jdepth r e).
        split; apply path_join; assumption.
    - intros x r d P. destruct (path_join_inv _ _ _ P) as (r0 & d0 & P0 & -> & _).
      pose proof (conn_cons (n, m) _ _ _ (uf_root_conn U P0)) as C0.
      unfold jroot. destruct (Nat.eqb_spec r0 c2) as [->|Hr]; [|exact C0].
      (* x ~ c2 ~ m ~ n ~ c1 *)
      apply (conn_trans _ _ _ _ C0). apply (conn_trans _ _ m); [apply conn_sym, conn_cons, (uf_root_conn U Pm)|].
      apply (conn_trans _ _ n); [apply conn_sym, conn_edge; left; reflexivity | apply conn_cons, (uf_root_conn U Pn)].
    - exact join_size.
  Qed.
End Join.
