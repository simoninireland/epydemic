(* C02, C05: the inverse-CDF scan [select] of Model/Kernel.v (stochasticdynamics.py:80-94).
   Whatever the rates it returns the first entry at which the running sum exceeds the threshold xc,
   so never an entry of non-positive rate.  For non-negative rates and a threshold xc in [0, total), the entry returned is the one whose
   cumulative-rate interval [prefix j, prefix (j+1)) contains xc; with xc = r2 * total the set of
   r2 in [0,1) selecting entry j is the interval [prefix j / a, prefix (j+1) / a), of length
   rate_j / a. *)
From Coq Require Import List ZArith QArith Bool Arith Lia Lqa.
From EpyV Require Import Lib.Dist Model.Kernel Proofs.KernelBase.
Import ListNotations.
Open Scope Q_scope.

Lemma select_first : forall A (f : A -> Q) xc l xs cur, xs <= xc -> xc < xs + sumf f l ->
  exists l1 x l2, l = l1 ++ x :: l2 /\ select f xc xs cur l = x /\
    xs + sumf f l1 <= xc /\ xc < xs + sumf f l1 + f x /\
    (forall l1' y l1'', l1 = l1' ++ y :: l1'' -> xs + sumf f l1' + f y <= xc).
Proof.
  intros A f xc. induction l as [|x l IH]; intros xs cur Hlo Hhi; cbn [sumf] in Hhi; [lra|].
  cbn [select]. destruct (Qltb xc (xs + f x)) eqn:Hc.
  - apply Qltb_true in Hc. exists [], x, l. cbn [sumf app]. repeat split; try lra.
    intros l1' y l1'' Hnil. destruct l1'; discriminate.
  - apply Qltb_false in Hc.
    destruct (IH (Qred (xs + f x)) x) as (l1 & y & l2 & El & Es & H1 & H2 & H3); try (rewrite Qred_correct; lra).
    rewrite Qred_correct in H1, H2. exists (x :: l1), y, l2. cbn [sumf app].
    split; [rewrite El; reflexivity|]. split; [exact Es|]. split; [lra|]. split; [lra|].
    intros l1' z l1'' E. destruct l1' as [|x' l1']; cbn [app] in E; inversion E; subst; cbn [sumf]; [lra|].
    specialize (H3 l1' z l1'' eq_refl). rewrite Qred_correct in H3. lra.
Qed.

Lemma select_pos : forall A (f : A -> Q) xc l cur, 0 <= xc -> xc < sumf f l ->
  In (select f xc 0 cur l) l /\ 0 < f (select f xc 0 cur l).
Proof.
  intros A f xc l cur Hlo Hhi.
  destruct (select_first A f xc l 0 cur Hlo) as (l1 & x & l2 & El & Es & H1 & H2 & _); [lra|].
  rewrite Es. split; [rewrite El; apply in_or_app; right; left; reflexivity|lra].
Qed.

Lemma select_In : forall A (f : A -> Q) xc l xs cur, In (select f xc xs cur l) (cur :: l).
Proof.
  intros A f xc. induction l as [|x l IH]; intros xs cur; cbn [select]; [left; reflexivity|].
  destruct (Qltb xc (xs + f x)); [right; left; reflexivity|].
  right. exact (IH (Qred (xs + f x)) x).
Qed.

Definition prefix {A} (f : A -> Q) (l : list A) (j : nat) : Q := sumf f (firstn j l).

Lemma prefix_0 : forall A (f : A -> Q) l, prefix f l 0 = 0.
Proof. intros. unfold prefix. destruct l; reflexivity. Qed.

Lemma prefix_cons : forall A (f : A -> Q) x l j, prefix f (x :: l) (S j) = f x + prefix f l j.
Proof. reflexivity. Qed.

Lemma prefix_all : forall A (f : A -> Q) l, prefix f l (length l) = sumf f l.
Proof. intros. unfold prefix. rewrite firstn_all. reflexivity. Qed.

Lemma prefix_S : forall A (f : A -> Q) l j d, (j < length l)%nat ->
  prefix f l (S j) == prefix f l j + f (nth j l d).
Proof.
  intros A f. induction l as [|x l IH]; intros j d Hj; [cbn in Hj; lia|].
  destruct j as [|j].
  - rewrite prefix_cons, !prefix_0. cbn [nth]. ring.
  - rewrite !prefix_cons. cbn [nth]. rewrite (IH j d); [ring | cbn in Hj; lia].
Qed.

Lemma In_firstn : forall A (l : list A) j x, In x (firstn j l) -> In x l.
Proof.
  intros A. induction l as [|y l IH]; intros j x H; destruct j; cbn in H; try contradiction.
  destruct H as [->|H]; [left; reflexivity | right; exact (IH j x H)].
Qed.

Section NonNeg.
Context {A : Type} (f : A -> Q).

Lemma prefix_nonneg : forall l j, (forall x, In x l -> 0 <= f x) -> 0 <= prefix f l j.
Proof.
  intros l j H. unfold prefix. apply sumf_nonneg. intros x Hx. apply H. exact (In_firstn A l j x Hx).
Qed.

Lemma prefix_step_le : forall l j, (forall x, In x l -> 0 <= f x) -> prefix f l j <= prefix f l (S j).
Proof.
  induction l as [|x l IH]; intros j H.
  - unfold prefix. rewrite !firstn_nil. apply Qle_refl.
  - destruct j as [|j].
    + rewrite prefix_cons, !prefix_0. assert (H0 := H x (or_introl eq_refl)). lra.
    + rewrite !prefix_cons. assert (H1 : prefix f l j <= prefix f l (S j)) by (apply IH; intros y Hy; apply H; right; exact Hy). lra.
Qed.

Lemma prefix_mono : forall l j k, (forall x, In x l -> 0 <= f x) -> (j <= k)%nat -> prefix f l j <= prefix f l k.
Proof.
  intros l j k H Hjk. induction Hjk as [|k Hjk IH]; [apply Qle_refl|].
  eapply Qle_trans; [exact IH | apply prefix_step_le; exact H].
Qed.

Lemma prefix_le_total : forall l j, (forall x, In x l -> 0 <= f x) -> prefix f l j <= sumf f l.
Proof.
  intros l j H. destruct (Nat.le_gt_cases j (length l)) as [Hj|Hj].
  - rewrite <- prefix_all. apply prefix_mono; assumption.
  - unfold prefix. rewrite firstn_all2; [apply Qle_refl | lia].
Qed.

Lemma interval_unique : forall xc l j k, (forall x, In x l -> 0 <= f x) ->
  prefix f l j <= xc -> xc < prefix f l (S j) -> prefix f l k <= xc -> xc < prefix f l (S k) -> j = k.
Proof.
  intros xc l j k Hnn Hj1 Hj2 Hk1 Hk2.
  destruct (Nat.lt_trichotomy j k) as [H|[H|H]]; [|exact H|]; exfalso.
  - assert (prefix f l (S j) <= prefix f l k) by (apply prefix_mono; [exact Hnn | lia]). lra.
  - assert (prefix f l (S k) <= prefix f l j) by (apply prefix_mono; [exact Hnn | lia]). lra.
Qed.

Theorem select_index : forall xc l x0, (forall x, In x l -> 0 <= f x) -> 0 <= xc -> xc < sumf f l ->
  exists j, (j < length l)%nat /\ prefix f l j <= xc /\ xc < prefix f l (S j) /\ select f xc 0 x0 l = nth j l x0 /\
            forall k, prefix f l k <= xc -> xc < prefix f l (S k) -> k = j.
Proof.
  intros xc l x0 Hnn Hlo Hhi.
  destruct (select_first A f xc l 0 x0 Hlo) as (l1 & x & l2 & -> & Es & H1 & H2 & _); [lra|].
  assert (E1 : prefix f (l1 ++ x :: l2) (length l1) = sumf f l1).
  { unfold prefix. rewrite firstn_app, firstn_all, Nat.sub_diag. cbn [firstn]. rewrite app_nil_r. reflexivity. }
  assert (E2 : prefix f (l1 ++ x :: l2) (S (length l1)) == sumf f l1 + f x).
  { rewrite (prefix_S _ f _ (length l1) x0), E1, nth_middle; [reflexivity|]. rewrite app_length. cbn [length]. lia. }
  assert (H1' : prefix f (l1 ++ x :: l2) (length l1) <= xc) by (rewrite E1; lra).
  assert (H2' : xc < prefix f (l1 ++ x :: l2) (S (length l1))) by (rewrite E2; lra).
  exists (length l1). rewrite nth_middle, app_length. cbn [length]. split; [lia|]. repeat split; try assumption.
  intros k Hk1 Hk2. exact (interval_unique xc _ k (length l1) Hnn Hk1 Hk2 H1' H2').
Qed.

Theorem select_interval_at : forall xc l x0 j, (forall x, In x l -> 0 <= f x) -> (j < length l)%nat ->
  prefix f l j <= xc -> xc < prefix f l (S j) -> select f xc 0 x0 l = nth j l x0.
Proof.
  intros xc l x0 j Hnn Hj H1 H2.
  assert (Hlo : 0 <= xc) by (pose proof (prefix_nonneg l j Hnn); lra).
  assert (Hhi : xc < sumf f l) by (pose proof (prefix_le_total l (S j) Hnn); lra).
  destruct (select_index xc l x0 Hnn Hlo Hhi) as (k & _ & _ & _ & Es & Hu). rewrite Es, (Hu j H1 H2). reflexivity.
Qed.

(* for duplicate-free lists of entries, an iff on the entry itself *)
Theorem select_interval : forall xc l x0 j, NoDup l -> (forall x, In x l -> 0 <= f x) -> 0 <= xc -> xc < sumf f l ->
  (j < length l)%nat ->
  (select f xc 0 x0 l = nth j l x0 <-> prefix f l j <= xc /\ xc < prefix f l (S j)).
Proof.
  intros xc l x0 j Hnd Hnn Hlo Hhi Hj. split.
  - intros E. destruct (select_index xc l x0 Hnn Hlo Hhi) as (k & Hk & H1 & H2 & Es & _).
    rewrite Es in E. assert (k = j) by (apply (proj1 (NoDup_nth l x0) Hnd); assumption). subst k. split; assumption.
  - intros [H1 H2]. apply select_interval_at; assumption.
Qed.

End NonNeg.

(* thresholds r2 * a against prefix sums: division by the positive total *)
Lemma div_le_iff : forall p r a, 0 < a -> (p / a <= r <-> p <= r * a).
Proof.
  intros p r a Ha. split; intros H.
  - setoid_replace p with ((p / a) * a) by (field; lra). apply Qmult_le_compat_r; lra.
  - apply Qle_shift_div_r; assumption.
Qed.
Lemma lt_div_iff : forall p r a, 0 < a -> (r < p / a <-> r * a < p).
Proof.
  intros p r a Ha. split; intros H.
  - setoid_replace p with ((p / a) * a) by (field; lra). apply Qmult_lt_compat_r; assumption.
  - apply Qlt_shift_div_l; assumption.
Qed.

Lemma select_xc_ext : forall A (f : A -> Q) xc xc' l xs cur, xc == xc' -> select f xc xs cur l = select f xc' xs cur l.
Proof.
  intros A f xc xc' l. induction l as [|x l IH]; intros xs cur E; [reflexivity|].
  cbn [select]. assert (Eb : Qltb xc (xs + f x) = Qltb xc' (xs + f x)).
  { destruct (Qltb xc' (xs + f x)) eqn:E'.
    - apply Qltb_true. apply Qltb_true in E'. lra.
    - apply Qltb_false. apply Qltb_false in E'. lra. }
  rewrite Eb. destruct (Qltb xc' (xs + f x)); [reflexivity|]. apply IH. exact E.
Qed.

Lemma select_ext : forall A (f g : A -> Q) xc l xs cur, (forall x, f x = g x) -> select f xc xs cur l = select g xc xs cur l.
Proof.
  intros A f g xc. induction l as [|x l IH]; intros xs cur H; [reflexivity|].
  cbn [select]. rewrite (H x). destruct (Qltb xc (xs + g x)); [reflexivity|]. apply IH. exact H.
Qed.

Lemma sum_rates_sumf {W} (s : st W) trs : sum_rates s trs == sumf (rate s) trs.
Proof. unfold sum_rates. rewrite fold_sumf, Qplus_0_l. reflexivity. Qed.
