(* C08, strictness under synchronous dynamics: the hitting time of an infector is STRICTLY earlier
   than that of the node it infects, for every synchronous run (any oracle, any fuel).
   Argument, as in the code: the tranche of a timestep is drawn before any of its events fires; a
   selected pair (n, m) was in its locus then, so m was infectious then; a node infected during
   the step was susceptible then; hence m was not infected during this step and its hitting time,
   if any, is that of an earlier step. *)
From Coq Require Import List ZArith QArith Bool Arith Lqa.
From EpyV Require Import Model.Kernel Model.Loci Model.Compart
  Proofs.KernelBase
  Proofs.CompartRun Proofs.CompartInv Proofs.CompartDiagram
  Proofs.ContactBase Proofs.ContactInv.
Import ListNotations.
Close Scope Q_scope.

Section CS.
Variable cm : cmodel.
Variables (nodes : list Z) (edges : list (Z * Z)) (init : list (Z * Z)) (maxtime : Q) (monitor : option Q).
Let tb := mk_table cm nodes edges init maxtime monitor.
Hypothesis Hwf : wf_model cm = true.
Hypothesis Hon : once_model cm = true.

Definition strictT (w : cworld) : Prop :=
  forall n m t t', In (n, m, t) (cw_occ w) -> In (m, t') (cw_hit w) -> (t' < t)%Q.

Lemma run_pending_K {fuel t n} {s : st cworld} {n' s'} : run_pending tb fuel t n s = (n', s') -> K cm nodes edges init s ->
  K cm nodes edges init s' /\ cw_occ (world s') = cw_occ (world s) /\ cw_hit (world s') = cw_hit (world s).
Proof.
  intros E Hk.
  refine (run_pending_inv tb (fun s1 => K cm nodes edges init s1 /\ cw_occ (world s1) = cw_occ (world s) /\ cw_hit (world s1) = cw_hit (world s))
            _ _ fuel t n s n' s' E (conj Hk (conj eq_refl eq_refl))).
  - intros s1 s2 (K1 & O1 & H1) Hs. split; [exact (K_sched cm nodes edges init s1 s2 K1 Hs)|].
    rewrite (sched_world Hs). split; assumption.
  - intros s1 h (K1 & O1 & H1) Hok. split; [exact (K_call cm nodes edges init maxtime monitor s1 (CPost h) Hwf Hon K1 Hok)|].
    destruct (call_records cm nodes edges init maxtime monitor Hwf Hon s1 (CPost h) K1 Hok) as [[R1 R2]|(k & a & b & _ & Em & _)].
    + split; [exact (eq_trans R1 O1) | exact (eq_trans R2 H1)].
    + exfalso. cbn [call_args snd] in Em.
      rewrite (posted_no_marks cm nodes edges init maxtime monitor s1 h k (K_QE K1) Hok) in Em. discriminate.
Qed.

(* s2 is the state on which the tranche was drawn; t the time of the step *)
Definition StepInv (t : Q) (s2 s : st cworld) : Prop :=
  K cm nodes edges init s /\ strictT (world s) /\ clock s = t
  /\ (forall v c, getc (cw_st (world s)) v = Some c -> In c (sus cm) -> getc (cw_st (world s2)) v = Some c)
  /\ (forall n t', In (n, t') (cw_hit (world s)) ->
        (t' < t)%Q \/ (t' = t /\ exists c, In c (sus cm) /\ getc (cw_st (world s2)) n = Some c)).

Lemma fire_tranche_strict t (s2 : st cworld) : K cm nodes edges init s2 -> forall evs nev s nev' s',
  fire_tranche tb t evs nev s = (nev', s') ->
  (forall x e, In (x, e) evs -> In x (all_events tb) /\ mem e (locus s2 (ev_locus (snd x))) = true) ->
  StepInv t s2 s -> StepInv t s2 s'.
Proof.
  intros Hk2 evs nev s nev' s' E Hev. apply (fire_tranche_calls tb t (StepInv t s2) evs nev s nev' s'); [|exact E]. clear s E.
  intros x e s Hxe Em (Hk & Hst & Hc & Hback & Hhits). destruct (Hev x e Hxe) as [Hx Hm2].
  assert (Hok : call_ok tb (CEv x t e) s) by (split; [exact Hx | split; [exact Em | exact Hc]]).
  assert (Hback' : forall v c, getc (cw_st (world (fire_event tb x t e s))) v = Some c -> In c (sus cm) -> getc (cw_st (world s2)) v = Some c).
  { intros v c Hv Hcs. apply Hback; [|exact Hcs]. exact (sus_back_call cm nodes edges init maxtime monitor Hon s (CEv x t e) v c Hok Hv Hcs). }
  split; [exact (K_call cm nodes edges init maxtime monitor s (CEv x t e) Hwf Hon Hk Hok)|].
  unfold strictT. rewrite fire_event_clock.
  destruct (call_records cm nodes edges init maxtime monitor Hwf Hon s (CEv x t e) Hk Hok) as [[R1 R2]|(h & n & m & Ek & Emk & R1 & R2)];
    cbn [after] in R1, R2; fold tb in R1, R2; rewrite R1, R2; [split; [exact Hst|]; split; [exact Hc|]; split; [exact Hback' | exact Hhits]|].
  (* a marking call on (n, m): m was infectious, and n susceptible, when the tranche was drawn *)
  cbn [call_args snd] in Emk. rewrite Hc.
  assert (Hok2 : call_ok tb (CEv x (clock s2) e) s2) by (split; [exact Hx | split; [exact Hm2 | reflexivity]]).
  destruct (marking_call cm nodes edges init maxtime monitor s2 (CEv x (clock s2) e) h n m Hwf Hon Hk2 Hok2 Ek Emk)
    as (_ & _ & (r & Hr & Hm) & _).
  destruct (marking_call cm nodes edges init maxtime monitor s (CEv x t e) h n m Hwf Hon Hk Hok Ek Emk)
    as (_ & (l & Hl & Hn) & (r' & Hr' & Hm') & _).
  assert (Hnm : n <> m) by (intros ->; rewrite Hn in Hm'; inversion Hm'; subst; contradiction).
  split; [|split; [reflexivity|]; split; [exact Hback'|]].
  - intros a b ta tb' Ho Hh.
    apply in_app_or in Ho. apply in_app_or in Hh. destruct Ho as [Ho|[Ho|[]]]; destruct Hh as [Hh|[Hh|[]]].
    + exact (Hst a b ta tb' Ho Hh).
    + inversion Hh; subst b tb'. exfalso. exact (proj2 (Forest_untouched n l (K_Forest Hk) Hn Hl _ Ho) eq_refl).
    + inversion Ho; subst a b ta. destruct (Hhits m tb' Hh) as [Hlt|[_ (c0 & Hc0 & Hg)]]; [exact Hlt|].
      exfalso. rewrite Hm in Hg. inversion Hg; subst. contradiction.
    + inversion Ho; subst a b ta. inversion Hh; subst. contradiction.
  - intros a ta Ha. apply in_app_or in Ha. destruct Ha as [Ha|[Ha|[]]]; [exact (Hhits a ta Ha)|].
    inversion Ha; subst a ta. right. split; [reflexivity|]. exists l. split; [exact Hl | exact (Hback n l Hn Hl)].
Qed.

Definition HeadInv (t : Q) (s : st cworld) : Prop :=
  strictT (world s) /\ forall n t', In (n, t') (cw_hit (world s)) -> (t' < t)%Q.

Lemma sync_loop_strict pf fuel t ev k (s : st cworld) t' ev' k' s' :
  sync_loop tb pf fuel t ev k s = (t', ev', k', s') -> K cm nodes edges init s -> HeadInv t s -> K cm nodes edges init s' /\ HeadInv t' s'.
Proof.
  apply (sync_loop_inv tb (K cm nodes edges init) (K_sched cm nodes edges init)
           (fun s1 c Hk Hok => K_call cm nodes edges init maxtime monitor s1 c Hwf Hon Hk Hok) pf HeadInv); [intros t0 s0 _ Hh; exact Hh|].
  intros u r n r1 evs r2 nev r3 Hk (Hst & Hh) Ep K2 S2 C2 Hev Ef.
  destruct (run_pending_K Ep (K_sched cm nodes edges init r _ Hk (sched_set_clock u r))) as (_ & O1 & H1).
  cbn [world set_clock] in O1, H1. pose proof (sched_world S2) as W2.
  assert (S3 : StepInv u r2 r3).
  { apply (fire_tranche_strict u r2 K2 _ _ _ _ _ Ef Hev). split; [exact K2|]. unfold strictT. rewrite W2, O1, H1.
    split; [exact Hst|]. split; [exact C2|]. split; [tauto|]. intros a ta Ha. left. exact (Hh a ta Ha). }
  destruct S3 as (_ & St3 & _ & _ & Hh3). split; [exact St3|].
  intros a ta Ha. destruct (Hh3 a ta Ha) as [Hlt|[-> _]]; rewrite Qred_correct; lra.
Qed.

End CS.

Arguments sync_loop_strict {cm nodes edges init maxtime monitor}.
