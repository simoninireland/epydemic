(* Three things about the event list of a kernel table (Model/Kernel.v).  (1) Its slots: all_events_from numbers the events by process and by position within
   the process; which slots the list holds, each once, and transitions as a permutation of it.
   (2) The one-event steps of the synchronous tranche, elem_trials and fixed_trial, as
   definitions with the unfolding equations of tranche_elem and tranche_fixed.
   (3) Relabelling: the schedulers use the (process, index) of a transition only as a label,
   so a renumbering of the processes that keeps the events commutes with everything they
   compute. *)
From Coq Require Import List ZArith QArith Bool Arith Permutation Lia.
From EpyV Require Import Lib.Lists Model.Kernel.
Import ListNotations.
Close Scope Q_scope.
Open Scope list_scope.

Lemma index_events_snd pi j evs : map snd (index_events pi j evs) = evs.
Proof. revert j. induction evs as [|e evs IH]; intro j; simpl; [reflexivity|]. rewrite IH. reflexivity. Qed.

Lemma all_events_from_snd pi ps : map snd (all_events_from pi ps) = flat_map p_events ps.
Proof.
  revert pi. induction ps as [|p ps IH]; intro pi; simpl; [reflexivity|].
  rewrite map_app, index_events_snd, IH. reflexivity.
Qed.

Lemma index_events_in pi j0 evs x :
  In x (index_events pi j0 evs) <->
  exists j e, x = (pi, j0 + j, e) /\ nth_error evs j = Some e.
Proof.
  revert j0. induction evs as [|e0 evs IH]; intro j0; simpl.
  - split; [intros []|intros (j & e & _ & H); destruct j; discriminate].
  - rewrite IH. split.
    + intros [<-|(j & e & -> & H)].
      * exists 0, e0. rewrite Nat.add_0_r. split; reflexivity.
      * exists (S j), e. rewrite Nat.add_succ_r. split; [reflexivity|exact H].
    + intros (j & e & -> & H). destruct j as [|j]; simpl in H.
      * left. injection H as <-. rewrite Nat.add_0_r. reflexivity.
      * right. exists j, e. rewrite Nat.add_succ_r. split; [reflexivity|exact H].
Qed.

Lemma all_events_from_in pi0 ps x :
  In x (all_events_from pi0 ps) <->
  exists pi j p e, x = (pi0 + pi, j, e) /\ nth_error ps pi = Some p /\ nth_error (p_events p) j = Some e.
Proof.
  revert pi0. induction ps as [|p0 ps IH]; intro pi0; simpl.
  - split; [intros []|intros (pi & j & p & e & _ & H & _); destruct pi; discriminate].
  - rewrite in_app_iff, IH, index_events_in. split.
    + intros [(j & e & -> & H)|(pi & j & p & e & -> & H1 & H2)].
      * exists 0, j, p0, e. rewrite Nat.add_0_r. repeat split; assumption.
      * exists (S pi), j, p, e. rewrite Nat.add_succ_r. repeat split; assumption.
    + intros (pi & j & p & e & -> & H1 & H2). destruct pi as [|pi]; simpl in H1.
      * left. injection H1 as <-. exists j, e. rewrite Nat.add_0_r. split; [reflexivity|exact H2].
      * right. exists pi, j, p, e. rewrite Nat.add_succ_r. repeat split; assumption.
Qed.

Lemma all_events_in {W} (tb : table W) pi j e :
  In (pi, j, e) (all_events tb) <->
  exists p, nth_error (t_procs tb) pi = Some p /\ nth_error (p_events p) j = Some e.
Proof.
  unfold all_events. rewrite all_events_from_in. split.
  - intros (pi' & j' & p & e' & [= -> -> ->] & H1 & H2). exists p. split; assumption.
  - intros (p & H1 & H2). exists pi, j, p, e. repeat split; assumption.
Qed.

Lemma index_events_fst_NoDup pi j0 evs : NoDup (map fst (index_events pi j0 evs)).
Proof.
  revert j0. induction evs as [|e evs IH]; intro j0; simpl; [constructor|]. constructor; [|apply IH].
  intro Hin. apply in_map_iff in Hin. destruct Hin as (x & Ex & Hx). apply index_events_in in Hx.
  destruct Hx as (j & e' & -> & _). simpl in Ex. injection Ex as Ex. lia.
Qed.

Lemma all_events_from_fst_NoDup pi0 ps : NoDup (map fst (all_events_from pi0 ps)).
Proof.
  revert pi0. induction ps as [|p ps IH]; intro pi0; simpl; [constructor|].
  rewrite map_app. apply NoDup_app_iff. split; [apply index_events_fst_NoDup|]. split; [apply IH|].
  intros x H1 H2. apply in_map_iff in H1. apply in_map_iff in H2.
  destruct H1 as (y1 & E1 & H1). destruct H2 as (y2 & E2 & H2).
  apply index_events_in in H1. apply all_events_from_in in H2.
  destruct H1 as (j & e & -> & _). destruct H2 as (pi & j' & q & e' & -> & _).
  simpl in E1, E2. subst x. injection E2 as E2 _. lia.
Qed.

(* eventRateDistribution lists the per-element events before the fixed-rate ones *)
Lemma transitions_perm {W} (tb : table W) : Permutation (transitions tb) (all_events tb).
Proof. apply (filter_partition_perm (fun x => ev_elem (snd x))). Qed.

Lemma transitions_in {W} (tb : table W) x : In x (transitions tb) <-> In x (all_events tb).
Proof. split; apply Permutation_in; [|apply Permutation_sym]; apply transitions_perm. Qed.

Lemma index_events_relabel (g : nat * nat * event -> nat * nat * event) pi pi' j evs :
  (forall j e, g (pi, j, e) = (pi', j, e)) -> map g (index_events pi j evs) = index_events pi' j evs.
Proof.
  intro H. revert j. induction evs as [|e evs IH]; intro j; simpl; [reflexivity|]. rewrite H, IH. reflexivity.
Qed.

(* the parts of allEventsInTimestep that deal with one event: one trial per element of the
   locus of a per-element event, one trial and one draw for a fixed-rate event *)
Definition elem_trials {W} (x : nat * nat * event) (s : st W) : list ((nat * nat * event) * elem) * st W :=
  let l := locus s (ev_locus (snd x)) in
  match l with
  | [] => ([], s)
  | _ => if Qltb 0 (ev_p (snd x)) then trials (ev_p (snd x)) x l s else ([], s)
  end.

Definition fixed_trial {W} (x : nat * nat * event) (s : st W) : list ((nat * nat * event) * elem) * st W :=
  let l := locus s (ev_locus (snd x)) in
  match l with
  | [] => ([], s)
  | _ => if Qltb 0 (ev_p (snd x)) then
           let '(r, s1) := next_rand s in
           if Qle_bool r (ev_p (snd x)) then
             let '(k, s2) := next_draw s1 in ([(x, nth (k mod length l) l (EN 0))], s2)
           else ([], s1)
         else ([], s)
  end.

Lemma tranche_elem_cons {W} x evs (s : st W) :
  tranche_elem (x :: evs) s
  = let '(sel, s1) := elem_trials x s in let '(sel', s2) := tranche_elem evs s1 in (sel ++ sel', s2).
Proof. reflexivity. Qed.

Lemma tranche_fixed_cons {W} x evs (s : st W) :
  tranche_fixed (x :: evs) s
  = let '(sel, s1) := fixed_trial x s in let '(sel', s2) := tranche_fixed evs s1 in (sel ++ sel', s2).
Proof. reflexivity. Qed.

Section Relabel.
Context {W : Type}.
Variable g : nat * nat * event -> nat * nat * event.
Hypothesis Hg : forall x, snd (g x) = snd x.

Definition relabel_sel (xe : (nat * nat * event) * elem) : (nat * nat * event) * elem := (g (fst xe), snd xe).
(* what a part of the tranche returns: the selected (transition, element) pairs and the state *)
Definition relabel_res (r : list ((nat * nat * event) * elem) * st W) := (map relabel_sel (fst r), snd r).

Lemma filter_relabel (f : event -> bool) l :
  filter (fun x => f (snd x)) (map g l) = map g (filter (fun x => f (snd x)) l).
Proof.
  induction l as [|x l IH]; simpl; [reflexivity|]. rewrite Hg. destruct (f (snd x)); simpl; rewrite IH; reflexivity.
Qed.

Lemma rate_relabel (s : st W) x : rate s (g x) = rate s x.
Proof. unfold rate. rewrite Hg. reflexivity. Qed.

Lemma sum_rates_relabel (s : st W) l : sum_rates s (map g l) = sum_rates s l.
Proof.
  unfold sum_rates. generalize 0%Q. induction l as [|x l IH]; intro a; simpl; [reflexivity|].
  rewrite rate_relabel. apply IH.
Qed.

Lemma select_relabel (s : st W) xc xs cur l :
  select (rate s) xc xs (g cur) (map g l) = g (select (rate s) xc xs cur l).
Proof.
  revert xs cur. induction l as [|x l IH]; intros xs cur; simpl; [reflexivity|].
  rewrite rate_relabel. destruct (Qltb xc (xs + rate s x)); [reflexivity|apply IH].
Qed.

Lemma trials_relabel p x els (s : st W) : trials p (g x) els s = relabel_res (trials p x els s).
Proof.
  revert s. induction els as [|e els IH]; intro s; simpl; [reflexivity|].
  destruct (next_rand s) as [r s1]. rewrite IH. destruct (trials p x els s1) as [sel s2].
  destruct (Qle_bool r p); reflexivity.
Qed.

Lemma elem_trials_relabel x (s : st W) : elem_trials (g x) s = relabel_res (elem_trials x s).
Proof.
  unfold elem_trials. rewrite Hg. destruct (locus s (ev_locus (snd x))); [reflexivity|].
  destruct (Qltb 0 (ev_p (snd x))); [apply trials_relabel|reflexivity].
Qed.

Lemma fixed_trial_relabel x (s : st W) : fixed_trial (g x) s = relabel_res (fixed_trial x s).
Proof.
  unfold fixed_trial. rewrite Hg. destruct (locus s (ev_locus (snd x))); [reflexivity|].
  destruct (Qltb 0 (ev_p (snd x))); [|reflexivity]. destruct (next_rand s) as [r s1].
  destruct (Qle_bool r (ev_p (snd x))); [|reflexivity]. destruct (next_draw s1) as [d s2]. reflexivity.
Qed.

(* one part of the tranche after another *)
Lemma relabel_then (r : list ((nat * nat * event) * elem) * st W) (k k' : st W -> list ((nat * nat * event) * elem) * st W) :
  (forall s, k' s = relabel_res (k s)) ->
  (let '(sel, s1) := relabel_res r in let '(sel', s2) := k' s1 in (sel ++ sel', s2))
  = relabel_res (let '(sel, s1) := r in let '(sel', s2) := k s1 in (sel ++ sel', s2)).
Proof.
  intro H. destruct r as [sel s1]. cbn [relabel_res fst snd]. rewrite H. destruct (k s1) as [sel' s2].
  unfold relabel_res. cbn [fst snd]. rewrite map_app. reflexivity.
Qed.

Lemma tranche_elem_relabel l (s : st W) : tranche_elem (map g l) s = relabel_res (tranche_elem l s).
Proof.
  revert s. induction l as [|x l IH]; intro s; [reflexivity|].
  cbn [map]. rewrite !tranche_elem_cons, elem_trials_relabel. apply relabel_then, IH.
Qed.

Lemma tranche_fixed_relabel l (s : st W) : tranche_fixed (map g l) s = relabel_res (tranche_fixed l s).
Proof.
  revert s. induction l as [|x l IH]; intro s; [reflexivity|].
  cbn [map]. rewrite !tranche_fixed_cons, fixed_trial_relabel. apply relabel_then, IH.
Qed.

Variables tb tb' : table W.
Hypothesis Hall : all_events tb' = map g (all_events tb).

Lemma per_element_relabel : per_element tb' = map g (per_element tb).
Proof. unfold per_element. rewrite Hall. apply (filter_relabel ev_elem). Qed.

Lemma fixed_rate_relabel : fixed_rate tb' = map g (fixed_rate tb).
Proof. unfold fixed_rate. rewrite Hall. apply (filter_relabel (fun e => negb (ev_elem e))). Qed.

Lemma transitions_relabel : transitions tb' = map g (transitions tb).
Proof. unfold transitions. rewrite per_element_relabel, fixed_rate_relabel, map_app. reflexivity. Qed.

(* the synchronous tranche takes the same values from the random source *)
Lemma tranche_relabel (s : st W) : tranche tb' s = relabel_res (tranche tb s).
Proof.
  unfold tranche. rewrite per_element_relabel, fixed_rate_relabel, tranche_elem_relabel.
  apply relabel_then, tranche_fixed_relabel.
Qed.
End Relabel.
