(* Model/NetStats.v (C12, statistics clause): the handshake lemma; the degree histogram counts the
   nodes of each degree, its weighted sum is twice the number of edges and its sum the number of nodes;
   sort_desc sorts, so that the first two entries are the two largest component sizes. *)
From Coq Require Import List ZArith QArith Bool Arith Lia Permutation.
From EpyV Require Import Lib.Lists Model.NetStats.
Import ListNotations.
Close Scope Q_scope.
Open Scope nat_scope.

Definition sum_deg (nodes : list Z) (es : list edge) : nat := fold_right (fun n a => degree es n + a) 0 nodes.

Definition closed (nodes : list Z) (es : list edge) : Prop :=
  forall e, In e es -> In (fst e) nodes /\ In (snd e) nodes.

Lemma sum_deg_nil nodes : sum_deg nodes [] = 0.
Proof. induction nodes as [|n ns IH]; cbn; [reflexivity | exact IH]. Qed.

Lemma sum_deg_cons nodes e es : sum_deg nodes (e :: es) = fold_right (fun n a => deg1 n e + a) 0 nodes + sum_deg nodes es.
Proof.
  unfold sum_deg. induction nodes as [|n ns IH]; cbn [fold_right]; [reflexivity|].
  change (degree (e :: es) n) with (deg1 n e + degree es n). rewrite IH. lia.
Qed.

Lemma count_one (x : Z) nodes : NoDup nodes -> In x nodes ->
  fold_right (fun n a => (if Z.eqb x n then 1 else 0) + a) 0 nodes = 1.
Proof.
  induction nodes as [|n ns IH]; intros ND Hin; [destruct Hin|].
  inversion ND as [|? ? Hn ND']; subst. cbn.
  destruct (Z.eqb_spec x n) as [->|Hne].
  - assert (H0 : fold_right (fun n0 a => (if Z.eqb n n0 then 1 else 0) + a) 0 ns = 0).
    { clear -Hn. induction ns as [|m ms IHm]; cbn; [reflexivity|].
      destruct (Z.eqb_spec n m) as [->|_]; [exfalso; apply Hn; left; reflexivity|].
      apply IHm. intros H; apply Hn; right; exact H. }
    rewrite H0. reflexivity.
  - destruct Hin as [->|Hin]; [congruence|]. rewrite (IH ND' Hin). reflexivity.
Qed.

Lemma deg1_total nodes e : NoDup nodes -> In (fst e) nodes -> In (snd e) nodes ->
  fold_right (fun n a => deg1 n e + a) 0 nodes = 2.
Proof.
  intros ND H1 H2. unfold deg1.
  assert (E : forall l, fold_right (fun n a => (if Z.eqb (fst e) n then 1 else 0) + (if Z.eqb (snd e) n then 1 else 0) + a) 0 l
                        = fold_right (fun n a => (if Z.eqb (fst e) n then 1 else 0) + a) 0 l
                          + fold_right (fun n a => (if Z.eqb (snd e) n then 1 else 0) + a) 0 l).
  { induction l as [|n l IH]; cbn; [reflexivity | rewrite IH; lia]. }
  rewrite E, (count_one _ _ ND H1), (count_one _ _ ND H2). reflexivity.
Qed.

(* the handshake lemma, self-loops counted twice *)
Lemma handshake nodes es : NoDup nodes -> closed nodes es -> sum_deg nodes es = 2 * length es.
Proof.
  intros ND. induction es as [|e es IH]; intros Hc; [apply sum_deg_nil|].
  rewrite sum_deg_cons, IH by (intros x Hx; apply Hc; right; exact Hx).
  destruct (Hc e (or_introl eq_refl)) as [H1 H2].
  rewrite (deg1_total nodes e ND H1 H2). change (length (e :: es)) with (S (length es)). lia.
Qed.

Lemma degree_le_max nodes es n : In n nodes -> degree es n <= max_degree nodes es.
Proof.
  unfold max_degree. induction nodes as [|m ms IH]; intros H; [destruct H|].
  cbn [fold_right]. destruct H as [->|H]; [lia | specialize (IH H); lia].
Qed.

Lemma max_degree_attained nodes es : nodes <> [] -> exists n, In n nodes /\ degree es n = max_degree nodes es.
Proof.
  induction nodes as [|m ms IH]; intros H; [congruence|].
  destruct ms as [|m' ms'].
  - exists m. split; [left; reflexivity | unfold max_degree; cbn [fold_right]; lia].
  - destruct (IH ltac:(discriminate)) as (n & Hn & E).
    change (max_degree (m :: m' :: ms') es) with (Nat.max (degree es m) (max_degree (m' :: ms') es)).
    destruct (Nat.max_spec (degree es m) (max_degree (m' :: ms') es)) as [[_ Hm]|[_ Hm]]; rewrite Hm.
    + exists n. split; [right; exact Hn | exact E].
    + exists m. split; [left; reflexivity | reflexivity].
Qed.

Lemma histogram_length nodes es : nodes <> [] -> length (histogram nodes es) = S (max_degree nodes es).
Proof. destruct nodes; [congruence|]. intros _. unfold histogram. rewrite map_length, seq_length. reflexivity. Qed.

(* entry i counts the nodes of degree i, also beyond the end and for the null graph, where both are 0 *)
Lemma histogram_count nodes es i : nth i (histogram nodes es) 0 = count_deg nodes es i.
Proof.
  destruct nodes as [|n ns]; [destruct i; reflexivity|]. unfold histogram.
  destruct (Nat.le_gt_cases i (max_degree (n :: ns) es)) as [Hi|Hi].
  - rewrite (nth_indep _ 0 (count_deg (n :: ns) es 0)) by (rewrite map_length, seq_length; lia).
    rewrite (map_nth (count_deg (n :: ns) es)), seq_nth by lia. reflexivity.
  - rewrite nth_overflow by (rewrite map_length, seq_length; lia). symmetry.
    unfold count_deg. rewrite filter_none; [reflexivity|]. intros m Hm. apply Nat.eqb_neq.
    pose proof (degree_le_max _ es m Hm). lia.
Qed.

(* sums over the histogram by counting per node: for any weight [w] of the degrees,
   the sum over i of w i * h_i is the sum over the nodes n of w (degree n) *)
Fixpoint sum_from (i k : nat) (f : nat -> nat) : nat :=
  match k with O => 0 | S k' => f i + sum_from (S i) k' f end.

Lemma sum_ext i k f g : (forall j, f j = g j) -> sum_from i k f = sum_from i k g.
Proof. intros E. revert i; induction k as [|k IH]; intros i; cbn; [reflexivity | rewrite E, IH; reflexivity]. Qed.
Lemma sum_add i k f g : sum_from i k (fun j => f j + g j) = sum_from i k f + sum_from i k g.
Proof. revert i; induction k as [|k IH]; intros i; cbn; [reflexivity | rewrite IH; lia]. Qed.
Lemma sum_indicator w i k d :
  sum_from i k (fun j => w j * if Nat.eqb d j then 1 else 0) = if (i <=? d) && (d <? i + k) then w d else 0.
Proof.
  revert i; induction k as [|k IH]; intros i; cbn [sum_from].
  - destruct (Nat.leb_spec i d), (Nat.ltb_spec d (i + 0)); cbn; try reflexivity; lia.
  - rewrite IH. destruct (Nat.eqb_spec d i) as [->|Hne].
    + destruct (Nat.leb_spec (S i) i), (Nat.leb_spec i i), (Nat.ltb_spec i (i + S k)), (Nat.ltb_spec i (S i + k)); cbn; lia.
    + destruct (Nat.leb_spec (S i) d), (Nat.leb_spec i d), (Nat.ltb_spec d (i + S k)), (Nat.ltb_spec d (S i + k)); cbn; lia.
Qed.

Lemma count_deg_cons n ns es i :
  count_deg (n :: ns) es i = (if Nat.eqb (degree es n) i then 1 else 0) + count_deg ns es i.
Proof. unfold count_deg. cbn. destruct (Nat.eqb (degree es n) i); reflexivity. Qed.

Lemma sum_counts w es K ns : (forall n, In n ns -> degree es n <= K) ->
  sum_from 0 (S K) (fun i => w i * count_deg ns es i) = fold_right (fun n a => w (degree es n) + a) 0 ns.
Proof.
  induction ns as [|n ns IH]; intros Hb; cbn [fold_right].
  - generalize 0 at 1. induction (S K) as [|k IHk]; intros i; cbn [sum_from]; [reflexivity|].
    rewrite IHk, Nat.add_0_r. apply Nat.mul_0_r.
  - rewrite <- IH by (intros m Hm; apply Hb; right; exact Hm).
    rewrite (sum_ext _ _ _ (fun i => w i * (if Nat.eqb (degree es n) i then 1 else 0) + w i * count_deg ns es i))
      by (intros i; rewrite count_deg_cons; apply Nat.mul_add_distr_l).
    rewrite sum_add, sum_indicator. specialize (Hb n (or_introl eq_refl)).
    destruct (Nat.ltb_spec (degree es n) (0 + S K)); [reflexivity|lia].
Qed.

Lemma weighted_sum_map i k f : weighted_sum i (map f (seq i k)) = sum_from i k (fun j => j * f j).
Proof. revert i; induction k as [|k IH]; intros i; cbn; [reflexivity | rewrite IH; reflexivity]. Qed.
Lemma list_sum_map i k f : list_sum (map f (seq i k)) = sum_from i k f.
Proof. revert i; induction k as [|k IH]; intros i; cbn; [reflexivity | rewrite IH; reflexivity]. Qed.

Lemma histogram_handshake nodes es : NoDup nodes -> closed nodes es ->
  weighted_sum 0 (histogram nodes es) = 2 * length es.
Proof.
  intros ND Hc. rewrite <- (handshake nodes es ND Hc).
  destruct nodes as [|n ns]; [reflexivity|]. unfold histogram.
  rewrite weighted_sum_map. apply (sum_counts (fun i => i)). intros m Hm. apply degree_le_max. exact Hm.
Qed.

Lemma histogram_total nodes es : list_sum (histogram nodes es) = length nodes.
Proof.
  destruct nodes as [|n ns]; [reflexivity|]. unfold histogram.
  rewrite list_sum_map, (sum_ext _ _ _ (fun i => 1 * count_deg (n :: ns) es i)) by (intros; symmetry; apply Nat.mul_1_l).
  rewrite (sum_counts (fun _ => 1)) by (intros m Hm; apply degree_le_max; exact Hm).
  induction (n :: ns) as [|m l IH]; [reflexivity|]. cbn [fold_right length]. rewrite IH. reflexivity.
Qed.

Lemma insert_desc_perm x l : Permutation (insert_desc x l) (x :: l).
Proof.
  induction l as [|y l IH]; cbn; [reflexivity|].
  destruct (y <=? x); [reflexivity|]. rewrite IH. apply perm_swap.
Qed.
Lemma sort_desc_perm l : Permutation (sort_desc l) l.
Proof. induction l as [|x l IH]; cbn; [reflexivity|]. rewrite insert_desc_perm. constructor. exact IH. Qed.

Inductive desc : list nat -> Prop :=
| desc_nil : desc []
| desc_one x : desc [x]
| desc_cons x y l : y <= x -> desc (y :: l) -> desc (x :: y :: l).

Lemma insert_desc_desc x l : desc l -> desc (insert_desc x l).
Proof.
  induction 1 as [|y|y z l Hzy Hd IH]; cbn.
  - constructor.
  - destruct (Nat.leb_spec y x); repeat constructor; lia.
  - destruct (Nat.leb_spec y x) as [H|H]; [constructor; [exact H | constructor; assumption]|].
    cbn in IH. destruct (Nat.leb_spec z x) as [H2|H2].
    + constructor; [lia|]. exact IH.
    + constructor; [exact Hzy|]. exact IH.
Qed.
Lemma sort_desc_desc l : desc (sort_desc l).
Proof. induction l as [|x l IH]; cbn; [constructor | apply insert_desc_desc; exact IH]. Qed.

Lemma desc_head_max x l : desc (x :: l) -> forall y, In y (x :: l) -> y <= x.
Proof.
  revert x; induction l as [|z l IH]; intros x Hd y Hy.
  - destruct Hy as [<-|[]]. lia.
  - inversion Hd as [| |? ? ? Hzx Hd']; subst.
    destruct Hy as [<-|Hy]; [lia|]. specialize (IH z Hd' y Hy). lia.
Qed.
