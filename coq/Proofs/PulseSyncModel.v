(* The batch theorem of Proofs/PulseSync.v read on the model: pending times are the times in the user
   state's event map (which the queue holds, Proofs/PulseInv.v); the model supplies that the node that
   fires is the one due at the event's time; that a cascaded node moves to a function of its pending time
   alone and where the firing node is rescheduled are the stated hypotheses. *)
From Coq Require Import List ZArith QArith Qabs Bool Arith Lia Lqa.
From EpyV Require Import Lib.Prelude Model.Kernel Model.Pulse Proofs.KernelBase Proofs.PulseBase Proofs.PulseInv Proofs.PulseRun Proofs.PulseSync.
Import ListNotations.
Open Scope Q_scope.

Section SyncModel.
Variable cfg : pcfg.
Variable oracle : list (rkind * Q).
Variable orders : list (list Z).
Notation tb := (pulse_table cfg oracle orders).
Notation reach := (reach cfg oracle orders).

(* the pending firing time of a node, as setFiringTime recorded it *)
Definition ptime (s : kst) (m : Z) : option Q := option_map snd (ev_look (pw_ev (world s)) m).

Variable T : Q.          (* the time of the batch *)
Variable nxt : Q.        (* where the firing nodes are rescheduled *)
Variable upd : Q -> Q.   (* where a cascade at T moves a node pending at a given time *)

(* a run of consecutive events at time T (with the queue clean-ups between them) *)
Inductive tbatch : kst -> kst -> Prop :=
| tb_nil s : tbatch s s
| tb_discard s s' : tbatch (discard s) s' -> tbatch s s'
| tb_event s h s' : head (queue s) = Some h -> e_live h = true -> e_time h = T ->
    tbatch (pend_step tb h s) s' -> tbatch s s'.

(* HYPOTHESES on the numeric maps (through the oracle), on a complete network: at every event of the
   batch every node other than the firing one THAT IS NOT ITSELF DUE NOW is moved to a function of its own
   pending time, and the firing node goes to nxt.  What happens to a node that is due now is not a hypothesis:
   the model passes it over (due_now_kept), given only that round(x, 5) of exactly 1 is 1. *)
Hypothesis cascade_functional : forall s h n, reach s -> head (queue s) = Some h -> e_live h = true -> e_time h = T ->
  e_elem h = EN n -> forall m, m <> n -> ptime s m <> Some T -> ptime (pend_step tb h s) m = option_map upd (ptime s m).
Hypothesis refire_at : forall s h n, reach s -> head (queue s) = Some h -> e_live h = true -> e_time h = T ->
  e_elem h = EN n -> ptime (pend_step tb h s) n = Some nxt.
Hypothesis nxt_ne : nxt <> T.
Hypothesis upd_fired : upd nxt = nxt.

(* equality of rationals as fractions (not ==): pending times are compared as they are stored *)
Lemma Qleib_dec (a b : Q) : {a = b} + {a <> b}.
Proof. decide equality; [apply Pos.eq_dec|apply Z.eq_dec]. Qed.
Lemma optQ_dec (a b : option Q) : {a = b} + {a <> b}.
Proof. decide equality. apply Qleib_dec. Qed.

(* the update of the batch: a node due now stays due now, any other goes where the hypothesis says *)
Definition batch_upd (x : Q) : Q := if Qleib_dec x T then T else upd x.
Lemma batch_upd_due : batch_upd T = T.
Proof. unfold batch_upd. destruct (Qleib_dec T T); [reflexivity|contradiction]. Qed.
Lemma batch_upd_other x : x <> T -> batch_upd x = upd x.
Proof. intros H. unfold batch_upd. destruct (Qleib_dec x T); [contradiction|reflexivity]. Qed.

(* From the model, for an oracle that rounds exactly 1 to 1: when the event of a node n fires at T, any other node
   whose firing is pending at T is still pending at T afterwards: cascade reads its phase
   normalisePhase(1 - (T - T) / period), the rounding of exactly 1, and passes it over.  (cascade tests the phase;
   phaseToState(1.0) need not be 1.0 in binary64.)  Nothing is needed of the state s. *)
Lemma due_now_kept (s : kst) h n m : e_time h = T -> e_elem h = EN n ->
  round_one (pw_reqs (world (pend_step tb h s))) ->
  m <> n -> ptime s m = Some T -> ptime (pend_step tb h s) m = Some T.
Proof.
  intros Ht He Hr Hmn Hp. unfold ptime in *.
  rewrite pend_step_world, prog_of_pulse, He, Ht in Hr |- *.
  destruct (e_prog h); [|exact Hp].
  destruct (ev_look (pw_ev (world s)) m) as [[k x]|] eqn:Em; [|discriminate].
  cbn [option_map snd] in Hp. injection Hp as ->.
  destruct (fired_prog_spec cfg T n (loci s) (world s)) as [st4 [E [_ Hk]]]. rewrite E in Hr |- *. cbn [fst] in Hr |- *.
  rewrite <- ev_of_look, (Hk m k Hmn Em Hr). reflexivity.
Qed.

Lemma tbatch_reqs s s' : tbatch s s' -> incl (pw_reqs (world s)) (pw_reqs (world s')).
Proof.
  induction 1 as [s|s s' _ IH|s h s' _ _ _ _ IH]; [apply incl_refl|exact IH|].
  eapply incl_tran; [apply (pend_step_reqs cfg oracle orders h s)|exact IH].
Qed.

Lemma tbatch_batch s s' : reach s -> tbatch s s' -> good_lo (pw_reqs (world s')) -> round_one (pw_reqs (world s')) ->
  batch Z (option Q) (Some T) (Some nxt) (option_map batch_upd) (ptime s) (ptime s').
Proof.
  intros R H. revert R. induction H as [s|s s' _ IH|s h s' Hh Hl Ht Hb IH]; intros R Hg Hr.
  - apply b_nil.
  - apply IH; [apply rc_discard, R|exact Hg|exact Hr].
  - pose proof (tbatch_reqs _ _ Hb) as H1. pose proof (pend_step_reqs cfg oracle orders h s) as H2.
    assert (Hr1 : round_one (pw_reqs (world (pend_step tb h s)))) by exact (round_one_incl _ _ H1 Hr).
    pose proof (reach_PInv_lo cfg oracle orders s _ R (incl_tran H2 H1) Hg) as P.
    destruct (lk_bwd (pi_link P) h (head_in _ _ Hh) Hl) as [n [k [T' [En Eh]]]].
    assert (He : e_elem h = EN n) by (rewrite Eh; reflexivity).
    assert (HT : T' = T) by (rewrite Eh in Ht; exact Ht).
    eapply (b_cons _ _ _ _ _ n).
    + split; [|split].
      * unfold ptime. rewrite En. cbn. rewrite HT. reflexivity.
      * apply (refire_at s h n R Hh Hl Ht He).
      * intros m Hm. destruct (optQ_dec (ptime s m) (Some T)) as [E|NE].
        -- rewrite E. cbn [option_map]. rewrite batch_upd_due. apply (due_now_kept s h n m Ht He Hr1 Hm E).
        -- rewrite (cascade_functional s h n R Hh Hl Ht He m Hm NE).
           destruct (ptime s m) as [x|]; [|reflexivity]. cbn [option_map]. rewrite batch_upd_other; [reflexivity|].
           intros ->. apply NE. reflexivity.
    + apply IH; [apply rc_event; assumption|exact Hg|exact Hr].
Qed.

(* two nodes with equal pending times have equal pending times once every firing at T has happened *)
Theorem sync_absorbing_model s s' a b : reach s -> tbatch s s' -> good_lo (pw_reqs (world s')) -> round_one (pw_reqs (world s')) ->
  (forall m, ptime s' m <> Some T) -> ptime s a = ptime s b -> ptime s' a = ptime s' b.
Proof.
  intros R Hb Hg Hr Hend E.
  apply (batch_sync_absorbing Z (option Q) (Some T) (Some nxt) (option_map batch_upd)) with (p := ptime s).
  - intros H. apply nxt_ne. congruence.
  - left. cbn [option_map]. rewrite batch_upd_due. reflexivity.
  - cbn [option_map]. rewrite (batch_upd_other nxt nxt_ne), upd_fired. reflexivity.
  - apply Z.eq_dec.
  - apply tbatch_batch; assumption.
  - exact Hend.
  - exact E.
Qed.

End SyncModel.
