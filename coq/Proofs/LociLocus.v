(* C01, one locus at a time.  The contents of a locus track a set (its truth) up to the orientation
   of edges.  Every handler call is made for an element e and either discards, of what the locus
   holds, exactly what e covers (drop_phase: leave, remove) or supplies what e covers in the new
   state (add_phase: enter, add); the handlers of the locus are called whenever that matters,
   because it is registered under the compartments of the endpoints of its elements. *)
From Coq Require Import List ZArith Bool Arith Lia.
From EpyV Require Import Model.Loci Proofs.LociBase.
Import ListNotations.

Definition involves (n : Z) (x : elem) : Prop :=
  match x with N v => v = n | E a b => a = n \/ b = n end.
Definition flip (x : elem) : elem := match x with N v => N v | E a b => E b a end.

Lemma flip_flip : forall x, flip (flip x) = x.
Proof. intros [v|a b]; reflexivity. Qed.

(* the set the property names, as a predicate *)
Definition truthP (sp : spec) (s : state) (x : elem) : Prop :=
  match sp with
  | NodeLocus c => match x with N v => In v (st_nodes s) /\ getc s v = Some c | E _ _ => False end
  | _ => match x with E a b => adj s a b /\ qual sp s a b = true | N _ => False end
  end.

Definition edge_spec (sp : spec) : Prop := match sp with NodeLocus _ => False | _ => True end.

Lemma truth_In : forall sp s x, In x (truth sp s) <-> truthP sp s x.
Proof.
  intros sp s x.
  assert (HE : forall sp', edge_spec sp' ->
    (In x (enodup (flat_map (fun e => (if qual sp' s (fst e) (snd e) then [E (fst e) (snd e)] else [])
                                   ++ (if qual sp' s (snd e) (fst e) then [E (snd e) (fst e)] else [])) (st_edges s)))
     <-> match x with E a b => adj s a b /\ qual sp' s a b = true | N _ => False end)).
  { intros sp' _. rewrite enodup_In, in_flat_map. split.
    - intros [[a b] [He Hx]]. cbn in Hx. apply in_app_iff in Hx. destruct Hx as [Hx|Hx].
      + destruct (qual sp' s a b) eqn:Q; [|destruct Hx]. destruct Hx as [Hx|[]]. subst x.
        split; [apply adjb_spec; left; exact He | exact Q].
      + destruct (qual sp' s b a) eqn:Q; [|destruct Hx]. destruct Hx as [Hx|[]]. subst x.
        split; [apply adjb_spec; right; exact He | exact Q].
    - destruct x as [v|a b]; [intros []|]. intros [Ha Q]. apply adjb_spec in Ha. destruct Ha as [Ha|Ha].
      + exists (a, b). split; [exact Ha|]. cbn. rewrite Q. apply in_app_iff. left. left. reflexivity.
      + exists (b, a). split; [exact Ha|]. cbn. rewrite Q. apply in_app_iff. right. left. reflexivity. }
  destruct sp as [c|l r|l rs].
  - cbn. rewrite enodup_In, in_map_iff. split.
    + intros [v [Hx Hv]]. subst x. apply filter_In in Hv. destruct Hv as [H1 H2]. apply ceq_true in H2. tauto.
    + destruct x as [v|a b]; [|intros []]. intros [H1 H2]. exists v. split; [reflexivity|].
      apply filter_In. split; [exact H1 | apply ceq_true; exact H2].
  - apply (HE (EdgeLocus l r)). exact I.
  - apply (HE (MultiEdgeLocus l rs)). exact I.
Qed.

Lemma truth_NoDup : forall sp s, NoDup (truth sp s).
Proof. intros [c|l r|l rs] s; apply enodup_NoDup. Qed.

Lemma truthP_edge : forall sp s a b, edge_spec sp -> (truthP sp s (E a b) <-> adj s a b /\ qual sp s a b = true).
Proof. intros [c|l r|l rs] s a b H; [destruct H | reflexivity | reflexivity]. Qed.
Lemma truthP_edge_N : forall sp s v, edge_spec sp -> ~ truthP sp s (N v).
Proof. intros [c|l r|l rs] s v H; [destruct H | intros [] | intros []]. Qed.

Lemma qual_node : forall c s a b, qual (NodeLocus c) s a b = false.
Proof. reflexivity. Qed.

(* the list l stands for the set P up to the orientation of edges *)
Definition tracks (P : elem -> Prop) (l : list elem) : Prop :=
  NoDup l /\ (forall x, In x l -> P x) /\ (forall x, P x -> In x l \/ In (flip x) l).

Definition winv1 (sp : spec) (s : state) (l : list elem) : Prop :=
  NoDup l /\ (forall x, In x l -> truthP sp s x) /\ (forall x, truthP sp s x -> In x l \/ In (flip x) l).
Definition sinv1 (sp : spec) (s : state) (l : list elem) : Prop :=
  NoDup l /\ (forall x, In x l <-> truthP sp s x).

Lemma winv1_tracks : forall sp s, winv1 sp s = tracks (truthP sp s).
Proof. reflexivity. Qed.

Lemma tracks_iff : forall P Q l, (forall x, P x <-> Q x) -> tracks P l -> tracks Q l.
Proof.
  intros P Q l H [H1 [H2 H3]]. split; [exact H1|]. split; intros x Hx; [apply H, H2, Hx | apply H3, H, Hx].
Qed.

Lemma sinv1_winv1 : forall sp s l, sinv1 sp s l -> winv1 sp s l.
Proof. intros sp s l [H1 H2]. split; [exact H1|]. split; intros x Hx; [apply H2; exact Hx | left; apply H2; exact Hx]. Qed.

(* under wf_spec (zmem l rs) no multi-edge locus has a single orientation, so with wf_loci the strong
   theorems C01_inv_ops, _history, ... concern node loci and EdgeLocus l r with l <> r; multi-edge loci are the
   business of the weak ones *)
Lemma both_qual_single : forall sp s a b, single_spec sp = true ->
  qual sp s a b = true -> qual sp s b a = true -> False.
Proof.
  intros sp s a b Hs H1 H2. apply qual_true in H1, H2. destruct sp as [c|l r|l rs]; cbn [single_spec] in Hs.
  - exact H1.
  - destruct H1 as [H1 _], H2 as [_ H2]. rewrite H1 in H2. injection H2 as <-. rewrite Z.eqb_refl in Hs. discriminate.
  - destruct H1 as [H1 _], H2 as [_ [c [H2 H3]]]. rewrite H1 in H2. injection H2 as <-.
    apply zmem_In in H3. rewrite H3 in Hs. discriminate.
Qed.

Lemma spec_cases : forall sp, (exists c, sp = NodeLocus c) \/ edge_spec sp.
Proof. intros [c|l r|l rs]; [left; exists c; reflexivity | right; exact I | right; exact I]. Qed.

Lemma winv1_sinv1 : forall sp s l, single_spec sp = true -> winv1 sp s l -> sinv1 sp s l.
Proof.
  intros sp s l Hs [H1 [H2 H3]]. split; [exact H1|]. intro x. split; [apply H2|].
  intro Hx. destruct (H3 x Hx) as [H|H]; [exact H|].
  destruct x as [v|u w]; [exact H|]. apply H2 in H. cbn [flip] in H.
  destruct (spec_cases sp) as [[c Hc]|He]; [subst sp; destruct Hx|].
  apply (truthP_edge sp s u w He) in Hx. apply (truthP_edge sp s w u He) in H.
  exfalso. exact (both_qual_single sp s u w Hs (proj2 Hx) (proj2 H)).
Qed.

Definition present (s : state) (x : elem) : Prop :=
  match x with N v => In v (st_nodes s) | E a b => adj s a b end.

Lemma truthP_present : forall sp s x, truthP sp s x -> present s x.
Proof. intros [c|l r|l rs] s [v|a b]; cbn; tauto. Qed.

Lemma truthP_mono : forall sp s s' x, (present s x -> present s' x) ->
  (forall v, involves v x -> getc s' v = getc s v) -> truthP sp s x -> truthP sp s' x.
Proof.
  intros sp s s' x Hp Hg Ht.
  destruct sp as [c|l r|l rs], x as [v|a b]; cbn [truthP present involves] in *; try contradiction.
  1: rewrite (Hg v eq_refl); tauto.
  all: rewrite (qual_ext _ s' s a b (Hg a (or_introl eq_refl)) (Hg b (or_intror eq_refl))); tauto.
Qed.

Lemma truthP_regs : forall sp s v x, wf_spec sp = true -> truthP sp s x -> involves v x ->
  exists c, getc s v = Some c /\ regs sp c.
Proof.
  intros sp s v x Hwf Ht Hi. destruct (spec_cases sp) as [[c ->]|He]; destruct x as [u|a b]; cbn in Hi.
  - subst u. exists c. split; [apply Ht | reflexivity].
  - destruct Ht.
  - destruct (truthP_edge_N sp s u He Ht).
  - apply (truthP_edge sp s a b He) in Ht.
    destruct (qual_regs sp s a b Hwf (proj2 Ht)) as [ca [cb [Ga [Gb [Ra Rb]]]]].
    destruct Hi as [<-|<-]; [exists ca | exists cb]; tauto.
Qed.

Lemma adj_sym : forall s a b, adj s a b <-> adj s b a.
Proof. intros s a b. unfold adj. rewrite adjb_sym. tauto. Qed.

(* the bodies of the loops in enter_handler and leave_handler (Model/Loci.v has them as inline
   functions), which are also what add_handler and remove_handler do for one edge *)
Definition enter_step (sp : spec) (s : state) (l : list elem) (e : Z * Z) : list elem :=
  match matches sp (getc s (fst e)) (getc s (snd e)) with
  | Bwd => ladd (E (snd e) (fst e)) l
  | Fwd => ladd (E (fst e) (snd e)) l
  | NoMatch => l
  end.
Definition leave_step (sp : spec) (s : state) (l : list elem) (e : Z * Z) : list elem :=
  if is_match (matches sp (getc s (fst e)) (getc s (snd e)))
  then ldiscard (E (snd e) (fst e)) (ldiscard (E (fst e) (snd e)) l) else l.

Definition enterA (sp : spec) (s : state) (e : Z * Z) (x : elem) : Prop :=
  (matches sp (getc s (fst e)) (getc s (snd e)) = Fwd /\ x = E (fst e) (snd e))
  \/ (matches sp (getc s (fst e)) (getc s (snd e)) = Bwd /\ x = E (snd e) (fst e)).
Definition leaveD (sp : spec) (s : state) (e : Z * Z) (x : elem) : Prop :=
  is_match (matches sp (getc s (fst e)) (getc s (snd e))) = true /\ (x = E (fst e) (snd e) \/ x = E (snd e) (fst e)).

Lemma enter_edge : forall sp s n, edge_spec sp ->
  enter_handler sp s (N n) = fun l => fold_left (enter_step sp s) (incident (st_edges s) n) l.
Proof. intros [c|a b|a rs] s n H; [destruct H | reflexivity ..]. Qed.
Lemma leave_edge : forall sp s n, edge_spec sp ->
  leave_handler sp s (N n) = fun l => fold_left (leave_step sp s) (incident (st_edges s) n) l.
Proof. intros [c|a b|a rs] s n H; [destruct H | reflexivity ..]. Qed.
Lemma add_edge_h : forall sp s n m, edge_spec sp -> add_handler sp s (E n m) = fun l => enter_step sp s l (n, m).
Proof. intros [c|a b|a rs] s n m H; [destruct H | reflexivity ..]. Qed.
Lemma remove_edge_h : forall sp s n m, edge_spec sp -> remove_handler sp s (E n m) = fun l => leave_step sp s l (n, m).
Proof. intros [c|a b|a rs] s n m H; [destruct H | reflexivity ..]. Qed.
Lemma remove_edge_node_h : forall sp s n, edge_spec sp -> remove_handler sp s (N n) = fun l => l.
Proof. intros [c|a b|a rs] s n H; [destruct H | reflexivity ..]. Qed.
Lemma remove_leave_node : forall c s e, remove_handler (NodeLocus c) s e = leave_handler (NodeLocus c) s e.
Proof. reflexivity. Qed.

Lemma enter_step_adds : forall sp s e, adds (fun l => enter_step sp s l e) (enterA sp s e).
Proof.
  intros sp s e. unfold enter_step, enterA. destruct (matches sp (getc s (fst e)) (getc s (snd e))); split.
  - intros l x. rewrite ladd_In. split; [intros [H|H]; [left; exact H | right; left; tauto] | intros [H|[[_ H]|[H _]]]; [tauto | tauto | discriminate]].
  - intros l. apply ladd_NoDup.
  - intros l x. rewrite ladd_In. split; [intros [H|H]; [left; exact H | right; right; tauto] | intros [H|[[H _]|[_ H]]]; [tauto | discriminate | tauto]].
  - intros l. apply ladd_NoDup.
  - intros l x. split; [tauto | intros [H|[[H _]|[H _]]]; [exact H | discriminate | discriminate]].
  - auto.
Qed.

Lemma leave_step_drops : forall sp s e, drops (fun l => leave_step sp s l e) (leaveD sp s e).
Proof.
  intros sp s e. unfold leave_step, leaveD. destruct (is_match (matches sp (getc s (fst e)) (getc s (snd e)))); split.
  - intros l x. rewrite !ldiscard_In. split.
    + intros [[H1 H2] H3]. split; [exact H1|]. intros [_ [H|H]]; contradiction.
    + intros [H1 H2]. split; [split; [exact H1|]|]; intro H; apply H2; tauto.
  - intros l Hl. apply ldiscard_NoDup, ldiscard_NoDup, Hl.
  - intros l x. split; [intro H; split; [exact H | intros [H1 _]; discriminate] | tauto].
  - auto.
Qed.

Lemma enterA_sound : forall sp s a b x, edge_spec sp -> adj s a b -> enterA sp s (a, b) x -> truthP sp s x.
Proof.
  intros sp s a b x He Ha Hx. pose proof (matches_qual sp s a b) as Q.
  destruct Hx as [[M ->]|[M ->]]; cbn [fst snd] in M |- *; rewrite M in Q; apply (truthP_edge sp s _ _ He).
  - split; [exact Ha | exact Q].
  - split; [apply adj_sym, Ha | exact Q].
Qed.

Lemma enterA_complete : forall sp s a b, qual sp s a b = true \/ qual sp s b a = true ->
  enterA sp s (a, b) (E a b) \/ enterA sp s (a, b) (E b a).
Proof.
  intros sp s a b Q. pose proof (matches_qual sp s a b) as H. unfold enterA. cbn [fst snd].
  destruct (matches sp (getc s a) (getc s b)); [left; left; tauto | right; right; tauto |].
  destruct H as [H1 H2]. rewrite H1, H2 in Q. destruct Q; discriminate.
Qed.

Lemma hits_none : forall sp, hits sp [None] = 0.
Proof. reflexivity. Qed.

(* the elements a call for e is about: the node and the edges at it; the edge, either way round *)
Definition covers (e x : elem) : Prop :=
  match e with N n => involves n x | E n m => x = E n m \/ x = E m n end.

Lemma covers_flip : forall e x, covers e (flip x) -> covers e x.
Proof. intros [n|n m] [v|a b]; cbn; try tauto. intros [H|H]; inversion H; tauto. Qed.

Lemma covers_dec : forall e x, covers e x \/ ~ covers e x.
Proof.
  intros [n|n m] x; cbn.
  - destruct x as [v|a b]; cbn; [destruct (Z.eq_dec v n) | destruct (Z.eq_dec a n), (Z.eq_dec b n)]; tauto.
  - destruct (elem_dec x (E n m)), (elem_dec x (E m n)); tauto.
Qed.

Lemma truthP_hits : forall sp s e x, wf_spec sp = true -> truthP sp s x -> covers e x ->
  hits sp (handler_compartments s e) <> 0.
Proof.
  intros sp s e x Hwf Ht Hc. apply hits_pos.
  assert (Hi : involves (match e with N n => n | E n _ => n end) x).
  { destruct e as [n|n m]; [exact Hc | destruct Hc as [->| ->]; cbn; tauto]. }
  destruct (truthP_regs sp s _ x Hwf Ht Hi) as [c [G R]]. exists c. split; [|exact R].
  destruct e as [n|n m]; cbn; rewrite G; left; reflexivity.
Qed.

Lemma truthP_restrict : forall sp s s' e x,
  (present s' x <-> present s x /\ ~ covers e x) ->
  (~ covers e x -> forall v, involves v x -> getc s' v = getc s v) ->
  (truthP sp s' x <-> truthP sp s x /\ ~ covers e x).
Proof.
  intros sp s s' e x Hp Hg. split.
  - intro Ht. assert (Hc : ~ covers e x) by (apply Hp, (truthP_present sp), Ht). split; [|exact Hc].
    revert Ht. apply truthP_mono; [intro H; apply Hp, H | intros v Hv; symmetry; exact (Hg Hc v Hv)].
  - intros [Ht Hc]. revert Ht. apply truthP_mono; [intro H; apply Hp; tauto | exact (Hg Hc)].
Qed.

(* the locus between a discarding call for e and what follows it: its truth, less what e covers *)
Definition without (e : elem) (sp : spec) (s : state) (l : list elem) : Prop :=
  tracks (fun x => truthP sp s x /\ ~ covers e x) l.

(* a discarding handler, called for e: of what the locus holds it removes exactly what e covers *)
Definition discards (sp : spec) (s : state) (e : elem) (h : list elem -> list elem) : Prop :=
  exists D, drops h D /\ (forall x, D x -> covers e x) /\ (forall x, truthP sp s x -> covers e x -> D x).

Lemma drop_phase : forall sp s e [h] [P : elem -> Prop] [l], wf_spec sp = true -> discards sp s e h ->
  (forall x, P x -> truthP sp s x) -> tracks P l ->
  tracks (fun x => P x /\ ~ covers e x) (Nat.iter (hits sp (handler_compartments s e)) h l).
Proof.
  intros sp s e h P l Hwf [D [Hd [D1 D2]]] HP [N1 [S1 C1]].
  destruct (drops_iter h D (hits sp (handler_compartments s e)) Hd) as [Hin Hnd].
  split; [apply Hnd, N1|]. split.
  - intros x Hx. apply Hin in Hx. destruct Hx as [Hx Hk]. pose proof (HP x (S1 x Hx)) as Ht.
    split; [apply S1, Hx|]. intro Hc. apply Hk. split; [exact (truthP_hits sp s e x Hwf Ht Hc) | exact (D2 x Ht Hc)].
  - intros x [Hx Hc]. destruct (C1 x Hx) as [H|H]; [left|right]; apply Hin; (split; [exact H|]); intros [_ Hd']; apply Hc.
    + exact (D1 _ Hd').
    + exact (covers_flip _ _ (D1 _ Hd')).
Qed.

(* an adding handler, called for e: what it adds is true, and it adds whatever e covers one way round *)
Definition supplies (sp : spec) (s : state) (e : elem) (h : list elem -> list elem) : Prop :=
  exists A, adds h A
    /\ (forall x, A x -> present s e -> hits sp (handler_compartments s e) <> 0 -> truthP sp s x)
    /\ (forall x, truthP sp s x -> covers e x -> A x \/ A (flip x)).

Lemma add_phase : forall sp s e [h] (Q : elem -> Prop) [l], wf_spec sp = true -> supplies sp s e h -> present s e ->
  (forall x, Q x -> truthP sp s x) -> (forall x, truthP sp s x -> ~ covers e x -> Q x) ->
  tracks Q l -> winv1 sp s (Nat.iter (hits sp (handler_compartments s e)) h l).
Proof.
  intros sp s e h Q l Hwf [A [Ha [A1 A2]]] He Q1 Q2 [N1 [S1 C1]].
  destruct (adds_iter h A (hits sp (handler_compartments s e)) Ha) as [Hin Hnd].
  split; [apply Hnd, N1|]. split.
  - intros x Hx. apply Hin in Hx. destruct Hx as [Hx|[Hk Hx]]; [apply Q1, S1, Hx | exact (A1 x Hx He Hk)].
  - intros x Hx. destruct (covers_dec e x) as [Hc|Hc].
    + pose proof (truthP_hits sp s e x Hwf Hx Hc) as Hk.
      destruct (A2 x Hx Hc) as [H|H]; [left|right]; apply Hin; right; split; assumption.
    + destruct (C1 x (Q2 x Hx Hc)) as [H|H]; [left|right]; apply Hin; left; exact H.
Qed.

Lemma leave_discards : forall sp s n, discards sp s (N n) (leave_handler sp s (N n)).
Proof.
  intros sp s n. destruct (spec_cases sp) as [[c ->]|He].
  - exists (fun x => x = N n). split; [|split].
    + split; [intros l x; cbn; rewrite ldiscard_In; tauto | intros l; apply ldiscard_NoDup].
    + intros x ->. reflexivity.
    + intros [v|a b] Ht Hc; [cbn in Hc; subst v; reflexivity | destruct Ht].
  - exists (fun x => exists e, In e (incident (st_edges s) n) /\ leaveD sp s e x). split; [|split].
    + rewrite (leave_edge sp s n He). exact (drops_fold _ _ _ (leave_step_drops sp s) _).
    + intros x [e [Hi [_ Hx]]]. apply incident_In in Hi. destruct Hi as [<- _]. destruct Hx as [->| ->]; cbn; tauto.
    + intros [v|a b] Ht Hc; [destruct (truthP_edge_N sp s v He Ht)|].
      apply (truthP_edge sp s a b He) in Ht. destruct Ht as [Ha Q]. cbn in Hc. destruct Hc as [->| ->].
      * exists (n, b). split; [apply incident_In; tauto|]. split; [apply is_match_qual; tauto | left; reflexivity].
      * exists (n, a). split; [apply incident_In; split; [reflexivity | apply adj_sym, Ha]|].
        split; [apply is_match_qual; tauto | right; reflexivity].
Qed.

Lemma remove_edge_discards : forall sp s n m, discards sp s (E n m) (remove_handler sp s (E n m)).
Proof.
  intros sp s n m. destruct (spec_cases sp) as [[c ->]|He].
  - exists (fun _ => False). split; [exact drops_id|]. split; [intros x [] | intros x Ht [->| ->]; destruct Ht].
  - exists (leaveD sp s (n, m)). split; [|split].
    + rewrite (remove_edge_h sp s n m He). exact (leave_step_drops sp s (n, m)).
    + intros x [_ H]. exact H.
    + intros x Ht Hc. split; [|exact Hc]. apply is_match_qual.
      destruct Hc as [->| ->]; apply (truthP_edge sp s _ _ He) in Ht; tauto.
Qed.

Lemma remove_node_discards : forall c s n, discards (NodeLocus c) s (N n) (remove_handler (NodeLocus c) s (N n)).
Proof. intros c s n. rewrite remove_leave_node. apply leave_discards. Qed.

Lemma enter_supplies : forall sp s n, supplies sp s (N n) (enter_handler sp s (N n)).
Proof.
  intros sp s n. destruct (spec_cases sp) as [[c ->]|He].
  - exists (fun x => x = N n). split; [|split].
    + split; [intros l x; cbn; rewrite ladd_In; tauto | intros l; apply ladd_NoDup].
    + intros x -> Hn Hk. apply hits_pos in Hk. destruct Hk as [c' [[Hc|[]] ->]]. split; [exact Hn | exact Hc].
    + intros [v|a b] Ht Hc; [cbn in Hc; subst v; left; reflexivity | destruct Ht].
  - exists (fun x => exists e, In e (incident (st_edges s) n) /\ enterA sp s e x). split; [|split].
    + rewrite (enter_edge sp s n He). exact (adds_fold _ _ _ (enter_step_adds sp s) _).
    + intros x [[a b] [Hi Hx]] _ _. apply incident_In in Hi. destruct Hi as [<- Hi]. exact (enterA_sound sp s a b x He Hi Hx).
    + intros [v|a b] Ht Hc; [destruct (truthP_edge_N sp s v He Ht)|].
      apply (truthP_edge sp s a b He) in Ht. destruct Ht as [Ha Q]. cbn in Hc. destruct Hc as [->| ->].
      * destruct (enterA_complete sp s n b (or_introl Q)) as [H|H]; [left|right]; exists (n, b); (split; [apply incident_In; tauto | exact H]).
      * destruct (enterA_complete sp s n a (or_intror Q)) as [H|H]; [right|left]; exists (n, a);
          (split; [apply incident_In; split; [reflexivity | apply adj_sym, Ha] | exact H]).
Qed.

Lemma add_supplies : forall sp s n m, supplies sp s (E n m) (add_handler sp s (E n m)).
Proof.
  intros sp s n m. destruct (spec_cases sp) as [[c ->]|He].
  - exists (fun _ => False). split; [exact adds_id|]. split; [intros x [] | intros x Ht [->| ->]; destruct Ht].
  - exists (enterA sp s (n, m)). split; [|split].
    + rewrite (add_edge_h sp s n m He). exact (enter_step_adds sp s (n, m)).
    + intros x Hx Ha _. exact (enterA_sound sp s n m x He Ha Hx).
    + intros x Ht [->| ->]; apply (truthP_edge sp s _ _ He) in Ht.
      * exact (enterA_complete sp s n m (or_introl (proj2 Ht))).
      * destruct (enterA_complete sp s n m (or_intror (proj2 Ht))) as [H|H]; [right|left]; exact H.
Qed.
