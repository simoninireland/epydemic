(* C11 - composed and multiply-instantiated processes do not interfere.
   Each statement is assembled in a few lines from the lemmas of Proofs/Sequence*.v and
   Proofs/KernelRelabel.v. *)
From Coq Require Import List ZArith QArith Bool Arith String Permutation.
From EpyV Require Import Lib.Lists Model.Kernel Model.Sequence Proofs.KernelRelabel
  Proofs.Sequence Proofs.SequenceNames Proofs.SequenceFrame Proofs.SequenceKernel.
Import ListNotations.
Close Scope Q_scope.
Open Scope list_scope.

(* every operation that ProcessSequence forwards (setDynamics, reset, build, setUp, tearDown,
   setMaximumTime) reaches, for every nesting, exactly the processes of allProcesses(), once
   each and in that order *)
Theorem C11_forwarded : forall (P S : Type) (f : P -> S -> S) (t : ptree P) (s : S),
  forward f t s = fold_left (fun s p => f p s) (all_processes t) s.
Proof. intros. apply forward_flat. Qed.

(* the dynamics schedules exactly the union of the components' events, for every nesting: the
   kernel's event list over the flattening is the concatenation of the components' tables (so
   its multiset is their union), every slot occurs exactly once and is attributed to the
   component that registered it *)
Theorem C11_union_events : forall (W : Type) (tb : table W) (t : ptree procdesc),
  t_procs tb = kprocs t ->
  map snd (all_events tb) = tree_events t
  /\ Permutation (map snd (transitions tb)) (tree_events t)
  /\ NoDup (map fst (transitions tb))
  /\ (forall pi j e, In (pi, j, e) (transitions tb) <->
        exists p, nth_error (all_processes t) pi = Some p /\ nth_error (p_events (kproc p)) j = Some e).
Proof.
  intros W tb t Htb.
  assert (E : map snd (all_events tb) = tree_events t).
  { unfold all_events. rewrite Htb, all_events_from_snd. apply tree_events_flat. }
  pose proof (transitions_perm tb) as Hperm.
  split; [exact E|]. split; [|split].
  - rewrite <- E. apply Permutation_map, Hperm.
  - eapply Permutation_NoDup; [apply Permutation_sym, Permutation_map, Hperm|]. apply all_events_from_fst_NoDup.
  - intros pi j e. rewrite transitions_in, all_events_in, Htb. unfold kprocs. rewrite nth_error_map. split.
    + intros (q & H1 & H2). destruct (nth_error (all_processes t) pi) as [p|]; [|discriminate].
      injection H1 as <-. exists p. split; [reflexivity|exact H2].
    + intros (p & H1 & H2). exists (kproc p). rewrite H1. split; [reflexivity|exact H2].
Qed.

(* Dynamics.perElementEventDistribution / fixedRateEventDistribution / eventRateDistribution as
   written (extend over allProcesses()) are the kernel's per_element / fixed_rate / rate *)
Theorem C11_distribution : forall (W : Type) (tb : table W) (t : ptree procdesc),
  t_procs tb = kprocs t ->
  map strip (per_element tb) = map (fun x => (fst x, kevent true (snd x))) (per_element_distribution t)
  /\ map strip (fixed_rate tb) = map (fun x => (fst x, kevent false (snd x))) (fixed_rate_distribution t)
  /\ (forall (s : st W) pi j e, rate s (pi, j, kevent true e) = elem_rate (map (@List.length elem) (loci s)) e
                                /\ rate s (pi, j, kevent false e) = se_p e).
Proof.
  intros W tb t Htb. unfold per_element, fixed_rate, all_events, per_element_distribution, fixed_rate_distribution.
  rewrite Htb. unfold kprocs. split; [|split].
  - rewrite (dist_from_kernel ev_elem). apply dist_from_map. intro p. apply filter_elem_kproc.
  - rewrite (dist_from_kernel (fun e => negb (ev_elem e))). apply dist_from_map. intro p. apply filter_elem_kproc.
  - intros s pi j e. unfold rate, elem_rate, qlen, locus. simpl. split; [|reflexivity].
    rewrite <- (map_nth (@List.length elem)). reflexivity.
Qed.

(* results: union of the components' keys, a later component winning on equal keys *)
Theorem C11_results_merge : forall (P V : Type) (res : P -> dict V), (forall p, NoDup (dict_keys (res p))) ->
  forall t : ptree P,
  (forall k, dict_get k (results res t) = merged_from res k None (all_processes t))
  /\ (forall k, In k (dict_keys (results res t)) <-> exists p, In p (all_processes t) /\ In k (dict_keys (res p)))
  /\ (forall k ps1 p ps2 v, all_processes t = ps1 ++ p :: ps2 -> dict_get k (res p) = Some v ->
        (forall q, In q ps2 -> dict_get k (res q) = None) -> dict_get k (results res t) = Some v)
  /\ NoDup (dict_keys (results res t)).
Proof.
  intros P V res Hres t. destruct (results_spec res Hres t) as [Hnd Hget].
  split; [exact Hget|]. split; [|split; [|exact Hnd]].
  - intro k. pose proof (merged_from_last res k (all_processes t)) as HL.
    revert HL. rewrite <- Hget. destruct (dict_get k (results res t)) as [v|] eqn:E; intro HL.
    + split; [intros _|intros _; exact (dict_get_Some _ _ _ E)].
      destruct HL as (p & Hp & Ev). exists p. split; [exact Hp|exact (dict_get_Some _ _ _ Ev)].
    + apply dict_get_None in E. split; [contradiction|]. intros (p & Hp & Hk).
      destruct (proj1 (dict_get_None k (res p)) (HL p Hp) Hk).
  - intros k ps1 p ps2 v Hall Hp Hlater.
    rewrite Hget, Hall, merged_from_app. change (p :: ps2) with ([p] ++ ps2). rewrite merged_from_app.
    rewrite (merged_from_acc res k _ ps2). pose proof (merged_from_last res k ps2) as HL.
    destruct (merged_from res k None ps2) as [w|].
    + destruct HL as (q & Hq & E). rewrite (Hlater q Hq) in E. discriminate.
    + unfold merged_from. simpl. rewrite Hp. reflexivity.
Qed.

(* maximumTime: an upper bound of every component's, never negative for a sequence, and
   either 0 (nothing larger) or attained by a component *)
Theorem C11_maxtime : forall (P : Type) (mt : P -> Q) (t : ptree P),
  (forall p, In p (all_processes t) -> (mt p <= maximum_time mt t)%Q)
  /\ (is_seq t = true -> (0 <= maximum_time mt t)%Q)
  /\ ((is_seq t = true /\ maximum_time mt t = 0%Q) \/ exists p, In p (all_processes t) /\ maximum_time mt t = mt p).
Proof.
  intros P mt t. destruct (is_seq t) eqn:Ht.
  - rewrite (proj1 (maximum_time_flat mt t) Ht).
    destruct (fold_pymax_spec mt (all_processes t) 0%Q) as (H1 & H2 & H3). cbv zeta in H1, H2, H3.
    split; [exact H2|]. split; [intros _; exact H1|].
    destruct H3 as [H3|H3]; [left; split; [reflexivity|exact H3]|right; exact H3].
  - destruct t as [p|cs|cs]; try discriminate. simpl.
    split; [intros p' [<-|[]]; apply Qle_refl|]. split; [discriminate|].
    right. exists p. split; [left; reflexivity|reflexivity].
Qed.

Theorem C11_equilibrium : forall (P : Type) (equil : P -> Q -> bool) (t : ptree P) (tm : Q),
  at_equilibrium equil t tm = true <-> forall p, In p (all_processes t) -> equil p tm = true.
Proof. intros. rewrite at_equilibrium_flat. apply forallb_forall. Qed.

(* the three-level rule: decorated name, then the shared undecorated name, then the default,
   else KeyError *)
Theorem C11_lookup : forall (V : Type) (inst : option string) (d : dict V) (k : string) (dflt : option V),
  (forall v, dict_get (decorated_name inst k) d = Some v -> get_decorated inst d k dflt = Found v)
  /\ (dict_get (decorated_name inst k) d = None ->
      forall v, dict_get k d = Some v -> get_decorated inst d k dflt = Found v)
  /\ (dict_get (decorated_name inst k) d = None -> dict_get k d = None ->
      get_decorated inst d k dflt = match dflt with Some v => Found v | None => KeyError k end).
Proof.
  intros V inst d k dflt. unfold get_decorated. repeat split.
  - intros v ->. reflexivity.
  - intros -> v ->. reflexivity.
  - intros -> ->. reflexivity.
Qed.

(* a parameter set for one named instance is read by that instance and by no other *)
Theorem C11_lookup_independent : forall (V : Type) (i j : option string) (d : dict V) (k k' : string) (v : V) (dflt : option V),
  get_decorated i (dict_set (decorated_name i k) v d) k dflt = Found v
  /\ (i <> j -> i <> None -> has_at k = false -> has_at k' = false ->
      get_decorated j (dict_set (decorated_name i k') v d) k dflt = get_decorated j d k dflt).
Proof.
  intros V i j d k k' v dflt. split.
  - unfold get_decorated. rewrite dict_get_set, String.eqb_refl. reflexivity.
  - intros Hij Hi Hk Hk'. apply get_decorated_set_other.
    + apply decorated_neq; assumption.
    + exact (decorated_neq i None k' k Hi Hk' Hk).
Qed.

Theorem C11_undecorate : forall (inst : option string) (k : string),
  has_at k = false -> undecorated_name (decorated_name inst k) = k.
Proof. intros. apply undecorate_decorate. assumption. Qed.

Theorem C11_names_disjoint : forall (i j : option string) (stems1 stems2 : list string),
  i <> j ->
  (forall s, In s stems1 -> has_at s = false) -> (forall s, In s stems2 -> has_at s = false) ->
  forall x, In x (map (decorated_name i) stems1) -> In x (map (decorated_name j) stems2) -> False.
Proof. intros i j s1 s2. apply names_disjoint. Qed.

(* the locus registry: build succeeds exactly when all decorated locus names are distinct and
   then holds exactly those names in allProcesses() order; distinct instance names suffice;
   the same instance name with a common stem is refused *)
Theorem C11_registry : forall t : ptree procdesc,
  (forall reg, build_registry t = Some reg -> reg = all_loci (all_processes t) /\ NoDup (all_locus_names t))
  /\ (build_registry t = None <-> ~ NoDup (all_locus_names t))
  /\ (NoDup (map pd_inst (all_processes t)) ->
      (forall p, In p (all_processes t) -> NoDup (pd_loci p) /\ forall s, In s (pd_loci p) -> has_at s = false) ->
      exists reg, build_registry t = Some reg /\ reg = all_loci (all_processes t))
  /\ (forall ps1 p ps2 q ps3 s, all_processes t = ps1 ++ p :: ps2 ++ q :: ps3 -> pd_inst p = pd_inst q ->
      In s (pd_loci p) -> In s (pd_loci q) -> build_registry t = None).
Proof.
  intro t. destruct (registry_spec t) as [H1 H2]. split; [exact H1|]. split; [exact H2|]. split.
  - intros Hinst Hstems. destruct (build_registry t) as [reg|] eqn:E.
    + exists reg. split; [reflexivity|]. apply H1. reflexivity.
    + destruct (proj1 H2 eq_refl (all_loci_NoDup _ Hinst Hstems)).
  - intros ps1 p ps2 q ps3 s Hall Hi Hp Hq. apply H2. unfold all_locus_names.
    rewrite Hall, all_loci_names, flat_map_app. simpl. intro Hnd.
    apply NoDup_app_iff in Hnd. destruct Hnd as (_ & Hnd & _).
    apply NoDup_app_iff in Hnd. destruct Hnd as (_ & _ & Hd).
    apply (Hd (decorated_name (pd_inst p) s)); [apply in_map, Hp|].
    apply in_flat_map. exists q. split; [apply in_or_app; right; left; reflexivity|].
    rewrite Hi. apply in_map, Hq.
Qed.

(* frame: an event whose writes stay within its summary (own state variables, own loci, the
   declared shared variables) changes no attribute and no locus outside that set ... *)
Theorem C11_frame_general : forall (inst : option string) (fn : string) (stems : list string) (ws : list write) (w : sworld),
  (forall x, In x ws -> within_summary fn stems x = true) ->
  (forall a e, ~ In a (may_change_attrs inst fn) ->
     attr_get (a, e) (sw_attrs (apply_writes inst ws w)) = attr_get (a, e) (sw_attrs w))
  /\ (forall n, ~ In n (may_change_loci inst stems) -> locus_get n (apply_writes inst ws w) = locus_get n w).
Proof. intros inst fn stems ws w. apply frame_general. Qed.

(* ... in particular nothing that is named for another instance *)
Theorem C11_frame : forall (i j : option string) (fn : string) (stems : list string) (ws : list write) (w : sworld),
  i <> j ->
  (forall x, In x ws -> within_summary fn stems x = true) ->
  (forall s, In s stems -> has_at s = false) ->
  (forall stem e, has_at stem = false -> ~ In (state_variable j stem) shared_vars ->
     attr_get (state_variable j stem, e) (sw_attrs (apply_writes i ws w)) = attr_get (state_variable j stem, e) (sw_attrs w))
  /\ (forall stem, has_at stem = false ->
     locus_get (decorated_name j stem) (apply_writes i ws w) = locus_get (decorated_name j stem) w).
Proof.
  intros i j fn stems ws w Hij Hws Hstems. destruct (frame_general i fn stems ws w Hws) as [Ha Hl]. split.
  - intros stem e Hstem Hshared. apply Ha, other_instance_attr; assumption.
  - intros stem Hstem. apply Hl, other_instance_locus; assumption.
Qed.

(* adding a process without stochastic events leaves the transitions (up to renumbering the
   processes behind it), their rates, the Gillespie selection and the values taken from the
   random source by the synchronous tranche unchanged *)
Theorem C11_observers_passive : forall (W : Type) (tb tb' : table W) (ps1 ps2 : list proc) (o : proc),
  t_procs tb = ps1 ++ ps2 -> t_procs tb' = ps1 ++ o :: ps2 -> p_events o = [] ->
  let k := List.length ps1 in
  transitions tb' = map (shift k) (transitions tb)
  /\ (forall (s : st W) x, rate s (shift k x) = rate s x)
  /\ (forall s : st W, sum_rates s (transitions tb') = sum_rates s (transitions tb))
  /\ (forall (s : st W) xc x0 l, select (rate s) xc 0%Q (shift k x0) (map (shift k) l) = shift k (select (rate s) xc 0%Q x0 l))
  /\ (forall s : st W, tranche tb' s = (map (shift_sel ps1) (fst (tranche tb s)), snd (tranche tb s))).
Proof.
  intros W tb tb' ps1 ps2 o H1 H2 H3 k.
  assert (Hall : all_events tb' = map (shift k) (all_events tb)).
  { unfold all_events. rewrite H1, H2. apply (all_events_from_insert 0), H3. }
  pose proof (transitions_relabel (shift k) (shift_snd k) tb tb' Hall) as Htr.
  split; [exact Htr|]. split; [exact (rate_relabel _ (shift_snd k))|]. split; [|split].
  - intro s. rewrite Htr. apply sum_rates_relabel, shift_snd.
  - intros s xc x0 l. apply select_relabel, shift_snd.
  - intro s. rewrite (tranche_relabel _ (shift_snd k) tb tb' Hall). unfold relabel_res.
    rewrite shift_sel_relabel. reflexivity.
Qed.

(* a monitor, then a dict of two named SIR instances nested in a list *)
Definition ex_sir (id : nat) (name : string) (pinf prem : Q) : procdesc :=
  {| pd_id := id; pd_inst := Some name;
     pd_elem := [ {| se_locus := 2 * (id - 1); se_p := pinf; se_prog := 0; se_name := "epydemic.sir.I" |};
                  {| se_locus := 2 * (id - 1) + 1; se_p := prem; se_prog := 1; se_name := "epydemic.sir.R" |} ];
     pd_fixed := []; pd_loci := ["epydemic.sir.SI"; "epydemic.sir.I"]%string; pd_maxtime := 3%Q; pd_always := None |}.
Definition ex_monitor : procdesc :=
  {| pd_id := 0; pd_inst := None; pd_elem := []; pd_fixed := []; pd_loci := []; pd_maxtime := 5%Q; pd_always := None |}.
Definition ex_tree : ptree procdesc :=
  Seq [Leaf ex_monitor; NamedSeq [("first", Leaf (ex_sir 1 "a" (1#2)%Q (1#4)%Q)); ("second", Seq [Leaf (ex_sir 2 "b" (1#8)%Q 1%Q)])]%string].

Example C11_example :
  map pd_id (all_processes ex_tree) = [0; 1; 2]
  /\ event_rate_distribution ex_tree [3; 2; 4; 1]
     = [(1, "epydemic.sir.I"%string, (3#2)%Q); (1, "epydemic.sir.R"%string, (1#2)%Q); (2, "epydemic.sir.I"%string, (1#2)%Q); (2, "epydemic.sir.R"%string, 1%Q)]
  /\ maximum_time pd_maxtime ex_tree = 5%Q
  /\ at_equilibrium pd_equil ex_tree 4%Q = false /\ at_equilibrium pd_equil ex_tree 5%Q = true
  /\ results (fun p => [("epydemic.sir.S"%string, Z.of_nat (pd_id p))]) ex_tree = [("epydemic.sir.S"%string, 2%Z)]
  /\ option_map reg_names (build_registry ex_tree)
     = Some ["epydemic.sir.SI@a"; "epydemic.sir.I@a"; "epydemic.sir.SI@b"; "epydemic.sir.I@b"]%string
  /\ NoDup (map pd_inst (all_processes ex_tree))
  /\ get_decorated (Some "a"%string) [("p@b", 1%Z); ("p", 2%Z); ("p@a", 3%Z)]%string "p" None = Found 3%Z
  /\ get_decorated (Some "c"%string) [("p@b", 1%Z); ("p", 2%Z); ("p@a", 3%Z)]%string "p" None = Found 2%Z
  /\ get_decorated (Some "c"%string) [("p@b", 1%Z)]%string "p" (Some 7%Z) = Found 7%Z
  /\ get_decorated (Some "c"%string) [("p@b", 1%Z)]%string "p" None = KeyError "p"%string.
Proof.
  repeat split; try reflexivity.
  (* the instance names None, Some "a", Some "b" differ pairwise *)
  simpl. constructor; [intros [H|[H|[]]]; discriminate H|].
  constructor; [intros [H|[]]; discriminate H|]. constructor; [intros []|constructor].
Qed.

(* the hypotheses of C11_frame are satisfiable: an infection event of instance "a" writing its
   two state variables, three of the shared ones and its loci leaves compartment@b and the loci
   of "b" alone, and does change its own *)
Example C11_frame_example :
  let ws := [WAttr (Own "compartment") (EN 1) 1%Z; WAttr (Own "occupied") (EE 1 2) 1%Z; WAttr (Shared "tOccupied") (EE 1 2) 5%Z;
             WAttr (Shared "tHitting") (EN 1) 5%Z; WAttr (Shared "hittingProcess") (EN 1) 0%Z;
             WLocus "epydemic.sir.SI" []; WLocus "epydemic.sir.I" [EN 1; EN 2]]%string in
  let w := {| sw_attrs := [("compartment@a", EN 1, 0%Z); ("compartment@b", EN 1, 0%Z)]%string;
              sw_loci := [("epydemic.sir.SI@a", [EE 1 2]); ("epydemic.sir.SI@b", [EE 1 2])]%string |} in
  (forall x, In x ws -> within_summary "infect" ["epydemic.sir.SI"; "epydemic.sir.I"]%string x = true)
  /\ attr_get ("compartment@b"%string, EN 1) (sw_attrs (apply_writes (Some "a"%string) ws w)) = Some 0%Z
  /\ attr_get ("compartment@a"%string, EN 1) (sw_attrs (apply_writes (Some "a"%string) ws w)) = Some 1%Z
  /\ locus_get "epydemic.sir.SI@b"%string (apply_writes (Some "a"%string) ws w) = [EE 1 2]
  /\ locus_get "epydemic.sir.SI@a"%string (apply_writes (Some "a"%string) ws w) = [].
Proof.
  cbv zeta. split; [|repeat split; reflexivity]. apply forallb_forall. reflexivity.
Qed.

(* a stem containing '@' would break C11_names_disjoint: the hypothesis is necessary *)
Example C11_at_in_stem_collides :
  decorated_name (Some "c"%string) "a@b"%string = decorated_name (Some "b@c"%string) "a"%string.
Proof. exact names_collide_with_at. Qed.
