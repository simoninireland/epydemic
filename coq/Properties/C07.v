(* C07 - compartmented models keep a partition and follow their transition diagram.
   The lemmas are in Proofs/CompartRun.v (runs as sequences of calls), CompartSort.v, CompartInv.v
   (the run invariant), CompartDiagram.v, CompartFixed.v (posted removals), CompartModels.v.

   Everything is for every table [cm : cmodel] with [wf_model cm = true], every network
   (graph_okb: edges join nodes of the network), every initial assignment (init_ok: it gives every
   node a compartment of the model), every oracle, every fuel, both schedulers, with or without a
   Monitor.  Vocabulary (Proofs/CompartRun.v): [Steps tb s0 cs s] - s is reached from s0 by
   scheduler-internal moves and calls of event functions; cs lists the calls (oldest first), each
   with the state it was entered on; [call_ok] is what holds at the instant of a call (for a
   stochastic / per-element event [CEv x t e]: x is a registered event, e is in the kernel's copy
   of its locus right now, t is the clock); [after tb c s] is the state the call leaves behind.
   C07_runs_* : every run of either scheduler is such a sequence, so "for all Steps from
   set-up" covers set-up, every call and the final state of every run.

   The run theorems are about the tables of Model/Compart.v.  Of SIvR only the vaccine gate is
   proved here (C07_vaccine_*, Model/CompartV.v), its runs are co-executed (Tie/CompartV.v).
   C07_event_functions_from_source and its SIvR counterpart tie the event functions regenerated
   from the Python source to the summaries the tables are built from.  SIR_VariableInfection has
   its own run theorems at the end of the file (the C07_vi theorems). *)
From Coq Require Import List ZArith QArith Bool Arith.
From EpyV Require Import Model.Kernel Model.Loci Model.Compart Proofs.KernelMember Proofs.LociBase Proofs.LociLocus
  Proofs.LociInv Proofs.CompartRun Proofs.CompartSort Proofs.CompartInv Proofs.CompartDiagram Proofs.CompartFixed
  Proofs.CompartModels.
Import ListNotations.

Theorem C07_runs_stoch : forall cm nodes edges init maxtime monitor pf fuel rs ls ds,
  let tb := mk_table cm nodes edges init maxtime monitor in
  exists cs, Steps tb (setup_state tb rs ls ds) cs (r_final (stoch_run tb pf fuel rs ls ds)).
Proof. intros. exact (stoch_run_steps _ pf fuel rs ls ds). Qed.

Theorem C07_runs_sync : forall cm nodes edges init maxtime monitor pf fuel rs ds,
  let tb := mk_table cm nodes edges init maxtime monitor in
  exists cs, Steps tb (setup_state tb rs [] ds) cs (r_final (sync_run tb pf fuel rs ds)).
Proof. intros. exact (sync_run_steps _ pf fuel rs ds). Qed.

Theorem C07_calls_ok : forall W (tb : table W) s0 cs s sc, Steps tb s0 cs s -> In sc cs ->
  call_ok tb (snd sc) (fst sc) /\ exists cs1 cs2, cs = cs1 ++ sc :: cs2 /\ Steps tb s0 cs1 (fst sc).
Proof. intros W tb s0 cs s sc H Hin. exact (Steps_calls tb s0 cs s H sc Hin). Qed.

(* J cm nodes edges s: (a) the kernel's ordered loci are map ksort of the loci of the model;
   (b) those satisfy the C01 invariant WInv for cm_specs cm; (c) node and edge lists are the
   network's and every node has a compartment of cm_comps cm.  It holds after set-up, at the final
   state and on the state every call of the run was entered on. *)
Theorem C07_invariant : forall cm nodes edges init maxtime monitor rs ls ds cs s,
  let tb := mk_table cm nodes edges init maxtime monitor in
  wf_model cm = true -> graph_okb nodes edges = true -> init_ok cm nodes init = true ->
  Steps tb (setup_state tb rs ls ds) cs s ->
  J cm nodes edges s /\ Forall (fun sc => J cm nodes edges (fst sc)) cs.
Proof.
  intros cm nodes edges init maxtime monitor rs ls ds cs s tb Hwf Hg Hi.
  exact (Steps_inv tb (J cm nodes edges) (J_sched cm nodes edges)
           (fun s c Hj _ => J_call cm nodes edges init maxtime monitor s c (wf_model_loci cm Hwf) Hj) _ cs s
           (J_setup cm nodes edges init maxtime monitor rs ls ds (wf_model_loci cm Hwf) Hg Hi)).
Qed.

Theorem C07_invariant_meaning : forall cm nodes edges (s : st cworld), J cm nodes edges s ->
  let st := cw_st (world s) in
  loci s = map ksort (st_loci st) /\ WInv (cm_specs cm) st /\ st_nodes st = nodes /\ st_edges st = edges
  /\ (forall v, In v nodes -> exists c, getc st v = Some c /\ In c (cm_comps cm))
  /\ (single_orientation (cm_specs cm) = true -> Inv (cm_specs cm) st).
Proof.
  intros cm nodes edges s H. destruct H as (H1 & H2 & H3 & H4 & H5). cbv zeta.
  repeat (split; [assumption|]). intros Hs. apply WInv_Inv; assumption.
Qed.

(* at every such point every node has exactly one compartment (getc is a function), one of the
   model's; the sizes results() reports (count_in) are the true counts, over the duplicate-free
   list of the model's compartments they sum to the number of nodes *)
Theorem C07_partition : forall cm nodes edges init maxtime monitor rs ls ds cs s,
  let tb := mk_table cm nodes edges init maxtime monitor in
  wf_model cm = true -> graph_okb nodes edges = true -> init_ok cm nodes init = true ->
  Steps tb (setup_state tb rs ls ds) cs s ->
  let st := cw_st (world s) in
  st_nodes st = nodes /\ st_edges st = edges
  /\ (forall v, In v nodes -> exists c, getc st v = Some c /\ In c (cm_comps cm))
  /\ NoDup (cm_comps cm)
  /\ lsum (map (count_in st) (cm_comps cm)) = length nodes.
Proof.
  intros cm nodes edges init maxtime monitor rs ls ds cs s tb Hwf Hg Hi H.
  exact (partition cm nodes edges s (proj1 (C07_invariant cm nodes edges init maxtime monitor rs ls ds cs s Hwf Hg Hi H))).
Qed.

Theorem C07_count_is_true_count : forall s c,
  count_in s c = length (filter (fun v => match getc s v with Some x => Z.eqb x c | None => false end) (st_nodes s)).
Proof. reflexivity. Qed.

(* every compartment change made by an event function entered from the scheduler (a stochastic or
   per-element event) is an arrow l -> c of the diagram; no other node changes.  (Posted event
   functions: C07_diagram_posted below.) *)
Theorem C07_diagram : forall cm nodes edges init maxtime monitor rs ls ds cs s s1 x t e,
  let tb := mk_table cm nodes edges init maxtime monitor in
  wf_model cm = true -> graph_okb nodes edges = true -> init_ok cm nodes init = true ->
  Steps tb (setup_state tb rs ls ds) cs s -> In (s1, CEv x t e) cs ->
  forall v, getc (cw_st (world (after tb (CEv x t e) s1))) v <> getc (cw_st (world s1)) v ->
  exists l c, getc (cw_st (world s1)) v = Some l /\ getc (cw_st (world (after tb (CEv x t e) s1))) v = Some c
    /\ In (l, c) (diagram cm).
Proof.
  intros cm nodes edges init maxtime monitor rs ls ds cs s s1 x t e tb Hwf Hg Hi H Hin.
  destruct (J_at_call rs ls ds cs s s1 _ (wf_model_loci cm Hwf) Hg Hi H Hin) as [Hj Hok].
  exact (call_diagram s1 x t e Hwf Hj Hok).
Qed.

(* the diagrams of the shipped tables (codes: sorted names) *)
Example C07_diagrams : forall p q r u,
  diagram (sir_cm p q) = [(3, 1); (1, 2)]%Z                      (* S>I>R *)
  /\ diagram (sis_cm p q) = [(1, 2); (2, 1)]%Z                   (* I>S, S>I *)
  /\ diagram (sirs_cm p q r) = [(3, 1); (1, 2); (2, 3)]%Z        (* S>I>R>S *)
  /\ diagram (seir_cm p q r u) = [(4, 1); (1, 2); (2, 3)]%Z      (* S>E>I>R *)
  /\ diagram (opinion_cm p q) = [(1, 2); (2, 3)]%Z               (* G>P>T *)
  /\ diagram (sir_fr_cm p q) = [(3, 1); (1, 2)]%Z                (* S>I, posted I>R *)
  /\ diagram (sis_fr_cm p q) = [(2, 1); (1, 2)]%Z.               (* S>I, posted I>S *)
Proof. intros. repeat split; vm_compute; reflexivity. Qed.

Example C07_compartments : forall p q r u,
  cm_comps (sir_cm p q) = [3; 1; 2]%Z /\ cm_comps (sis_cm p q) = [2; 1]%Z /\ cm_comps (sirs_cm p q r) = [1; 2; 3]%Z
  /\ cm_comps (seir_cm p q r u) = [4; 1; 2; 3]%Z /\ cm_comps (opinion_cm p q) = [1; 2; 3]%Z
  /\ cm_comps (sir_fr_cm p q) = [3; 1; 2]%Z /\ cm_comps (sis_fr_cm p q) = [1; 2]%Z.
Proof. intros. repeat split; vm_compute; reflexivity. Qed.

(* at the call of an edge event function (infect, affect, stifle) the element (n, m) is an edge of
   the network, n is in the left compartment of the locus and m in (one of) its right
   compartment(s), on the state the call is entered on *)
Theorem C07_through_infectious_edge : forall cm nodes edges init maxtime monitor rs ls ds cs s s1 t e j cev c mark post,
  let tb := mk_table cm nodes edges init maxtime monitor in
  wf_model cm = true -> graph_okb nodes edges = true -> init_ok cm nodes init = true ->
  Steps tb (setup_state tb rs ls ds) cs s -> In (s1, CEv (mpi monitor, j, mk_ev j cev) t e) cs ->
  nth_error (cm_events cm) j = Some cev -> ce_kind cev = HLeft c mark post ->
  let sp := nth (ce_locus cev) (cm_specs cm) default_spec in
  exists n m, e = EE n m /\ (In (n, m) edges \/ In (m, n) edges)
    /\ getc (cw_st (world s1)) n = Some (locus_left sp) /\ right_ok sp (cw_st (world s1)) m.
Proof.
  intros cm nodes edges init maxtime monitor rs ls ds cs s s1 t e j cev c mark post tb Hwf Hg Hi H Hin En Ek.
  destruct (J_at_call rs ls ds cs s s1 _ (wf_model_loci cm Hwf) Hg Hi H Hin) as [Hj Hok].
  exact (through_infectious_edge cm nodes edges init maxtime monitor s1 _ t e Hwf Hj Hok j cev c mark post eq_refl En Ek).
Qed.

(* every stochastic call of a run is on event j of the model, for some j *)
Theorem C07_event_of_call : forall cm nodes edges init maxtime monitor pi j ev,
  In (pi, j, ev) (all_events (mk_table cm nodes edges init maxtime monitor)) <->
  pi = mpi monitor /\ exists cev, nth_error (cm_events cm) j = Some cev /\ ev = mk_ev j cev.
Proof. intros. apply all_events_mk. Qed.

(* the infection event function entered at time t on (n, m) posts, with T >= 0, a fresh live one-shot
   entry for node n with the (node) removal program k due at Qred (t + T), and records
   OPosted id (t + T) (so C04 applies to it: Properties/C04.v, C04_posted_fate_stoch/_sync) *)
Theorem C07_fixed_recovery_posts : forall cm nodes edges init maxtime monitor rs ls ds cs s s1 t e j cev c mark T k n m,
  let tb := mk_table cm nodes edges init maxtime monitor in
  wf_model cm = true -> graph_okb nodes edges = true -> init_ok cm nodes init = true ->
  Steps tb (setup_state tb rs ls ds) cs s -> In (s1, CEv (mpi monitor, j, mk_ev j cev) t e) cs ->
  nth_error (cm_events cm) j = Some cev -> ce_kind cev = HLeft c mark (Some (T, k)) -> e = EE n m ->
  let s' := after tb (CEv (mpi monitor, j, mk_ev j cev) t e) s1 in
  let y := {| e_time := Qred (t + T); e_id := nextid s1; e_live := true; e_proc := mpi monitor;
              e_elem := EN n; e_prog := k; e_rep := None |} in
  (0 <= T)%Q /\ posted_node_prog cm k = true /\ queue s' = y :: queue s1 /\ nextid s' = S (nextid s1)
  /\ exists l, out s' = OTap t (mpi monitor) (NEv (mpi monitor) j) e :: OPosted (nextid s1) (Qred (t + T)) :: l ++ out s1.
Proof.
  intros cm nodes edges init maxtime monitor rs ls ds cs s s1 t e j cev c mark T k n m tb Hwf Hg Hi H Hin En Ek Ee.
  destruct (J_at_call rs ls ds cs s s1 _ (wf_model_loci cm Hwf) Hg Hi H Hin) as [Hj Hok].
  subst e. exact (fixed_recovery_posts s1 t j cev c mark T k n m Hwf Hj Hok En Ek).
Qed.

(* [fixed_ok cm]: no stochastic event moves a node out of a compartment from which a posted event
   function takes it (trivially true when nothing is posted).  For such tables and networks whose
   node list has no repetition the run invariant extends to the queue (G = J, posted entries sit on
   nodes, ids are distinct, FQ: a pending posted node program HNode c' for node n => it is one-shot
   and n is in some l with l -> c' a posted arrow of the diagram, FU: at most one such entry per node) *)
Theorem C07_fixed_invariant : forall cm nodes edges init maxtime monitor rs ls ds cs s,
  let tb := mk_table cm nodes edges init maxtime monitor in
  wf_model cm = true -> fixed_ok cm = true -> graph_okb nodes edges = true -> init_ok cm nodes init = true -> NoDup nodes ->
  Steps tb (setup_state tb rs ls ds) cs s ->
  G cm nodes edges s /\ Forall (fun sc => G cm nodes edges (fst sc)) cs.
Proof.
  intros cm nodes edges init maxtime monitor rs ls ds cs s tb Hwf Hfx Hg Hi Hnd.
  exact (Steps_inv tb (G cm nodes edges) (G_sched cm nodes edges)
           (fun s c Hk Hok => G_call s c Hwf Hfx Hk Hok) _ cs s
           (G_setup cm nodes edges init maxtime monitor rs ls ds Hwf Hg Hi Hnd)).
Qed.

(* C07_diagram for posted event functions: when one fires it moves exactly its own node, along a
   posted arrow of the diagram (I -> R, I -> S for the fixed-recovery variants) *)
Theorem C07_diagram_posted : forall cm nodes edges init maxtime monitor rs ls ds cs s s1 h,
  let tb := mk_table cm nodes edges init maxtime monitor in
  wf_model cm = true -> fixed_ok cm = true -> graph_okb nodes edges = true -> init_ok cm nodes init = true -> NoDup nodes ->
  Steps tb (setup_state tb rs ls ds) cs s -> In (s1, CPost h) cs ->
  forall v, getc (cw_st (world (after tb (CPost h) s1))) v <> getc (cw_st (world s1)) v ->
  exists l c, getc (cw_st (world s1)) v = Some l /\ getc (cw_st (world (after tb (CPost h) s1))) v = Some c
    /\ In (l, c) (posted_arrows cm) /\ In (l, c) (diagram cm) /\ e_elem h = EN v /\ pnode cm (e_prog h) c.
Proof.
  intros cm nodes edges init maxtime monitor rs ls ds cs s s1 h tb Hwf Hfx Hg Hi Hnd H Hin.
  destruct (G_at_call rs ls ds cs s s1 _ Hwf Hfx Hg Hi Hnd H Hin) as [HG Hok].
  exact (posted_diagram s1 h HG Hok).
Qed.

(* a node in such a compartment (I of the fixed-recovery variants) is left alone by every
   stochastic event: only its posted removal takes it out *)
Theorem C07_fixed_recovery_only_exit : forall cm nodes edges init maxtime monitor rs ls ds cs s s1 x t e,
  let tb := mk_table cm nodes edges init maxtime monitor in
  wf_model cm = true -> fixed_ok cm = true -> graph_okb nodes edges = true -> init_ok cm nodes init = true ->
  Steps tb (setup_state tb rs ls ds) cs s -> In (s1, CEv x t e) cs ->
  forall v l, getc (cw_st (world s1)) v = Some l -> (exists c', In (l, c') (posted_arrows cm)) ->
  getc (cw_st (world (after tb (CEv x t e) s1))) v = Some l.
Proof.
  intros cm nodes edges init maxtime monitor rs ls ds cs s s1 x t e tb Hwf Hfx Hg Hi H Hin.
  destruct (J_at_call rs ls ds cs s s1 _ (wf_model_loci cm Hwf) Hg Hi H Hin) as [Hj Hok].
  exact (stochastic_spares_sources s1 x t e Hwf Hfx Hj Hok).
Qed.

(* the whole clause: a node infected at time t (entry y posted) - at every later point of the run,
   either y is still pending and the node has not left the infected compartment(s), or y was fired
   by exactly one later call, a posted call whose handler time is Qred (t + T), and that call moved
   the node (and nothing else) along a posted arrow.  (That a pending entry IS fired when the clock
   passes its time, unless the run ends first, is C04.) *)
Theorem C07_fixed_recovery : forall cm nodes edges init maxtime monitor rs ls ds cs s cs1 s1 j cev t n m cs2 c mark T k,
  let tb := mk_table cm nodes edges init maxtime monitor in
  wf_model cm = true -> fixed_ok cm = true -> graph_okb nodes edges = true -> init_ok cm nodes init = true -> NoDup nodes ->
  Steps tb (setup_state tb rs ls ds) cs s ->
  cs = cs1 ++ (s1, CEv (mpi monitor, j, mk_ev j cev) t (EE n m)) :: cs2 ->
  nth_error (cm_events cm) j = Some cev -> ce_kind cev = HLeft c mark (Some (T, k)) ->
  let y := {| e_time := Qred (t + T); e_id := nextid s1; e_live := true; e_proc := mpi monitor;
              e_elem := EN n; e_prog := k; e_rep := None |} in
  (In y (queue s) /\ forall c', pnode cm k c' -> exists l, getc (cw_st (world s)) n = Some l /\ In (l, c') (posted_arrows cm))
  \/ (exists s2, In (s2, CPost y) cs2 /\ call_time (CPost y) = Qred (t + T)
        /\ (forall s3 h3, In (s3, CPost h3) cs2 -> e_id h3 = e_id y -> s3 = s2 /\ h3 = y)
        /\ forall v, getc (cw_st (world (after tb (CPost y) s2))) v <> getc (cw_st (world s2)) v ->
              v = n /\ exists l c', getc (cw_st (world s2)) n = Some l /\ getc (cw_st (world (after tb (CPost y) s2))) n = Some c'
                /\ In (l, c') (posted_arrows cm) /\ pnode cm k c').
Proof.
  intros cm nodes edges init maxtime monitor rs ls ds cs s cs1 s1 j cev t n m cs2 c mark T k tb Hwf Hfx Hg Hi Hnd H E En Ek y.
  set (cl := CEv (mpi monitor, j, mk_ev j cev) t (EE n m)) in *.
  destruct (Steps_split tb _ cs s H cs1 (s1, cl) cs2 E) as (A & B & C). cbn [fst snd] in A, B, C.
  destruct (C07_fixed_invariant cm nodes edges init maxtime monitor rs ls ds cs1 s1 Hwf Hfx Hg Hi Hnd A) as [G1 _].
  pose proof (G_call s1 cl Hwf Hfx G1 B) as G2.
  destruct (fixed_recovery_posts s1 t j cev c mark T k n m Hwf (G_J G1) B En Ek)
    as (_ & _ & Eq & _). cbv zeta in Eq. fold tb cl y in Eq.
  assert (Hy : In y (queue (after tb cl s1))) by (rewrite Eq; left; reflexivity).
  destruct (entry_fate _ cs2 s y Hwf Hfx C G2 Hy eq_refl) as [Hq|[s2 Hc]].
  - (* still pending: FQ of the invariant at s *)
    left. split; [exact Hq|]. intros c' Hp.
    exact (FQ_node _ s y c' n (G_FQ (G_along _ _ _ Hwf Hfx G2 C)) Hq Hp eq_refl).
  - right. exists s2. split; [exact Hc|]. split; [reflexivity|].
    destruct (in_split _ _ Hc) as [d1 [d2 Ed]].
    destruct (Steps_split tb _ cs2 s C d1 (s2, CPost y) d2 Ed) as (A2 & B2 & C2). cbn [fst snd] in A2, B2, C2.
    split.
    + intros s3 h3 H3 Eid. rewrite Ed in H3. apply in_elt_inv in H3. destruct H3 as [H3|H3]; [inversion H3; split; reflexivity | exfalso].
      exact (posted_at_most_once tb _ cs2 s d1 s2 y d2 C (G_wf G2) Ed s3 h3 H3 Eid).
    + intros v Hv.
      destruct (posted_diagram s2 y (G_along _ _ _ Hwf Hfx G2 A2) B2 v Hv)
        as (l & c' & H1 & H2 & H3 & _ & H5 & H6).
      cbn [e_elem] in H5. inversion H5; subst v. split; [reflexivity|]. exists l, c'. repeat split; assumption.
Qed.

Example C07_fixed_ok_tables : forall p q r u,
  fixed_ok (sir_fr_cm p q) = true /\ fixed_ok (sis_fr_cm p q) = true /\ fixed_ok (sir_cm p q) = true
  /\ fixed_ok (sis_cm p q) = true /\ fixed_ok (sirs_cm p q r) = true /\ fixed_ok (seir_cm p q r u) = true
  /\ fixed_ok (opinion_cm p q) = true
  /\ posted_arrows (sir_fr_cm p q) = [(1, 2); (1, 2)]%Z /\ posted_arrows (sis_fr_cm p q) = [(1, 2); (1, 2)]%Z.
Proof. intros. repeat split; vm_compute; reflexivity. Qed.

(* the Gillespie loop leaves through the branch a = 0 with nothing pending ... *)
Theorem C07_quiescent_exit : forall cm nodes edges init maxtime monitor pf f t ev (s : st cworld),
  let tb := mk_table cm nodes edges init maxtime monitor in
  at_equil tb t s = false -> Qeq_bool (sum_rates s (transitions tb)) 0 = true -> head (queue (discard s)) = None ->
  stoch_loop tb pf (S f) t ev s = (t, ev, discard s) /\ world (discard s) = world s /\ loci (discard s) = loci s.
Proof.
  intros cm nodes edges init maxtime monitor pf f t ev s tb H1 H2 H3.
  split; [|split; reflexivity]. rewrite stoch_loop_S, H1, H2. unfold next_pending_time. rewrite H3. reflexivity.
Qed.

(* ... and then, the probabilities being >= 0, nothing qualifies for any per-element event of
   positive probability: its locus is empty and, by the invariant, so is the set it tracks *)
Theorem C07_quiescent : forall cm nodes edges init maxtime monitor rs ls ds cs s,
  let tb := mk_table cm nodes edges init maxtime monitor in
  wf_model cm = true -> graph_okb nodes edges = true -> init_ok cm nodes init = true ->
  Steps tb (setup_state tb rs ls ds) cs s ->
  (forall ev, In ev (cm_events cm) -> (0 <= ce_p ev)%Q) ->
  Qeq_bool (sum_rates s (transitions tb)) 0 = true ->
  forall cev, In cev (cm_events cm) -> ce_elem cev = true -> (0 < ce_p cev)%Q ->
  let sp := nth (ce_locus cev) (cm_specs cm) default_spec in
  let st := cw_st (world s) in
  truth sp st = []
  /\ (forall l r, sp = EdgeLocus l r -> forall a b, In (a, b) edges \/ In (b, a) edges ->
        ~ (getc st a = Some l /\ getc st b = Some r))                          (* no S-I edge when p_infect > 0 *)
  /\ (forall c, sp = NodeLocus c -> forall v, In v nodes -> getc st v <> Some c). (* no I node when p_remove > 0 *)
Proof.
  intros cm nodes edges init maxtime monitor rs ls ds cs s tb Hwf Hg Hi H Hnn Hz cev Hin Hel Hp. cbv zeta.
  pose proof (proj1 (C07_invariant cm nodes edges init maxtime monitor rs ls ds cs s Hwf Hg Hi H)) as Hj.
  pose proof (quiescent s Hwf Hj Hnn Hz cev Hin Hel Hp) as Hq.
  split; [|split].
  - destruct (truth _ _) as [|x l] eqn:E; [reflexivity|]. exfalso.
    apply (Hq x). apply truth_In. rewrite E. left. reflexivity.
  - intros l r Hsp a b Hab [Ha Hb].
    apply (Hq (E a b)). rewrite Hsp. cbn [truthP qual]. split.
    + unfold adj. apply adjb_spec. rewrite (J_edges Hj). exact Hab.
    + rewrite Ha, Hb. cbn [ceq]. rewrite !Z.eqb_refl. reflexivity.
  - intros c Hsp v Hv Hc.
    apply (Hq (N v)). rewrite Hsp. cbn [truthP]. split; [|exact Hc].
    rewrite (J_nodes Hj). exact Hv.
Qed.

Example C07_wf_tables : forall p q r u,
  wf_model (sir_cm p q) = true /\ wf_model (sis_cm p q) = true /\ wf_model (sirs_cm p q r) = true
  /\ wf_model (seir_cm p q r u) = true /\ wf_model (opinion_cm p q) = true.
Proof. intros. repeat split; vm_compute; reflexivity. Qed.

Example C07_wf_fixed_recovery : forall p T, Qle_bool 0 T = true ->
  wf_model (sir_fr_cm p T) = true /\ wf_model (sis_fr_cm p T) = true.
Proof. intros p T H. unfold wf_model, sir_fr_cm, sis_fr_cm. cbn. rewrite H. split; reflexivity. Qed.

Example C07_tables_orientation : forall p q r u,
  single_orientation (cm_specs (sir_cm p q)) = true /\ single_orientation (cm_specs (seir_cm p q r u)) = true
  /\ single_orientation (cm_specs (opinion_cm p q)) = false.
Proof. intros. repeat split; vm_compute; reflexivity. Qed.

(* SIR (pInfect 1/2, pRemove 1/4) on the path 0 - 1 - 2 with node 0 infected: a Gillespie run to
   quiescence and a synchronous run, by vm_compute through mk_table; the hypotheses of the
   theorems hold, the final state is all-removed, both ends are reached through an I neighbour *)
Open Scope Q_scope.
Definition ex_cm : cmodel := sir_cm (1 # 2) (1 # 4).
Definition ex_tb : table cworld := mk_table ex_cm [0; 1; 2]%Z [(0, 1); (1, 2)]%Z [(0, 1); (1, 3); (2, 3)]%Z 10 None.

Example C07_example_stoch :
  let r := stoch_run ex_tb 50 50 [1#2; 1#4; 1#2; 1#4; 1#2; 3#4; 1#2; 1#2; 1#2; 1#2; 1#2; 1#2; 1#2]
                     [1; 1; 1; 1; 1; 1; 1; 1] [0; 0; 0; 0; 0; 0; 0]%nat in
  wf_model ex_cm = true /\ graph_okb [0; 1; 2]%Z [(0, 1); (1, 2)]%Z = true
  /\ init_ok ex_cm [0; 1; 2]%Z [(0, 1); (1, 3); (2, 3)]%Z = true
  /\ r_stuck r = false /\ r_events r = 5%nat /\ r_time r = 29 # 3
  /\ handlers_of_ex (r_out r) = [(0%nat, 4 # 3, EE 1 0); (0%nat, 7 # 3, EE 2 1); (1%nat, 11 # 3, EN 0); (1%nat, 17 # 3, EN 1); (1%nat, 29 # 3, EN 2)]
  /\ map (getc (cw_st (world (r_final r)))) [0; 1; 2]%Z = [Some 2; Some 2; Some 2]%Z
  /\ map (count_in (cw_st (world (r_final r)))) (cm_comps ex_cm) = [0; 0; 3]%nat
  /\ loci (r_final r) = [[]; []]
  /\ Qeq_bool (sum_rates (r_final r) (transitions ex_tb)) 0 = true.
Proof. cbv zeta. repeat split; vm_compute; reflexivity. Qed.

Example C07_example_sync :
  let r := sync_run ex_tb 50 50 [1#4; 3#4; 1#4; 3#4; 3#4; 1#8; 1#8; 1#8] [] in
  r_stuck r = false /\ r_events r = 5%nat /\ r_time r = 10
  /\ handlers_of_ex (r_out r) = [(0%nat, 1, EE 1 0); (0%nat, 2, EE 2 1); (1%nat, 3, EN 0); (1%nat, 3, EN 1); (1%nat, 3, EN 2)]
  /\ map (getc (cw_st (world (r_final r)))) [0; 1; 2]%Z = [Some 2; Some 2; Some 2]%Z.
Proof. cbv zeta. repeat split; vm_compute; reflexivity. Qed.

(* SIR_FixedRecovery, T = 3/2, same network: the seed 0 is removed at 3/2, node 1 (infected at 1) at
   5/2, node 2 (infected at 2) at 7/2, under both schedulers *)
Example C07_example_fixed_recovery :
  let tb := mk_table (sir_fr_cm 1 (3 # 2)) [0; 1; 2]%Z [(0, 1); (1, 2)]%Z [(0, 1); (1, 3); (2, 3)]%Z 6 None in
  let r := sync_run tb 50 50 [1#2; 1#2; 1#2; 1#2] [] in
  let r' := stoch_run tb 50 50 [1#2; 1#2; 1#2; 1#2; 1#2; 1#2] [1; 1; 1; 1] [0; 0; 0; 0]%nat in
  wf_model (sir_fr_cm 1 (3 # 2)) = true /\ fixed_ok (sir_fr_cm 1 (3 # 2)) = true
  /\ init_ok (sir_fr_cm 1 (3 # 2)) [0; 1; 2]%Z [(0, 1); (1, 3); (2, 3)]%Z = true
  /\ r_stuck r = false /\ handlers_of_ex (r_out r) = [(0%nat, 1, EE 1 0); (0%nat, 2, EE 2 1)]
  /\ posted_of_ex (r_out r) = [(1%nat, 3 # 2, EN 0); (1%nat, 5 # 2, EN 1); (1%nat, 7 # 2, EN 2)]
  /\ r_stuck r' = false /\ handlers_of_ex (r_out r') = [(0%nat, 1, EE 1 0); (0%nat, 2, EE 2 1)]
  /\ posted_of_ex (r_out r') = [(1%nat, 3 # 2, EN 0); (1%nat, 5 # 2, EN 1); (1%nat, 7 # 2, EN 2)]
  /\ map (getc (cw_st (world (r_final r)))) [0; 1; 2]%Z = [Some 2; Some 2; Some 2]%Z.
Proof. cbv zeta. repeat split; vm_compute; reflexivity. Qed.

(* the vaccine gate of SIvR.infect (Model/CompartV.v; co-executed with the implementation by Tie/CompartV.v) *)
From EpyV Require Import Model.CompartV Proofs.KernelBase Proofs.CompartV.

(* a vaccine of efficacy 1 that has taken effect prevents infection, for every value the generator can return *)
Theorem C07_vaccine_full : forall tbl off0 c eff off iN iV t n m kloci w r rest,
  (eff == 1)%Q -> effective w off t n = true -> vw_gate w = r :: rest -> (r < 1)%Q ->
  vhandler tbl off0 (VInfect c eff off iN iV) t (EE n m) kloci w = (pop_gate w, []).
Proof.
  intros tbl off0 c eff off iN iV t n m kloci w r rest He Hv Hg Hr. unfold effective in Hv. cbn [vhandler]. rewrite Hv, Hg.
  assert (E : Qltb eff r = false) by (apply Qltb_false; rewrite He; apply Qlt_le_weak; exact Hr).
  rewrite E. reflexivity.
Qed.

(* a vaccine of efficacy 0 changes nothing: the node is infected exactly as an unvaccinated one
   (same compartment change, same occupied-edge mark), for every generator value r > 0 *)
Theorem C07_vaccine_none : forall tbl off0 c eff off iN iV t n m kloci w,
  (eff == 0)%Q -> (forall r rest, vw_gate w = r :: rest -> (0 < r)%Q) -> (effective w off t n = true -> vw_gate w <> []) ->
  let res := fst (vhandler tbl off0 (VInfect c eff off iN iV) t (EE n m) kloci w) in
  cw_st (vw_base res) = fst (change_compartment tbl (cw_st (vw_base w)) n c) /\
  cw_occ (vw_base res) = mark_occupied (n, m) t (cw_occ (vw_base w)) /\
  cw_hit (vw_base res) = cw_hit (vw_base w).
Proof.
  intros tbl off0 c eff off iN iV t n m kloci w He Hpos Hne. cbn [vhandler]. fold (effective w off t n).
  destruct (effective w off t n) eqn:Hv.
  - destruct (vw_gate w) as [|r rest] eqn:Hg; [exfalso; apply (Hne eq_refl); reflexivity|].
    assert (E : Qltb eff r = true) by (apply Qltb_true; rewrite He; exact (Hpos r rest eq_refl)).
    rewrite E. cbn. repeat split; reflexivity.
  - cbn. repeat split; reflexivity.
Qed.

Theorem C07_vaccine_not_in_effect : forall tbl off0 c eff off iN iV t n m kloci w,
  effective w off t n = false ->
  vhandler tbl off0 (VInfect c eff off iN iV) t (EE n m) kloci w = v_infect tbl off0 c iN t n m kloci w.
Proof. intros tbl off0 c eff off iN iV t n m kloci w Hv. unfold effective in Hv. cbn [vhandler]. rewrite Hv. reflexivity. Qed.

Example C07_vaccine_example :
  let w := {| vw_base := {| cw_st := Loci.setup [EdgeLocus 3 1; NodeLocus 1] [0;1]%Z [(0,1)]%Z [(0,3);(1,1)]%Z; cw_occ := []; cw_hit := [] |};
              vw_vacc := [(0%Z, 0%Q)]; vw_gate := [(1#2)%Q] |} in
  effective w (1#4) 1 0%Z = true /\
  vhandler [EdgeLocus 3 1; NodeLocus 1] 0 (VInfect 1 1 (1#4) 2 3) 1 (EE 0 1) [[EE 0 1]; [EN 1]; []; []] w = (pop_gate w, []) /\
  getc (cw_st (vw_base (fst (vhandler [EdgeLocus 3 1; NodeLocus 1] 0 (VInfect 1 0 (1#4) 2 3) 1 (EE 0 1) [[EE 0 1]; [EN 1]; []; []] w)))) 0%Z = Some 1%Z.
Proof. vm_compute. repeat split; reflexivity. Qed.

(* tie A for the event functions: the programs that harness/evsrc.py regenerates from the Python
   source on every run (Model/EvProg.v) are, as far as compartments, loci and posted events go, the
   event functions `handler h` that the tables above are built from.  The per-run obligation
   `summarise_comp src = Some (comp_part h)` for every registered event function of every shipped
   model is what instantiates this theorem (Generated EvSrc_comp_<model>.v). *)
From EpyV Require Import Model.EvProg Proofs.EvProg.
Theorem C07_event_functions_from_source : forall p cs, summarise_comp p = Some cs ->
  forall h, comp_part h = cs -> h <> HObs ->
  forall tbl off t e kloci w,
    cw_st (fst (interp tbl off p t e kloci w)) = cw_st (fst (handler tbl off h t e kloci w)) /\
    snd (interp tbl off p t e kloci w) = snd (handler tbl off h t e kloci w).
Proof. exact summarise_comp_sound. Qed.

Example C07_event_functions_example :
  summarise_comp (PEdge [SUnpack; SChange 2; SMarkOcc true; SMarkHit true; SUnpack; SSetAttr; SPost (3 # 2) 1%nat])
  = Some (comp_part (HLeft 2 true (Some (3 # 2, 1%nat))))
  /\ summarise_comp (PEdge [SChange 2]) = None                    (* n used before it is bound *)
  /\ summarise_comp (PEdge [SUnpack; SChange 2; SChange 3]) = None (* two compartment changes *)
  /\ summarise_comp (PNode [SChange 3]) = Some (CNode 3).
Proof. repeat split; vm_compute; reflexivity. Qed.

(* the same for SIvR: infect (the vaccine gate: vaccinated, vaccination time + offset < t, rng.random() > efficacy,
   the two plain loci) and remove, regenerated from sivr_model.py on every run (Generated EvSrc_SIvR.v) *)
From EpyV Require Import Model.EvProgV Proofs.EvProgV.
Theorem C07_sivr_event_functions_from_source : forall p k, vsummarise p = Some k ->
  forall tbl off0 t e kloci w, vinterp tbl off0 p t e kloci w = vhandler tbl off0 k t e kloci w.
Proof. exact vsummarise_sound. Qed.

Example C07_sivr_event_functions_example :
  vsummarise (VGated [SUnpack; SSetAttr] (1 # 4) (3 # 4) [SChange 1; SMarkOcc true; SEnter 3%nat] [SChange 1; SMarkOcc true; SEnter 2%nat])
  = Some (VInfect 1 (3 # 4) (1 # 4) 2%nat 3%nat)
  /\ vsummarise (VGated [SUnpack] (1 # 4) (3 # 4) [SChange 1; SMarkOcc true; SEnter 3%nat] [SChange 2; SMarkOcc true; SEnter 2%nat]) = None
  /\ vsummarise (VPlain (PNode [SChange 2; SSetAttr; SLeave 3%nat; SLeave 2%nat])) = Some (VRemove 2 2%nat 3%nat).
Proof. repeat split; vm_compute; reflexivity. Qed.

(* SIR_VariableInfection: whole runs over the state-dependent event table of Model/KernelDyn.v (Model/CompartVI.v,
   co-executed through Tie/CompartVI.v).  VJ is the run invariant of the static-table models (kernel loci = sorted
   handler loci, C01's loci invariant, fixed network, every node in a compartment of the model) applied to the
   variable-infection table; the posted-removal subclass of the harness (vim_seed_post = Some _) is covered by the
   run theorems, what its posted removals do by C07_vi_posted_removal_diagram below.
   Proofs: Proofs/KernelDyn*.v, CompartVI.v; the example table in CompartVIMain.v. *)
From EpyV Require Import Model.KernelDyn Model.CompartVI Proofs.KernelDyn Proofs.KernelDynLoops Proofs.CompartVI
  Proofs.CompartVIMain.

(* the shipped class is [sir_vi pRemove] (Model/CompartVI.v): compartments I = 1, R = 2, S = 3 (the tie's
   coding); loci SI, I; one registered event remove on I; infect = changeCompartment(n, I) + markOccupied
   + markHit.  Tie/CompartVI.v checks on every run that the table read off the live objects is of this form. *)
Theorem C07_vi_table_facts : forall p,
  vi_nopost (sir_vi p) = true /\ wf_loci (vim_specs (sir_vi p)) = true
  /\ vi_arrows (sir_vi p) = [(1, 2); (3, 1)]%Z                     (* I > R, S > I *)
  /\ cm_comps (vi_cm (sir_vi p)) = [3; 2; 1]%Z.
Proof. intros p. repeat split. Qed.

(* C01 / C07 along whole runs.  [VJ s]: the kernel's loci are the sorted loci the handlers keep,
   these satisfy the C01 invariant for the model's table, nodes and edges are the network's, every
   node has a compartment of the model.  It holds on the state every event function is entered on
   and at the end, under either dynamics - also for a subclass whose set-up posts removals
   (vim_seed_post). *)
Theorem C07_vi_runs_stoch : forall vm nodes edges init inf maxtime monitor pf fuel rs ls ds,
  wf_loci (vim_specs vm) = true -> graph_okb nodes edges = true -> init_ok (vi_cm vm) nodes init = true ->
  let D := mk_vitable vm nodes edges init inf maxtime monitor in
  exists cs, DSteps D (fun _ => True) (setup_state (d_tb D) rs ls ds) cs (r_final (dstoch_run D pf fuel rs ls ds))
    /\ VJ vm nodes edges (r_final (dstoch_run D pf fuel rs ls ds)) /\ Forall (fun sc => VJ vm nodes edges (fst sc)) cs.
Proof.
  intros vm nodes edges init inf maxtime monitor pf fuel rs ls ds Hwf Hg Hi. cbv zeta.
  destruct (dstoch_run_reach (mk_vitable vm nodes edges init inf maxtime monitor) pf fuel rs ls ds) as [cs H].
  exists cs. split; [exact H|].
  exact (VJ_dsteps Hwf Hg Hi H).
Qed.

Theorem C07_vi_runs_sync : forall vm nodes edges init inf maxtime monitor pf fuel rs ds,
  wf_loci (vim_specs vm) = true -> graph_okb nodes edges = true -> init_ok (vi_cm vm) nodes init = true ->
  let D := mk_vitable vm nodes edges init inf maxtime monitor in
  exists cs, DSteps D (Xpos) (setup_state (d_tb D) rs [] ds) cs (r_final (dsync_run D pf fuel rs ds))
    /\ VJ vm nodes edges (r_final (dsync_run D pf fuel rs ds)) /\ Forall (fun sc => VJ vm nodes edges (fst sc)) cs.
Proof.
  intros vm nodes edges init inf maxtime monitor pf fuel rs ds Hwf Hg Hi. cbv zeta.
  destruct (dsync_run_dsteps (mk_vitable vm nodes edges init inf maxtime monitor) pf fuel rs ds) as [cs H].
  exists cs. split; [exact H|].
  exact (VJ_dsteps Hwf Hg Hi H).
Qed.

(* C07_partition on such a state: the network is unchanged, every node has exactly one compartment
   of the model, the sizes results() reports sum to |V| *)
Theorem C07_vi_partition : forall vm nodes edges (s : st viworld), VJ vm nodes edges s ->
  let st := cw_st (vi_base (world s)) in
  st_nodes st = nodes /\ st_edges st = edges
  /\ (forall v, In v nodes -> exists c, getc st v = Some c /\ In c (cm_comps (vi_cm vm)))
  /\ NoDup (cm_comps (vi_cm vm))
  /\ lsum (map (count_in st) (cm_comps (vi_cm vm))) = length nodes.
Proof. intros vm nodes edges s. exact (partition (vi_cm vm) nodes edges (proj s)). Qed.

(* C07_diagram: whatever a call of a stochastic / per-element event function or of an appended entry changes
   is an arrow of the model (for sir_vi: S>I, I>R); posted calls of the shipped class change nothing
   (C07_vi_posted_inert) *)
Theorem C07_vi_diagram : forall vm nodes edges init inf maxtime monitor Xtr c (s : st viworld),
  let D := mk_vitable vm nodes edges init inf maxtime monitor in
  VJ vm nodes edges s -> dcall_ok D Xtr c s -> (forall h, c <> DPost h) ->
  forall v, getc (cw_st (vi_base (world (dafter D c s)))) v <> getc (cw_st (vi_base (world s))) v ->
  exists l c', getc (cw_st (vi_base (world s))) v = Some l /\ getc (cw_st (vi_base (world (dafter D c s)))) v = Some c'
    /\ In (l, c') (vi_arrows vm).
Proof. intros vm nodes edges init inf maxtime monitor Xtr c s. exact vi_call_diagram. Qed.

(* the shipped class (no event function posts, set-up posts nothing): along every run only Monitor.observe is
   ever queued, and a posted call changes neither the user state nor the loci *)
Theorem C07_vi_only_observe_queued : forall vm nodes edges init inf maxtime monitor Xtr rs ls ds cs (s : st viworld),
  let D := mk_vitable vm nodes edges init inf maxtime monitor in
  vi_nopost vm = true -> DSteps D Xtr (setup_state (d_tb D) rs ls ds) cs s ->
  qinv (vi_posted vm) s /\ Forall (fun sc => qinv (vi_posted vm) (fst sc)) cs.
Proof.
  intros vm nodes edges init inf maxtime monitor Xtr rs ls ds cs s D Hn H.
  refine (DSteps_inv D Xtr (qinv (vi_posted vm)) _ _ _ cs s _ H).
  - intros s1 s2 Hq Hs. exact (queued_incl (fun k _ => vi_posted vm k) s1 s2 (dsched_queue Hs) Hq).
  - intros s1 c Hq Hok. exact (dafter_qinv D _ (vi_progs_posts vm nodes edges init inf maxtime monitor _ Hn) Xtr c s1 Hok Hq).
  - exact (setup_qinv D _ (vi_setup_posts vm nodes edges init inf maxtime monitor Hn) rs ls ds).
Qed.

Theorem C07_vi_posted_inert : forall vm nodes edges init inf maxtime monitor Xtr h (s : st viworld),
  let D := mk_vitable vm nodes edges init inf maxtime monitor in
  qinv (vi_posted vm) s -> dcall_ok D Xtr (DPost h) s ->
  world (dafter D (DPost h) s) = world s /\ loci (dafter D (DPost h) s) = loci s.
Proof.
  intros vm nodes edges init inf maxtime monitor Xtr h s. cbv zeta. intros Hq [Hh _]. apply head_in in Hh.
  assert (Hp : vi_posted vm (e_prog h)) by (unfold qinv in Hq; rewrite Forall_forall in Hq; exact (Hq h Hh)).
  pose proof (dafter_lw (mk_vitable vm nodes edges init inf maxtime monitor) (DPost h) s) as A. cbn [dcall_args] in A. destruct A as [A1 A2].
  destruct (vi_posted_inert vm nodes edges init inf maxtime monitor _ Hp (e_time h) (e_elem h) (loci s) (world s)) as [I1 I2].
  rewrite A1, A2, I1, I2. split; reflexivity.
Qed.

(* C07_through_infectious_edge for an appended entry: when infect is entered - under either
   dynamics - its element is an edge (n, m) of the network with n susceptible and m infectious at
   that very moment *)
Theorem C07_vi_through_infectious_edge : forall vm nodes edges init inf maxtime monitor Xtr pi d t (s : st viworld) l r,
  let D := mk_vitable vm nodes edges init inf maxtime monitor in
  VJ vm nodes edges s -> dcall_ok D Xtr (DDyn pi d t) s ->
  nth (vim_si vm) (vim_specs vm) default_spec = EdgeLocus l r ->
  exists n m, de_value d = EE n m /\ de_prog d = vi_infect_prog vm /\ pi = vi_mpi monitor
    /\ (In (n, m) edges \/ In (m, n) edges)
    /\ getc (cw_st (vi_base (world s))) n = Some l /\ getc (cw_st (vi_base (world s))) m = Some r.
Proof.
  intros vm nodes edges init inf maxtime monitor Xtr pi d t s l r D Hj ([lc [w Hr]] & Hm & _) Hsp.
  destruct (vi_dyn_shape Hr) as [-> [e [_ ->]]].
  cbn [vi_entry de_prog de_value de_member] in *.
  destruct (sinv_member _ _ _ _ _ _ _ Hj Hm) as [x [-> Ht]]. rewrite Hsp in Ht.
  destruct x as [u|n m]; [destruct Ht|]. exists n, m. split; [reflexivity|]. split; [reflexivity|]. split; [reflexivity|].
  destruct (truthP_edge_facts _ _ n m Ht) as (Ha & Hl & Hrr). cbn [locus_left right_ok] in Hl, Hrr.
  split; [|split; assumption]. apply adjb_spec in Ha. rewrite (VJ_edges Hj) in Ha. exact Ha.
Qed.

(* C05_vi_distribution read with the invariant: on such a state the SI locus the entries are made
   from is strictly ascending and holds exactly the S-I edges of the network *)
Theorem C07_vi_entries_are_SI_edges : forall vm nodes edges (s : st viworld) l r,
  VJ vm nodes edges s -> (vim_si vm < length (vim_specs vm))%nat ->
  nth (vim_si vm) (vim_specs vm) default_spec = EdgeLocus l r -> Z.eqb l r = false ->
  ssorted (nth (vim_si vm) (loci s) []) /\
  forall e, In e (nth (vim_si vm) (loci s) []) <->
    exists n m, e = EE n m /\ (In (n, m) edges \/ In (m, n) edges)
      /\ getc (cw_st (vi_base (world s))) n = Some l /\ getc (cw_st (vi_base (world s))) m = Some r.
Proof. intros vm nodes edges s l r. exact (vi_entries_truth vm nodes edges s l r). Qed.

Example C07_vi_example_hyps :
  vi_nopost (sir_vi (1#4)) = true /\ wf_loci (vim_specs (sir_vi (1#4))) = true
  /\ graph_okb [0; 1; 2]%Z [(0, 1); (1, 2)]%Z = true
  /\ init_ok (vi_cm (sir_vi (1#4))) [0; 1; 2]%Z [(0, 1); (1, 3); (2, 3)]%Z = true
  /\ inf_covers [(0, 1); (1, 2)]%Z (initial_infectivities [(0, 1); (1, 2)]%Z [1#2; 1#4]) = true.
Proof. exact CVI_example_hyps. Qed.

Example C07_vi_example_stoch :
  let r := dstoch_run (ex_vi None) 50 50 [1#2; 1#2; 1#2; 1#2; 1#2; 1#2] [3#8; 3#4; 1] [0%nat] in
  r_out r = [OHandler 1 (1 # 2) (1 # 2) (EE 1 0) (Some true); OTap (1 # 2) 0 (NEv 0 1) (EE 1 0);
             OHandler 0 (3 # 2) (3 # 2) (EN 0) (Some true); OTap (3 # 2) 0 (NEv 0 0) (EN 0);
             OHandler 1 (7 # 2) (7 # 2) (EE 2 1) (Some true); OTap (7 # 2) 0 (NEv 0 1) (EE 2 1)]
  /\ r_time r = 7 # 2 /\ r_events r = 3%nat /\ r_stuck r = false
  /\ loci (r_final r) = [[]; [EN 1; EN 2]]
  /\ draws (r_final r) = []                                        (* exactly one rank was consumed: by the removal *)
  /\ cw_occ (vi_base (world (r_final r))) = [(1, 0, 1 # 2); (2, 1, 7 # 2)]%Z
  /\ Forall unit_rand [1#2; 1#2; 1#2; 1#2; 1#2; 1#2].
Proof. exact CVI_example_stoch. Qed.

Example C07_vi_example_sync :
  let r := dsync_run (ex_vi (Some 1)) 50 50 [1#2; 1#4; 1#8; 7#8; 1#2] [] in
  r_out r = [OPostedRep 0; OHandler 2 0 0 (EN 0) None; OObserve 0 [1%nat; 1%nat]; OTap 0 0 (NPost 2) (EN 0);
             OHandler 2 1 1 (EN 0) None; OObserve 1 [1%nat; 1%nat]; OTap 1 0 (NPost 2) (EN 0);
             OHandler 1 1 1 (EE 1 0) (Some true); OTap 1 1 (NEv 1 1) (EE 1 0);
             OHandler 2 2 2 (EN 0) None; OObserve 2 [1%nat; 2%nat]; OTap 2 0 (NPost 2) (EN 0);
             OHandler 0 2 2 (EN 0) (Some true); OTap 2 1 (NEv 1 0) (EN 0)]
  /\ r_time r = 3 /\ r_events r = 5%nat /\ r_steps r = 2%nat /\ r_stuck r = false
  /\ loci (r_final r) = [[EE 2 1]; [EN 1]].
Proof. exact CVI_example_sync. Qed.

(* SIR_VariableInfection: the infectivities never change, quiescence (the Gillespie loop leaves through
   total rate 0 with nothing pending only when no S-I edge has positive infectivity and, for pRemove > 0, no node is
   infected), the counts of the final state, and the posted-removal subclass: every call, posted ones included,
   moves nodes only along S>I or I>R.  Proofs/CompartVIQuiet.v, CompartVIPost.v; the example in ContactVIMain.v. *)
From EpyV Require Import Model.KernelDyn Model.CompartVI Proofs.CompartRun Proofs.CompartInv Proofs.KernelDyn
  Proofs.KernelDynLoops Proofs.CompartVI Proofs.CompartVIMain Proofs.CompartVIQuiet Proofs.CompartVIPost
  Proofs.ContactVIMain.
From Coq Require Import Lia Lqa.
From EpyV Require Import Lib.Dist.

Theorem C07_vi_infectivity_constant :
  forall (vm : vimodel) (nodes : list Z) (edges init : list (Z * Z)) (inf : list (Z * Z * Q))
           (maxtime : Q) (monitor : option Q) (Xtr : trans viworld -> Prop) (rs ls : list Q) 
           (ds : list nat) (cs : list (st viworld * dcall)) (s : st viworld),
         let D := mk_vitable vm nodes edges init inf maxtime monitor in
         DSteps D Xtr (setup_state (d_tb D) rs ls ds) cs s ->
         vi_inf (world s) = inf /\ Forall (fun sc : st viworld * dcall => vi_inf (world (fst sc)) = inf) cs.
Proof.
  intros vm nodes edges init inf maxtime monitor Xtr rs ls ds cs s D H.
  refine (DSteps_inv D Xtr (inf_const inf) _ _ _ cs s _ H).
  - intros s1 s2 Hc Hs. unfold inf_const. rewrite (dsched_world Hs). exact Hc.
  - intros s1 c Hc _. exact (inf_const_dafter Hc).
  - unfold inf_const, D. rewrite vi_setup_world. reflexivity.
Qed.

(* the exit of the Gillespie loop through a = 0 with nothing pending ... *)
Theorem C07_vi_quiescent_exit :
  forall (vm : vimodel) (nodes : list Z) (edges init : list (Z * Z)) (inf : list (Z * Z * Q))
           (maxtime : Q) (monitor : option Q) (pf f : nat) (t : Q) (ev : nat) (s : st viworld),
         let D := mk_vitable vm nodes edges init inf maxtime monitor in
         KernelMember.at_equil (d_tb D) t s = false ->
         Qeq_bool (dsum_rates s (dtransitions D (loci s) (world s))) 0 = true ->
         head (queue (discard s)) = None -> dstoch_loop D pf (S f) t ev s = (t, ev, discard s).
Proof.
  intros vm nodes edges init inf maxtime monitor pf f t ev s D H1 H2 H3.
  rewrite dstoch_loop_S, H1, H2. unfold next_pending_time. rewrite H3. reflexivity.
Qed.

(* ... happens only when every edge in the SI locus has infectivity 0 and every registered per-element event
   of positive probability has an empty locus *)
Theorem C07_vi_quiescent :
  forall (vm : vimodel) (nodes : list Z) (edges init : list (Z * Z)) (inf : list (Z * Z * Q))
           (maxtime : Q) (monitor : option Q) (s : st viworld),
         let D := mk_vitable vm nodes edges init inf maxtime monitor in
         vi_nonneg vm (world s) ->
         Qeq_bool (dsum_rates s (dtransitions D (loci s) (world s))) 0 = true ->
         (forall e : Kernel.elem, In e (nth (vim_si vm) (loci s) []) -> de_p (vi_entry vm (world s) e) == 0) /\
         (forall cev : cevent,
          In cev (vim_events vm) -> ce_elem cev = true -> 0 < ce_p cev -> locus s (ce_locus cev) = []).
Proof.
  intros vm nodes edges init inf maxtime monitor s D Hnn Hz. apply Qeq_bool_iff in Hz. rewrite dsum_rates_sumf in Hz.
  assert (Hall : forall x, In x (dtransitions D (loci s) (world s)) -> 0 <= drate s x).
  { intros x Hx. apply drate_nonneg. exact (vi_dnonneg Hnn x Hx). }
  pose proof (sumf_zero_inv (drate s) _ Hall Hz) as Hzero. split.
  - intros e He. specialize (Hzero _ (vi_entry_transition vm nodes edges init inf maxtime monitor (loci s) (world s) e He)).
    cbn [drate vi_entry de_member] in Hzero.
    assert (Hmem : mem e (nth (vim_si vm) (loci s) []) = true) by (apply mem_In; exact He).
    rewrite Hmem in Hzero. exact Hzero.
  - intros cev Hin Hel Hp. destruct (In_nth_error _ _ Hin) as [j Ej].
    exact (GillespieRates.rate_zero_empty _ s (vi_mpi monitor, j, mk_ev j cev) Hel Hp
             (Hzero _ (vi_event_transition vm nodes edges init inf maxtime monitor (loci s) (world s) j cev Ej Hel))).
Qed.

(* with the run invariant: no S-I edge of the network with positive infectivity ... *)
Theorem C07_vi_quiescent_no_edge :
  forall (vm : vimodel) (nodes : list Z) (edges init : list (Z * Z)) (inf : list (Z * Z * Q))
           (maxtime : Q) (monitor : option Q) (s : st viworld) (l r : Z),
         let D := mk_vitable vm nodes edges init inf maxtime monitor in
         VJ vm nodes edges s ->
         vi_nonneg vm (world s) ->
         Qeq_bool (dsum_rates s (dtransitions D (loci s) (world s))) 0 = true ->
         (vim_si vm < length (vim_specs vm))%nat ->
         nth (vim_si vm) (vim_specs vm) default_spec = EdgeLocus l r ->
         (l =? r)%Z = false ->
         forall n m : Z,
         In (n, m) edges \/ In (m, n) edges ->
         getc (cw_st (vi_base (world s))) n = Some l ->
         getc (cw_st (vi_base (world s))) m = Some r ->
         forall p : Q, infectivity (vi_inf (world s)) n m = Some p -> p == 0.
Proof.
  intros vm nodes edges init inf maxtime monitor s l r D Hj Hnn Hz Hsi Hsp Hlr n m He Hn Hm p Hp.
  destruct (C07_vi_quiescent vm nodes edges init inf maxtime monitor s Hnn Hz) as [Q1 _].
  destruct (vi_entries_truth vm nodes edges s l r Hj Hsi Hsp Hlr) as [_ Hiff].
  assert (Hin : In (EE n m) (nth (vim_si vm) (loci s) [])) by (apply Hiff; exists n, m; tauto).
  specialize (Q1 _ Hin). cbn [vi_entry de_p] in Q1. rewrite Hp in Q1. exact Q1.
Qed.

(* ... and, when pRemove > 0, no infected node *)
Theorem C07_vi_quiescent_no_node :
  forall (vm : vimodel) (nodes : list Z) (edges init : list (Z * Z)) (inf : list (Z * Z * Q))
           (maxtime : Q) (monitor : option Q) (s : st viworld) (cev : cevent) (c : Z),
         let D := mk_vitable vm nodes edges init inf maxtime monitor in
         VJ vm nodes edges s ->
         vi_nonneg vm (world s) ->
         Qeq_bool (dsum_rates s (dtransitions D (loci s) (world s))) 0 = true ->
         In cev (vim_events vm) ->
         ce_elem cev = true ->
         0 < ce_p cev ->
         (ce_locus cev < length (vim_specs vm))%nat ->
         nth (ce_locus cev) (vim_specs vm) default_spec = NodeLocus c ->
         forall v : Z, In v nodes -> getc (cw_st (vi_base (world s))) v <> Some c.
Proof.
  intros vm nodes edges init inf maxtime monitor s cev c D Hj Hnn Hz Hin Hel Hp Hli Hsp v Hv Hc.
  destruct (C07_vi_quiescent vm nodes edges init inf maxtime monitor s Hnn Hz) as [_ Q2]. specialize (Q2 cev Hin Hel Hp).
  assert (Hm : mem (EN v) (nth (ce_locus cev) (loci s) []) = true).
  { apply (sinv_member_iff vm nodes edges _ _ (ce_locus cev) (EN v) Hj Hli); [rewrite Hsp; reflexivity|].
    exists (N v). split; [reflexivity|]. rewrite Hsp. cbn [truthP]. split; [|exact Hc].
    rewrite (VJ_nodes Hj). exact Hv. }
  unfold locus in Q2. rewrite Q2 in Hm. discriminate.
Qed.

Theorem C07_vi_counts_stoch :
  forall (vm : vimodel) (nodes : list Z) (edges init : list (Z * Z)) (inf : list (Z * Z * Q))
           (maxtime : Q) (monitor : option Q) (pf fuel : nat) (rs ls : list Q) (ds : list nat),
         wf_loci (vim_specs vm) = true ->
         graph_okb nodes edges = true ->
         init_ok (vi_cm vm) nodes init = true ->
         let st :=
           cw_st
             (vi_base
                (world
                   (r_final (dstoch_run (mk_vitable vm nodes edges init inf maxtime monitor) pf fuel rs ls ds))))
           in
         st_nodes st = nodes /\
         (forall v : Z, In v nodes -> exists c : Z, getc st v = Some c /\ In c (cm_comps (vi_cm vm))) /\
         NoDup (cm_comps (vi_cm vm)) /\
         CompartDiagram.lsum (map (count_in st) (cm_comps (vi_cm vm))) = length nodes.
Proof.
  intros vm nodes edges init inf maxtime monitor pf fuel rs ls ds Hwf Hg Hi. cbv zeta.
  destruct (dstoch_run_reach (mk_vitable vm nodes edges init inf maxtime monitor) pf fuel rs ls ds) as [cs H].
  destruct (VJ_dsteps Hwf Hg Hi H) as [Hj _].
  destruct (partition (vi_cm vm) nodes edges (proj _) Hj) as (A & _ & B & C & E). tauto.
Qed.

Theorem C07_vi_counts_sync :
  forall (vm : vimodel) (nodes : list Z) (edges init : list (Z * Z)) (inf : list (Z * Z * Q))
           (maxtime : Q) (monitor : option Q) (pf fuel : nat) (rs : list Q) (ds : list nat),
         wf_loci (vim_specs vm) = true ->
         graph_okb nodes edges = true ->
         init_ok (vi_cm vm) nodes init = true ->
         let st :=
           cw_st
             (vi_base
                (world (r_final (dsync_run (mk_vitable vm nodes edges init inf maxtime monitor) pf fuel rs ds))))
           in
         st_nodes st = nodes /\
         (forall v : Z, In v nodes -> exists c : Z, getc st v = Some c /\ In c (cm_comps (vi_cm vm))) /\
         NoDup (cm_comps (vi_cm vm)) /\
         CompartDiagram.lsum (map (count_in st) (cm_comps (vi_cm vm))) = length nodes.
Proof.
  intros vm nodes edges init inf maxtime monitor pf fuel rs ds Hwf Hg Hi. cbv zeta.
  destruct (dsync_run_dsteps (mk_vitable vm nodes edges init inf maxtime monitor) pf fuel rs ds) as [cs H].
  destruct (VJ_dsteps Hwf Hg Hi H) as [Hj _].
  destruct (partition (vi_cm vm) nodes edges (proj _) Hj) as (A & _ & B & C & E). tauto.
Qed.

(* [sir_vi_gen p (Some T)]: every call of a run - registered event, appended entry, or posted (remove on a seed,
   Monitor.observe) - changes compartments only along S > I (3 > 1) or I > R (1 > 2) *)
Theorem C07_vi_posted_removal_diagram :
  forall (p T : Q) (nodes : list Z) (edges init : list (Z * Z)) (inf : list (Z * Z * Q)) 
           (maxtime : Q) (monitor : option Q) (Xtr : trans viworld -> Prop) (rs ls : list Q) 
           (ds : list nat) (cs : list (st viworld * dcall)) (s : st viworld),
         let D := mk_vitable (sir_vi_gen p (Some T)) nodes edges init inf maxtime monitor in
         graph_okb nodes edges = true ->
         init_ok (vi_cm (sir_vi_gen p (Some T))) nodes init = true ->
         DSteps D Xtr (setup_state (d_tb D) rs ls ds) cs s ->
         forall (s1 : st viworld) (c : dcall),
         In (s1, c) cs ->
         forall v : Z,
         getc (cw_st (vi_base (world (dafter D c s1)))) v <> getc (cw_st (vi_base (world s1))) v ->
         exists l c' : Z,
           getc (cw_st (vi_base (world s1))) v = Some l /\
           getc (cw_st (vi_base (world (dafter D c s1)))) v = Some c' /\ In (l, c') [(1%Z, 2%Z); (3%Z, 1%Z)].
Proof.
  intros p T nodes edges init inf maxtime monitor Xtr rs ls ds cs s D Hg Hi H s1 c Hsc v Hne.
  destruct (DSteps_inv_call D Xtr _ (JP_dsched p T nodes edges init) (fun s2 c2 => JP_dafter p T nodes edges init inf maxtime monitor Xtr c2 s2)
              _ cs s s1 c (JP_setup p T nodes edges init inf maxtime monitor rs ls ds Hg Hi) H Hsc) as [Hjp Hok].
  exact (post_call_diagram p T nodes edges init inf maxtime monitor Xtr c s1 Hjp Hok v Hne).
Qed.

(* the invariant behind it: only Monitor.observe and remove-on-a-seed are ever queued; a seed is infected or removed *)
Theorem C07_vi_posted_removal_inv :
  forall (p T : Q) (nodes : list Z) (edges init : list (Z * Z)) (inf : list (Z * Z * Q)) 
           (maxtime : Q) (monitor : option Q) (Xtr : trans viworld -> Prop) (rs ls : list Q) 
           (ds : list nat) (cs : list (st viworld * dcall)) (s : st viworld),
         let D := mk_vitable (sir_vi_gen p (Some T)) nodes edges init inf maxtime monitor in
         graph_okb nodes edges = true ->
         init_ok (vi_cm (sir_vi_gen p (Some T))) nodes init = true ->
         DSteps D Xtr (setup_state (d_tb D) rs ls ds) cs s ->
         JP p T nodes edges init s /\
         Forall (fun sc : st viworld * dcall => JP p T nodes edges init (fst sc)) cs.
Proof.
  intros p T nodes edges init inf maxtime monitor Xtr rs ls ds cs s D Hg Hi H.
  exact (DSteps_inv D Xtr (JP p T nodes edges init) (JP_dsched p T nodes edges init)
           (fun s1 c Hj Hok => JP_dafter p T nodes edges init inf maxtime monitor Xtr c s1 Hj Hok) _ cs s
           (JP_setup p T nodes edges init inf maxtime monitor rs ls ds Hg Hi) H).
Qed.

Example C07_vi_example_quiescent :
  let D :=
           mk_vitable (sir_vi 1) [0%Z; 1%Z] [(0%Z, 1%Z)] [(0%Z, 1%Z); (1%Z, 3%Z)]
             (initial_infectivities [(0%Z, 1%Z)] [0]) 3 None in
         let r := dstoch_run D 50 50 [1 # 2; 1 # 2; 1 # 2] [1; 1] [0%nat] in
         r_stuck r = false /\
         r_time r = 1 /\
         r_events r = 1%nat /\
         loci (r_final r) = [[]; []] /\
         map (getc (cw_st (vi_base (world (r_final r))))) [0%Z; 1%Z] = [Some 2%Z; Some 3%Z] /\
         Qeq_bool (dsum_rates (r_final r) (dtransitions D (loci (r_final r)) (world (r_final r)))) 0 = true /\
         vi_nonneg (sir_vi 1) (world (r_final r)).
Proof. exact CVI7_example_quiescent. Qed.

