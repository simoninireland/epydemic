(* C08 - occupied edges and hitting times record a consistent contact tree.
   The lemmas are in Proofs/ContactBase.v, ContactForest.v, ContactInv.v, ContactTime.v, ContactSync.v,
   ContactStoch.v, KernelDynTime.v (on top of the C07 development: runs as [Steps], the run invariant [J]).

   The records of Model/Compart.v: [cw_occ] lists the occupied edges as (infected, infector,
   tOccupied) in the order markOccupied set them, [cw_hit] the (node, tHitting) in the order
   markHit set them; both marks are first-only.  [once_model cm]: no event function of the table
   (stochastic or posted) moves a node INTO a compartment that an infection (marking) event takes
   nodes out of, and the infector's compartments are none of those: a node is infected at most
   once.  Holds for SIR, SEIR, SIR_FixedRecovery, Opinion; fails for SIS, SIRS, SIS_FixedRecovery
   (C08_once_tables).  Everything is for every such well-formed table, every network, initial
   assignment, oracle, fuel, both schedulers (every run is a [Steps] sequence: C07_runs_stoch,
   C07_runs_sync).  SIvR is outside C08 (it does not call markHit).  C08_event_functions_from_source
   ties the event functions regenerated from the Python source to the summaries of the tables, marks
   included.  SIR_VariableInfection is covered at the end of this file (C08_vi theorems). *)
From Coq Require Import List ZArith QArith Bool Arith Relations Sorted.
From EpyV Require Import Model.Kernel Model.Loci Model.Compart Proofs.KernelResults Properties.C03 Proofs.CompartRun
  Proofs.CompartInv Proofs.CompartDiagram Proofs.CompartModels Proofs.ContactBase Proofs.ContactForest
  Proofs.ContactInv Proofs.ContactTime Proofs.ContactSync Proofs.KernelDynTime.
Import ListNotations.

(* Forest holds after set-up, at the final state, and on the state every call of the run was
   entered on (as part of K = the C07 run invariant J, "posted events sit on node elements", Forest) *)
Theorem C08_forest_inv : forall cm nodes edges init maxtime monitor rs ls ds cs s,
  let tb := mk_table cm nodes edges init maxtime monitor in
  wf_model cm = true -> once_model cm = true -> graph_okb nodes edges = true -> init_ok cm nodes init = true ->
  Steps tb (setup_state tb rs ls ds) cs s ->
  Forest cm nodes edges init (world s) /\ Forall (fun sc => Forest cm nodes edges init (world (fst sc))) cs.
Proof.
  intros cm nodes edges init maxtime monitor rs ls ds cs s tb Hwf Ho Hg Hi H.
  destruct (K_steps rs ls ds cs s Hwf Ho Hg Hi H) as [A B].
  split; [exact (K_Forest A)|]. eapply Forall_impl; [|exact B]. intros sc Hk. exact (K_Forest Hk).
Qed.

(* preserved by every single call of an event function, whichever scheduler makes it *)
Theorem C08_forest_inv_call : forall cm nodes edges init maxtime monitor (s : st cworld) c,
  let tb := mk_table cm nodes edges init maxtime monitor in
  wf_model cm = true -> once_model cm = true -> K cm nodes edges init s -> call_ok tb c s -> K cm nodes edges init (after tb c s).
Proof. intros cm nodes edges init maxtime monitor s c tb Hwf Ho Hk Hok. exact (K_call cm nodes edges init maxtime monitor s c Hwf Ho Hk Hok). Qed.

Theorem C08_forest_meaning : forall cm nodes edges init w, Forest cm nodes edges init w ->
  let st := cw_st w in let st0 := Loci.setup (cm_specs cm) nodes edges init in
  (forall v c, getc st v = Some c -> In c (sus cm) -> forall x, In x (cw_occ w) -> child x <> v /\ parent x <> v)
  /\ cw_hit w = map (fun x => (child x, snd x)) (cw_occ w)
  /\ (forall x, In x (cw_occ w) -> adjb edges (child x) (parent x) = true)
  /\ forestL (cw_occ w)
  /\ (forall v c, getc st v = Some c -> In c (sus cm) -> getc st0 v = Some c)
  /\ (forall x, In x (cw_occ w) -> exists c, In c (sus cm) /\ getc st0 (child x) = Some c).
Proof. intros cm nodes edges init w H. exact H. Qed.

(* every node with a hitting time has exactly one occupied edge on which it is the infected end,
   and tOccupied of that edge = tHitting of the node; nodes have at most one hitting time *)
Theorem C08_unique_parent : forall cm nodes edges init w n t, Forest cm nodes edges init w -> In (n, t) (cw_hit w) ->
  exists m, In (n, m, t) (cw_occ w) /\ forall m' t', In (n, m', t') (cw_occ w) -> m' = m /\ t' = t.
Proof. intros cm nodes edges init w n t. exact (unique_parent cm nodes edges init w n t). Qed.

Theorem C08_one_hit_per_node : forall cm nodes edges init w, Forest cm nodes edges init w -> NoDup (map fst (cw_hit w)).
Proof. intros cm nodes edges init w. exact (hit_NoDup cm nodes edges init w). Qed.

(* hit nodes are exactly the infected ends of occupied edges; they were susceptible at set-up
   (seeds carry no hitting time); a node that is still susceptible touches no occupied edge *)
Theorem C08_hit_nodes : forall cm nodes edges init w, Forest cm nodes edges init w ->
  (forall n, In n (map fst (cw_hit w)) <-> In n (map child (cw_occ w)))
  /\ (forall n t, In (n, t) (cw_hit w) -> exists c, In c (sus cm) /\ getc (Loci.setup (cm_specs cm) nodes edges init) n = Some c)
  /\ (forall v c, getc (cw_st w) v = Some c -> In c (sus cm) -> forall x, In x (cw_occ w) -> child x <> v /\ parent x <> v).
Proof.
  intros cm nodes edges init w F. split; [intro n; exact (hit_iff_child cm nodes edges init w n F)|].
  split; [intros n t; exact (hit_not_seed cm nodes edges init w n t F) | exact (proj1 F)].
Qed.

(* the edge and the hit were recorded by an infection event function entered from the scheduler on
   that very pair, on a member of its locus, with handler time = clock = the recorded time *)
Theorem C08_event_time : forall cm nodes edges init maxtime monitor rs ls ds cs s n m t,
  let tb := mk_table cm nodes edges init maxtime monitor in
  wf_model cm = true -> once_model cm = true -> graph_okb nodes edges = true -> init_ok cm nodes init = true ->
  Steps tb (setup_state tb rs ls ds) cs s -> In (n, m, t) (cw_occ (world s)) ->
  exists sc x, In sc cs /\ snd sc = CEv x t (EE n m) /\ clock (fst sc) = t /\ call_ok tb (snd sc) (fst sc).
Proof.
  intros cm nodes edges init maxtime monitor rs ls ds cs s n m t tb Hwf Ho Hg Hi H Hin.
  rewrite (occ_is_infections rs ls ds cs s Hwf Ho Hg Hi H) in Hin.
  apply in_flat_map in Hin. destruct Hin as [[s1 c] [Hsc Hx]].
  destruct (K_at_call rs ls ds cs s s1 c Hwf Ho Hg Hi H Hsc) as [Hk Hok].
  unfold infection in Hx. cbn [snd] in Hx. destruct (call_kind cm c) as [h|] eqn:Ek; [|destruct Hx].
  destruct (marks h (snd (call_args c))) as [[n' m']|] eqn:Em; [|destruct Hx]. destruct Hx as [Hx|[]]. injection Hx as E1 E2 E3. subst n' m'.
  destruct (marking_call cm nodes edges init maxtime monitor s1 c h n m Hwf Ho Hk Hok Ek Em) as ((x & Ec) & _).
  assert (Et : clock s1 = t) by (rewrite <- E3, Ec; reflexivity).
  exists (s1, c), x. cbn [fst snd]. split; [exact Hsc|]. split; [rewrite Ec, Et; reflexivity|]. split; [exact Et | exact Hok].
Qed.

(* the occupied edges are exactly the marks of the run, in call order *)
Theorem C08_occupied_are_infections : forall cm nodes edges init maxtime monitor rs ls ds cs s,
  let tb := mk_table cm nodes edges init maxtime monitor in
  wf_model cm = true -> once_model cm = true -> graph_okb nodes edges = true -> init_ok cm nodes init = true ->
  Steps tb (setup_state tb rs ls ds) cs s -> cw_occ (world s) = infections cm cs.
Proof. intros cm nodes edges init maxtime monitor rs ls ds cs s tb. exact (occ_is_infections rs ls ds cs s). Qed.

(* the infector's own occupied edge (if it has one: otherwise it is a root) comes earlier in the record *)
Theorem C08_infector_earlier : forall cm nodes edges init w o1 x o2 t', Forest cm nodes edges init w ->
  cw_occ w = o1 ++ x :: o2 -> In (parent x, t') (cw_hit w) -> exists m', In (parent x, m', t') o1.
Proof. intros cm nodes edges init w o1 x o2 t'. exact (infector_earlier cm nodes edges init w o1 x o2 t'). Qed.

(* whenever the times of the infection calls of the run are R-related in call order, so are the
   hitting times of infector and infected.  R := Qle: never-decreasing call times; R := Qlt: strictly
   increasing ones, which is the case under Gillespie dynamics when every ln(1/r) drawn is > 0. *)
Theorem C08_times_increase : forall (R : Q -> Q -> Prop) cm nodes edges init maxtime monitor rs ls ds cs s,
  let tb := mk_table cm nodes edges init maxtime monitor in
  wf_model cm = true -> once_model cm = true -> graph_okb nodes edges = true -> init_ok cm nodes init = true ->
  Steps tb (setup_state tb rs ls ds) cs s -> StronglySorted R (map snd (infections cm cs)) ->
  forall n m t t', In (n, m, t) (cw_occ (world s)) -> In (m, t') (cw_hit (world s)) -> R t' t.
Proof. intros R cm nodes edges init maxtime monitor rs ls ds cs s tb. exact (times_along_tree R rs ls ds cs s). Qed.

(* with C03: in every run that did not exhaust its fuel or oracle the infector's hitting time is
   not later than the infected node's - both schedulers, hypothesis-free apart from p >= 0, ln >= 0 *)
Theorem C08_times_nondecreasing_stoch : forall cm nodes edges init maxtime monitor pf fuel rs ls ds,
  let tb := mk_table cm nodes edges init maxtime monitor in
  wf_model cm = true -> once_model cm = true -> graph_okb nodes edges = true -> init_ok cm nodes init = true ->
  (forall ev, In ev (cm_events cm) -> (0 <= ce_p ev)%Q) -> Forall (Qle 0) ls ->
  let r := stoch_run tb pf fuel rs ls ds in r_stuck r = false ->
  forall n m t t', In (n, m, t) (cw_occ (world (r_final r))) -> In (m, t') (cw_hit (world (r_final r))) -> (t' <= t)%Q.
Proof.
  intros cm nodes edges init maxtime monitor pf fuel rs ls ds tb Hwf Ho Hg Hi Hnn Hl r Hs.
  apply (times_nondecreasing rs ls ds r Hwf Ho Hg Hi (stoch_run_steps tb pf fuel rs ls ds)).
  - symmetry. exact (proj1 (stoch_fields tb pf fuel rs ls ds)).
  - exact (proj1 (proj2 (C03_monotone_stoch cworld tb pf fuel rs ls ds (nonneg_mk_table cm nodes edges init maxtime monitor Hnn) Hl Hs))).
Qed.

Theorem C08_times_nondecreasing_sync : forall cm nodes edges init maxtime monitor pf fuel rs ds,
  let tb := mk_table cm nodes edges init maxtime monitor in
  wf_model cm = true -> once_model cm = true -> graph_okb nodes edges = true -> init_ok cm nodes init = true ->
  let r := sync_run tb pf fuel rs ds in r_stuck r = false ->
  forall n m t t', In (n, m, t) (cw_occ (world (r_final r))) -> In (m, t') (cw_hit (world (r_final r))) -> (t' <= t)%Q.
Proof.
  intros cm nodes edges init maxtime monitor pf fuel rs ds tb Hwf Ho Hg Hi r Hs.
  apply (times_nondecreasing rs [] ds r Hwf Ho Hg Hi (sync_run_steps tb pf fuel rs ds)).
  - symmetry. exact (proj1 (sync_fields tb pf fuel rs ds)).
  - exact (proj1 (proj2 (C03_monotone_sync cworld tb pf fuel rs ds Hs))).
Qed.

(* STRICTLY later, synchronous dynamics: for every synchronous run whatsoever (any oracle, any
   fuel, stuck or not) - the tranche of a step is drawn before any of its events fires, a selected
   pair (n, m) had m infectious then, a node infected during the step was susceptible then.  This
   covers timesteps in which several infected neighbours are selected to infect the same node and
   chains n <- m, m <- k inside one step (impossible). *)
Theorem C08_times_strict_sync : forall cm nodes edges init maxtime monitor pf fuel rs ds,
  let tb := mk_table cm nodes edges init maxtime monitor in
  wf_model cm = true -> once_model cm = true -> graph_okb nodes edges = true -> init_ok cm nodes init = true ->
  let r := sync_run tb pf fuel rs ds in
  forall n m t t', In (n, m, t) (cw_occ (world (r_final r))) -> In (m, t') (cw_hit (world (r_final r))) -> (t' < t)%Q.
Proof.
  intros cm nodes edges init maxtime monitor pf fuel rs ds tb Hwf Ho Hg Hi. cbv zeta. unfold sync_run.
  destruct (sync_loop tb pf fuel 1 0 0 (setup_state tb rs [] ds)) as [[[t ev] k] s] eqn:E. cbn [r_final].
  refine (proj1 (proj2 (sync_loop_strict Hwf Ho pf fuel 1 0 0 _ t ev k s E
                          (K_setup cm nodes edges init maxtime monitor rs [] ds Hwf Hg Hi) _))).
  unfold HeadInv, strictT. unfold tb. rewrite setup_world. split; [intros ? ? ? ? [] | intros ? ? []].
Qed.

(* STRICTLY later, Gillespie dynamics: probabilities >= 0, every ln(1/r) the oracle serves > 0 (r in
   (0,1)), and a run that did not exhaust its fuel or oracle (once stuck the model loops on default
   values): the loop time never decreases (C03), every hitting time so far is <= it, and the next
   stochastic event comes dt > 0 later *)
Theorem C08_times_strict_stoch : forall cm nodes edges init maxtime monitor pf fuel rs ls ds,
  let tb := mk_table cm nodes edges init maxtime monitor in
  wf_model cm = true -> once_model cm = true -> graph_okb nodes edges = true -> init_ok cm nodes init = true ->
  (forall ev, In ev (cm_events cm) -> (0 <= ce_p ev)%Q) -> Forall (Qlt 0) ls ->
  let r := stoch_run tb pf fuel rs ls ds in r_stuck r = false ->
  forall n m t t', In (n, m, t) (cw_occ (world (r_final r))) -> In (m, t') (cw_hit (world (r_final r))) -> (t' < t)%Q.
Proof.
  intros cm nodes edges init maxtime monitor pf fuel rs ls ds tb Hwf Ho Hg Hi Hnn Hls r Hs.
  destruct (stoch_run_steps tb pf fuel rs ls ds) as [cs H].
  apply (times_by_calls rs ls ds cs _ Hwf Ho Hg Hi H Qlt false).
  exact (stoch_ctimes_strict tb pf (nonneg_mk_table cm nodes edges init maxtime monitor Hnn) fuel rs ls ds cs Hls Hs H).
Qed.

(* the occupied edges, oriented infected -> infector: the infector is unique, no cycle, and every
   infected node is joined to exactly one root - a node that was never marked (its tree's seed) *)
Theorem C08_acyclic : forall cm nodes edges init w, Forest cm nodes edges init w ->
  let P := par (cw_occ w) in
  (forall n m m' t t', In (n, m, t) (cw_occ w) -> In (n, m', t') (cw_occ w) -> m = m' /\ t = t')
  /\ (forall n, ~ clos_trans Z P n n)
  /\ (forall n, In n (map fst (cw_hit w)) -> exists r, clos_refl_trans Z P n r /\ ~ In r (map fst (cw_hit w))).
Proof.
  intros cm nodes edges init w F. pose proof (Forest_list F) as F5. cbv zeta.
  split; [exact (forestL_functional _ F5)|]. split; [exact (forestL_acyclic _ F5)|].
  intros n Hn. apply (hit_iff_child cm nodes edges init w n F) in Hn. destruct (forestL_root _ F5 n Hn) as [r [P R]].
  exists r. split; [exact P|]. intros Hr. apply R. apply (hit_iff_child cm nodes edges init w r F). exact Hr.
Qed.

(* the list form of the same fact: every occupied edge joined a node that no earlier occupied edge
   touches to a different node (pendant-vertex construction of a forest) *)
Theorem C08_forest_list : forall occ, forestL occ <->
  match occ with [] => True | x :: rest => child x <> parent x /\ (forall y, In y rest -> child y <> child x /\ child y <> parent x) /\ forestL rest end.
Proof. intros [|x rest]; reflexivity. Qed.

(* skeletonise() = the full node set with exactly the occupied edges: a network edge is kept iff
   it is an occupied pair in either orientation, and every occupied pair is a kept edge *)
Theorem C08_skeleton : forall cm nodes edges init maxtime monitor rs ls ds cs s,
  let tb := mk_table cm nodes edges init maxtime monitor in
  wf_model cm = true -> once_model cm = true -> graph_okb nodes edges = true -> init_ok cm nodes init = true ->
  Steps tb (setup_state tb rs ls ds) cs s ->
  let w := world s in
  fst (skeleton w) = nodes
  /\ (forall e, In e (snd (skeleton w)) <-> In e edges /\ exists x, In x (cw_occ w) /\ (e = (child x, parent x) \/ e = (parent x, child x)))
  /\ (forall x, In x (cw_occ w) -> In (child x, parent x) (snd (skeleton w)) \/ In (parent x, child x) (snd (skeleton w))).
Proof.
  intros cm nodes edges init maxtime monitor rs ls ds cs s tb Hwf Ho Hg Hi H. cbv zeta.
  destruct (K_steps rs ls ds cs s Hwf Ho Hg Hi H) as [Hk _].
  destruct (skeleton_spec cm nodes edges init maxtime monitor (world s) (K_Forest Hk) (J_edges (K_J Hk))) as (A & B & C).
  split; [rewrite A; exact (J_nodes (K_J Hk)) | split; [exact B | exact C]].
Qed.

(* every table, SIS included: the hitting times are the marks of the run applied first-only, so
   the recorded hitting time of a node is the time of the FIRST infection call on it *)
Theorem C08_sis_first_hit : forall cm nodes edges init maxtime monitor rs ls ds cs s,
  let tb := mk_table cm nodes edges init maxtime monitor in
  Steps tb (setup_state tb rs ls ds) cs s ->
  let marks := map (fun x => (child x, snd x)) (infections cm cs) in
  NoDup (map fst (cw_hit (world s)))
  /\ forall n t, In (n, t) (cw_hit (world s)) <-> exists l1 l2, marks = l1 ++ (n, t) :: l2 /\ ~ In n (map fst l1).
Proof.
  intros cm nodes edges init maxtime monitor rs ls ds cs s tb H. cbv zeta.
  pose proof (hits_first_only _ cs s H) as E.
  assert (E0 : cw_hit (world (setup_state tb rs ls ds)) = []).
  { unfold tb. rewrite setup_world. reflexivity. }
  rewrite E0 in E. fold tb in E. rewrite E. split; [apply first_only_NoDup; constructor|].
  intros n t. rewrite first_only_spec. cbn [In map]. unfold proj_hit. tauto.
Qed.

Example C08_once_tables : forall p q r u,
  once_model (sir_cm p q) = true /\ once_model (seir_cm p q r u) = true /\ once_model (opinion_cm p q) = true
  /\ once_model (sir_fr_cm p q) = true
  /\ once_model (sis_cm p q) = false /\ once_model (sirs_cm p q r) = false /\ once_model (sis_fr_cm p q) = false.
Proof. intros. repeat split; vm_compute; reflexivity. Qed.

Example C08_susceptible_compartments : forall p q r u,
  sus (sir_cm p q) = [3]%Z /\ sus (seir_cm p q r u) = [4; 4]%Z /\ sus (opinion_cm p q) = [1]%Z.
Proof. intros. repeat split; vm_compute; reflexivity. Qed.

(* SIR on the path 0 - 1 - 2, node 0 infected: 0 infects 1, 1 infects 2, under both schedulers *)
Open Scope Q_scope.
Definition ex_cm : cmodel := sir_cm (1 # 2) (1 # 4).
Definition ex_tb : table cworld := mk_table ex_cm [0; 1; 2]%Z [(0, 1); (1, 2)]%Z [(0, 1); (1, 3); (2, 3)]%Z 10 None.

Example C08_example_stoch :
  let r := stoch_run ex_tb 50 50 [1#2; 1#4; 1#2; 1#4; 1#2; 3#4; 1#2; 1#2; 1#2; 1#2; 1#2; 1#2; 1#2]
                     [1; 1; 1; 1; 1; 1; 1; 1] [0; 0; 0; 0; 0; 0; 0]%nat in
  let w := world (r_final r) in
  wf_model ex_cm = true /\ once_model ex_cm = true /\ graph_okb [0; 1; 2]%Z [(0, 1); (1, 2)]%Z = true
  /\ init_ok ex_cm [0; 1; 2]%Z [(0, 1); (1, 3); (2, 3)]%Z = true /\ r_stuck r = false
  /\ cw_occ w = [(1%Z, 0%Z, 4 # 3); (2%Z, 1%Z, 7 # 3)] /\ cw_hit w = [(1%Z, 4 # 3); (2%Z, 7 # 3)]
  /\ skeleton w = ([0; 1; 2], [(0, 1); (1, 2)])%Z.
Proof. cbv zeta. repeat split; vm_compute; reflexivity. Qed.

Example C08_example_sync :
  let r := sync_run ex_tb 50 50 [1#4; 3#4; 1#4; 3#4; 3#4; 1#8; 1#8; 1#8] [] in
  let w := world (r_final r) in
  r_stuck r = false /\ cw_occ w = [(1%Z, 0%Z, 1); (2%Z, 1%Z, 2)] /\ cw_hit w = [(1%Z, 1); (2%Z, 2)]
  /\ skeleton w = ([0; 1; 2], [(0, 1); (1, 2)])%Z.
Proof. cbv zeta. repeat split; vm_compute; reflexivity. Qed.

(* SIS: node 1 is infected at 1, recovers at 2, is infected again at 3: its hitting time stays 1 *)
Example C08_example_sis_first_hit :
  let tb := mk_table (sis_cm 1 1) [0; 1]%Z [(0, 1)]%Z [(0, 1); (1, 2)]%Z 5 None in
  let r := sync_run tb 50 50 [3#2; 1#2; 3#2; 1#2; 3#2; 1#2; 3#2; 3#2] [] in
  r_stuck r = false
  /\ handlers_of_ex (r_out r) = [(1%nat, 1, EE 1 0); (0%nat, 2, EN 1); (1%nat, 3, EE 1 0)]
  /\ cw_hit (world (r_final r)) = [(1%Z, 1)].
Proof. cbv zeta. repeat split; vm_compute; reflexivity. Qed.

(* tie A for the event functions: a program regenerated from the Python source (harness/evsrc.py,
   Model/EvProg.v) whose summary is h IS the event function `handler h` of the tables above, marks
   included: same world, same kernel actions, for every time, element and state.  The per-run
   obligation `summarise src = Some h` (Generated EvSrc_full_<model>.v) instantiates it for every
   registered event function of every shipped model. *)
From EpyV Require Import Model.EvProg Proofs.EvProg.
Theorem C08_event_functions_from_source : forall p h, summarise p = Some h ->
  forall tbl off t e kloci w, interp tbl off p t e kloci w = handler tbl off h t e kloci w.
Proof. exact summarise_sound. Qed.

Example C08_event_functions_example :
  summarise (PEdge [SUnpack; SChange 2; SMarkOcc true; SMarkHit true]) = Some (HLeft 2 true None)
  /\ summarise (PEdge [SUnpack; SChange 2; SMarkOcc true]) = None            (* markHit dropped *)
  /\ summarise (PEdge [SUnpack; SChange 2; SMarkOcc false; SMarkHit true]) = None   (* not first-only *)
  /\ summarise (PEdge [SUnpack; SChange 3]) = Some (HLeft 3 false None)
  /\ summarise (PNode [SSetAttr; SSetAttr]) = Some HNop.
Proof. repeat split; vm_compute; reflexivity. Qed.

(* The contact forest for SIR_VariableInfection (state-dependent event table, Model/KernelDyn.v): every call of
   the dynamic table does to the compartmented part of the world exactly what the corresponding call of the static
   table vi_fcm vm (infect listed as an ordinary event on the SI locus) does, so the invariant Forest and all its
   corollaries above hold for whole VI runs (DSteps), also for the posted-removal subclass.
   Proofs/ContactVI.v, ContactVITime.v; the example table in ContactVIMain.v. *)
From EpyV Require Import Model.KernelDyn Model.CompartVI Proofs.CompartRun Proofs.CompartInv Proofs.ContactBase
  Proofs.ContactInv Proofs.ContactForest Proofs.ContactTime Proofs.KernelDyn Proofs.KernelDynLoops Proofs.CompartVI
  Proofs.ContactVI Proofs.ContactVITime Proofs.ContactVIMain.

Theorem C08_vi_shipped :
  forall p : Q,
         CompartDiagram.wf_model (vi_fcm (sir_vi p)) = true /\
         once_model (vi_fcm (sir_vi p)) = true /\
         sus (vi_fcm (sir_vi p)) = [3%Z] /\
         (forall T : Q,
          0 <= T ->
          CompartDiagram.wf_model (vi_fcm (sir_vi_gen p (Some T))) = true /\
          once_model (vi_fcm (sir_vi_gen p (Some T))) = true).
Proof.
  intros p. split; [reflexivity|]. split; [reflexivity|]. split; [reflexivity|]. intros T HT.
  apply Qle_bool_iff in HT. split; [|reflexivity]. unfold CompartDiagram.wf_model. cbn. rewrite HT. reflexivity.
Qed.

(* the invariant is [Forest] itself, at the table [vi_fcm vm] *)
Theorem C08_vi_forest_is_forest :
  forall (vm : vimodel) (nodes : list Z) (edges init : list (Z * Z)) (w : viworld),
         VForest vm nodes edges init w <-> Forest (vi_fcm vm) nodes edges init (vi_base w).
Proof. intros. reflexivity. Qed.

(* C08_forest_inv: after set-up, at the final state, and on the state every call of the run was entered on: any run
   (a DSteps sequence; every run of either loop is one: C07_vi_runs_stoch, C07_vi_runs_sync) *)
Theorem C08_vi_forest_inv :
  forall (vm : vimodel) (nodes : list Z) (edges init : list (Z * Z)) (inf : list (Z * Z * Q))
           (maxtime : Q) (monitor : option Q) (Xtr : trans viworld -> Prop) (rs ls : list Q) 
           (ds : list nat) (cs : list (st viworld * dcall)) (s : st viworld),
         let D := mk_vitable vm nodes edges init inf maxtime monitor in
         CompartDiagram.wf_model (vi_fcm vm) = true ->
         once_model (vi_fcm vm) = true ->
         graph_okb nodes edges = true ->
         init_ok (vi_fcm vm) nodes init = true ->
         DSteps D Xtr (setup_state (d_tb D) rs ls ds) cs s ->
         VForest vm nodes edges init (world s) /\
         Forall (fun sc : st viworld * dcall => VForest vm nodes edges init (world (fst sc))) cs.
Proof.
  intros vm nodes edges init inf maxtime monitor Xtr rs ls ds cs s D Hwf Ho Hg Hi H.
  destruct (KV_dsteps Hwf Ho Hg Hi H) as [A B].
  split; [exact (KV_VForest A)|]. eapply Forall_impl; [|exact B]. intros sc Hk. exact (KV_VForest Hk).
Qed.

Theorem C08_vi_forest_inv_call :
  forall (vm : vimodel) (nodes : list Z) (edges init : list (Z * Z)) (inf : list (Z * Z * Q))
           (maxtime : Q) (monitor : option Q) (Xtr : trans viworld -> Prop) (s : st viworld) 
           (c : dcall),
         let D := mk_vitable vm nodes edges init inf maxtime monitor in
         CompartDiagram.wf_model (vi_fcm vm) = true ->
         once_model (vi_fcm vm) = true ->
         KV vm nodes edges init s -> dcall_ok D Xtr c s -> KV vm nodes edges init (dafter D c s).
Proof. intros vm nodes edges init inf maxtime monitor Xtr s c D. exact (KV_dafter Xtr s c). Qed.

Theorem C08_vi_forest_final_stoch :
  forall (vm : vimodel) (nodes : list Z) (edges init : list (Z * Z)) (inf : list (Z * Z * Q))
           (maxtime : Q) (monitor : option Q) (pf fuel : nat) (rs ls : list Q) (ds : list nat),
         CompartDiagram.wf_model (vi_fcm vm) = true ->
         once_model (vi_fcm vm) = true ->
         graph_okb nodes edges = true ->
         init_ok (vi_fcm vm) nodes init = true ->
         VForest vm nodes edges init
           (world (r_final (dstoch_run (mk_vitable vm nodes edges init inf maxtime monitor) pf fuel rs ls ds))).
Proof.
  intros vm nodes edges init inf maxtime monitor pf fuel rs ls ds Hwf Ho Hg Hi.
  destruct (dstoch_run_reach (mk_vitable vm nodes edges init inf maxtime monitor) pf fuel rs ls ds) as [cs H].
  exact (proj1 (C08_vi_forest_inv vm nodes edges init inf maxtime monitor _ rs ls ds cs _ Hwf Ho Hg Hi H)).
Qed.

Theorem C08_vi_forest_final_sync :
  forall (vm : vimodel) (nodes : list Z) (edges init : list (Z * Z)) (inf : list (Z * Z * Q))
           (maxtime : Q) (monitor : option Q) (pf fuel : nat) (rs : list Q) (ds : list nat),
         CompartDiagram.wf_model (vi_fcm vm) = true ->
         once_model (vi_fcm vm) = true ->
         graph_okb nodes edges = true ->
         init_ok (vi_fcm vm) nodes init = true ->
         VForest vm nodes edges init
           (world (r_final (dsync_run (mk_vitable vm nodes edges init inf maxtime monitor) pf fuel rs ds))).
Proof.
  intros vm nodes edges init inf maxtime monitor pf fuel rs ds Hwf Ho Hg Hi.
  destruct (dsync_run_dsteps (mk_vitable vm nodes edges init inf maxtime monitor) pf fuel rs ds) as [cs H].
  exact (proj1 (C08_vi_forest_inv vm nodes edges init inf maxtime monitor _ rs [] ds cs _ Hwf Ho Hg Hi H)).
Qed.

Theorem C08_vi_unique_parent :
  forall (vm : vimodel) (nodes : list Z) (edges init : list (Z * Z)) (w : viworld) (n : Z) (t : Q),
         VForest vm nodes edges init w ->
         In (n, t) (cw_hit (vi_base w)) ->
         exists m : Z,
           In (n, m, t) (cw_occ (vi_base w)) /\
           (forall (m' : Z) (t' : Q), In (n, m', t') (cw_occ (vi_base w)) -> m' = m /\ t' = t).
Proof. intros vm nodes edges init w n t. exact (unique_parent (vi_fcm vm) nodes edges init (vi_base w) n t). Qed.

Theorem C08_vi_one_hit_per_node :
  forall (vm : vimodel) (nodes : list Z) (edges init : list (Z * Z)) (w : viworld),
         VForest vm nodes edges init w -> NoDup (map fst (cw_hit (vi_base w))).
Proof. intros vm nodes edges init w. exact (hit_NoDup (vi_fcm vm) nodes edges init (vi_base w)). Qed.

Theorem C08_vi_hit_nodes :
  forall (vm : vimodel) (nodes : list Z) (edges init : list (Z * Z)) (w : viworld),
         VForest vm nodes edges init w ->
         (forall n : Z, In n (map fst (cw_hit (vi_base w))) <-> In n (map child (cw_occ (vi_base w)))) /\
         (forall (n : Z) (t : Q),
          In (n, t) (cw_hit (vi_base w)) ->
          exists c : Z, In c (sus (vi_fcm vm)) /\ getc (setup (vim_specs vm) nodes edges init) n = Some c) /\
         (forall v c : Z,
          getc (cw_st (vi_base w)) v = Some c ->
          In c (sus (vi_fcm vm)) ->
          forall x : Z * Z * Q, In x (cw_occ (vi_base w)) -> child x <> v /\ parent x <> v).
Proof.
  intros vm nodes edges init w. exact (C08_hit_nodes (vi_fcm vm) nodes edges init (vi_base w)).
Qed.

Theorem C08_vi_acyclic :
  forall (vm : vimodel) (nodes : list Z) (edges init : list (Z * Z)) (w : viworld),
         VForest vm nodes edges init w ->
         let P := par (cw_occ (vi_base w)) in
         (forall (n m m' : Z) (t t' : Q),
          In (n, m, t) (cw_occ (vi_base w)) -> In (n, m', t') (cw_occ (vi_base w)) -> m = m' /\ t = t') /\
         (forall n : Z, ~ clos_trans Z P n n) /\
         (forall n : Z,
          In n (map fst (cw_hit (vi_base w))) ->
          exists r : Z, clos_refl_trans Z P n r /\ ~ In r (map fst (cw_hit (vi_base w)))) /\
         forestL (cw_occ (vi_base w)).
Proof.
  intros vm nodes edges init w F. destruct (C08_acyclic (vi_fcm vm) nodes edges init (vi_base w) F) as (A & B & C).
  exact (conj A (conj B (conj C (Forest_list F)))).
Qed.

(* skeletonise() = the full node set with exactly the occupied edges *)
Theorem C08_vi_skeleton :
  forall (vm : vimodel) (nodes : list Z) (edges init : list (Z * Z)) (inf : list (Z * Z * Q))
           (maxtime : Q) (monitor : option Q) (Xtr : trans viworld -> Prop) (rs ls : list Q) 
           (ds : list nat) (cs : list (st viworld * dcall)) (s : st viworld),
         let D := mk_vitable vm nodes edges init inf maxtime monitor in
         CompartDiagram.wf_model (vi_fcm vm) = true ->
         once_model (vi_fcm vm) = true ->
         graph_okb nodes edges = true ->
         init_ok (vi_fcm vm) nodes init = true ->
         DSteps D Xtr (setup_state (d_tb D) rs ls ds) cs s ->
         let w := vi_base (world s) in
         fst (skeleton w) = nodes /\
         (forall e : Z * Z,
          In e (snd (skeleton w)) <->
          In e edges /\
          (exists x : Z * Z * Q, In x (cw_occ w) /\ (e = (child x, parent x) \/ e = (parent x, child x)))) /\
         (forall x : Z * Z * Q,
          In x (cw_occ w) ->
          In (child x, parent x) (snd (skeleton w)) \/ In (parent x, child x) (snd (skeleton w))).
Proof.
  intros vm nodes edges init inf maxtime monitor Xtr rs ls ds cs s D Hwf Ho Hg Hi H. cbv zeta.
  destruct (KV_dsteps Hwf Ho Hg Hi H) as [Hk _].
  destruct (skeleton_spec (vi_fcm vm) nodes edges init maxtime monitor (vi_base (world s)) (KV_VForest Hk) (VJ_edges (KV_VJ Hk))) as (A & B & C).
  split; [rewrite A; exact (VJ_nodes (KV_VJ Hk)) | split; [exact B | exact C]].
Qed.

(* the occupied edges are exactly what the marking calls of the run recorded, in order *)
Theorem C08_vi_occupied_are_infections :
  forall (vm : vimodel) (nodes : list Z) (edges init : list (Z * Z)) (inf : list (Z * Z * Q))
           (maxtime : Q) (monitor : option Q) (Xtr : trans viworld -> Prop) (rs ls : list Q) 
           (ds : list nat) (cs : list (st viworld * dcall)) (s : st viworld),
         let D := mk_vitable vm nodes edges init inf maxtime monitor in
         CompartDiagram.wf_model (vi_fcm vm) = true ->
         once_model (vi_fcm vm) = true ->
         graph_okb nodes edges = true ->
         init_ok (vi_fcm vm) nodes init = true ->
         DSteps D Xtr (setup_state (d_tb D) rs ls ds) cs s -> cw_occ (vi_base (world s)) = vinfections vm cs.
Proof.
  intros vm nodes edges init inf maxtime monitor Xtr rs ls ds cs s D Hwf Ho Hg Hi H. induction H as [|cs s s' H IH Hs|cs s c H IH Hok].
  - unfold D. rewrite vi_setup_world. reflexivity.
  - rewrite (dsched_world Hs). exact IH.
  - destruct (KV_dsteps Hwf Ho Hg Hi H) as [Hk _].
    unfold vinfections. rewrite flat_map_app. fold (vinfections vm cs). rewrite <- IH. cbn [flat_map]. rewrite app_nil_r.
    exact (vcall_occ Hwf Ho Hk Hok).
Qed.

(* every occupied edge (n, m, t) - and with it the hitting time t of n - was recorded by an event function
   entered from the scheduler (never a posted one) on that very pair, on a state whose clock was t, on a
   member of its locus: event time = tOccupied = tHitting *)
Theorem C08_vi_event_time :
  forall (vm : vimodel) (nodes : list Z) (edges init : list (Z * Z)) (inf : list (Z * Z * Q))
           (maxtime : Q) (monitor : option Q) (Xtr : trans viworld -> Prop) (rs ls : list Q) 
           (ds : list nat) (cs : list (st viworld * dcall)) (s : st viworld) (n m : Z) 
           (t : Q),
         let D := mk_vitable vm nodes edges init inf maxtime monitor in
         CompartDiagram.wf_model (vi_fcm vm) = true ->
         once_model (vi_fcm vm) = true ->
         graph_okb nodes edges = true ->
         init_ok (vi_fcm vm) nodes init = true ->
         DSteps D Xtr (setup_state (d_tb D) rs ls ds) cs s ->
         In (n, m, t) (cw_occ (vi_base (world s))) ->
         exists sc : st viworld * dcall,
           In sc cs /\
           (forall hh : entry, snd sc <> DPost hh) /\
           snd (fst (dcall_args (snd sc))) = t /\
           snd (dcall_args (snd sc)) = EE n m /\ clock (fst sc) = t /\ dcall_ok D Xtr (snd sc) (fst sc).
Proof.
  intros vm nodes edges init inf maxtime monitor Xtr rs ls ds cs s n m t D Hwf Ho Hg Hi H Hin.
  rewrite (C08_vi_occupied_are_infections vm nodes edges init inf maxtime monitor Xtr rs ls ds cs s Hwf Ho Hg Hi H) in Hin.
  unfold vinfections in Hin. apply in_flat_map in Hin. destruct Hin as [[s1 c] [Hsc Hx]].
  destruct (DSteps_inv_call D Xtr _ (KV_dsched vm nodes edges init) (fun s2 c2 => KV_dafter Xtr s2 c2 Hwf Ho)
              _ cs s s1 c (KV_setup rs ls ds Hwf Hg Hi) H Hsc) as [Hk Hok].
  unfold vinfection in Hx. cbn [snd] in Hx. destruct (dcall_kind vm c) as [h|] eqn:Ek; [|destruct Hx].
  destruct (marks h (snd (dcall_args c))) as [[n' m']|] eqn:Em; [|destruct Hx]. destruct Hx as [Hx|[]]. injection Hx as E1 E2 E3. subst n' m'.
  destruct (vmarking_call Hwf Ho Hk Hok Ek Em) as (Hnp & Et & Ee & _).
  exists (s1, c). cbn [fst snd]. split; [exact Hsc|]. split; [exact Hnp|]. split; [exact E3|]. split; [exact Ee|].
  split; [rewrite <- Et; exact E3 | exact Hok].
Qed.

Theorem C08_vi_times_increase :
  forall (R : Q -> Q -> Prop) (vm : vimodel) (nodes : list Z) (edges init : list (Z * Z))
           (inf : list (Z * Z * Q)) (maxtime : Q) (monitor : option Q) (Xtr : trans viworld -> Prop)
           (rs ls : list Q) (ds : list nat) (cs : list (st viworld * dcall)) (s : st viworld),
         let D := mk_vitable vm nodes edges init inf maxtime monitor in
         CompartDiagram.wf_model (vi_fcm vm) = true ->
         once_model (vi_fcm vm) = true ->
         graph_okb nodes edges = true ->
         init_ok (vi_fcm vm) nodes init = true ->
         DSteps D Xtr (setup_state (d_tb D) rs ls ds) cs s ->
         StronglySorted R (map snd (vinfections vm cs)) ->
         forall (n m : Z) (t t' : Q),
         In (n, m, t) (cw_occ (vi_base (world s))) -> In (m, t') (cw_hit (vi_base (world s))) -> R t' t.
Proof.
  intros R vm nodes edges init inf maxtime monitor Xtr rs ls ds cs s D Hwf Ho Hg Hi H Hs.
  rewrite <- (C08_vi_occupied_are_infections vm nodes edges init inf maxtime monitor Xtr rs ls ds cs s Hwf Ho Hg Hi H) in Hs.
  exact (Forest_times (vi_fcm vm) nodes edges init R (vi_base (world s)) (KV_VForest (proj1 (KV_dsteps Hwf Ho Hg Hi H))) Hs).
Qed.

(* STRICTLY later, synchronous dynamics: every synchronous run whatsoever (any oracle, any fuel, stuck or not) *)
Theorem C08_vi_times_strict_sync :
  forall (vm : vimodel) (nodes : list Z) (edges init : list (Z * Z)) (inf : list (Z * Z * Q))
           (maxtime : Q) (monitor : option Q) (pf fuel : nat) (rs : list Q) (ds : list nat),
         CompartDiagram.wf_model (vi_fcm vm) = true ->
         once_model (vi_fcm vm) = true ->
         graph_okb nodes edges = true ->
         init_ok (vi_fcm vm) nodes init = true ->
         let w :=
           vi_base
             (world (r_final (dsync_run (mk_vitable vm nodes edges init inf maxtime monitor) pf fuel rs ds)))
           in
         forall (n m : Z) (t t' : Q), In (n, m, t) (cw_occ w) -> In (m, t') (cw_hit w) -> t' < t.
Proof.
  intros vm nodes edges init inf maxtime monitor pf fuel rs ds Hwf Ho Hg Hi.
  exact (vstrict_sync vm nodes edges init inf maxtime monitor Hwf Ho pf fuel rs ds Hg Hi).
Qed.

(* STRICTLY later, Gillespie dynamics: probabilities and infectivities >= 0, every ln(1/r) served > 0, and a run
   that did not exhaust its fuel or oracle *)
Theorem C08_vi_times_strict_stoch :
  forall (vm : vimodel) (nodes : list Z) (edges init : list (Z * Z)) (inf : list (Z * Z * Q))
           (maxtime : Q) (monitor : option Q) (pf fuel : nat) (rs ls : list Q) (ds : list nat),
         CompartDiagram.wf_model (vi_fcm vm) = true ->
         once_model (vi_fcm vm) = true ->
         graph_okb nodes edges = true ->
         init_ok (vi_fcm vm) nodes init = true ->
         (forall ev : cevent, In ev (vim_events vm) -> 0 <= ce_p ev) ->
         (forall x : Z * Z * Q, In x inf -> 0 <= snd x) ->
         Forall (Qlt 0) ls ->
         let r := dstoch_run (mk_vitable vm nodes edges init inf maxtime monitor) pf fuel rs ls ds in
         r_stuck r = false ->
         forall (n m : Z) (t t' : Q),
         In (n, m, t) (cw_occ (vi_base (world (r_final r)))) ->
         In (m, t') (cw_hit (vi_base (world (r_final r)))) -> t' < t.
Proof.
  intros vm nodes edges init inf maxtime monitor pf fuel rs ls ds Hwf Ho Hg Hi Hp Hq Hls. cbv zeta. intros Hs.
  destruct (dstoch_run_reach (mk_vitable vm nodes edges init inf maxtime monitor) pf fuel rs ls ds) as [cs H].
  apply (C08_vi_times_increase Qlt vm nodes edges init inf maxtime monitor _ rs ls ds cs _ Hwf Ho Hg Hi H).
  apply (vinfection_times_sorted vm nodes edges init inf maxtime monitor Hwf Ho Qlt _ rs ls ds cs _ Hg Hi H).
  exact (vstoch_ctimes_strict vm nodes edges init inf maxtime monitor _ pf fuel rs ls ds cs Hp Hq Hls Hs H).
Qed.

Example C08_vi_example_hyps :
  CompartDiagram.wf_model (vi_fcm (sir_vi (1 # 4))) = true /\
         once_model (vi_fcm (sir_vi (1 # 4))) = true /\
         graph_okb [0%Z; 1%Z; 2%Z] [(0%Z, 1%Z); (1%Z, 2%Z)] = true /\
         init_ok (vi_fcm (sir_vi (1 # 4))) [0%Z; 1%Z; 2%Z] [(0%Z, 1%Z); (1%Z, 3%Z); (2%Z, 3%Z)] = true.
Proof. exact CVI8_example_hyps. Qed.

Example C08_vi_example_stoch :
  let r :=
           dstoch_run (ex8 None) 50 50 [1 # 2; 1 # 2; 1 # 2; 1 # 2; 1 # 2; 1 # 2; 1 # 2; 1 # 2]
             [3 # 8; 3 # 4; 1; 3] [0%nat; 0%nat] in
         let w := vi_base (world (r_final r)) in
         r_stuck r = false /\
         cw_occ w = [(1%Z, 0%Z, 1 # 2); (2%Z, 1%Z, 7 # 2)] /\
         cw_hit w = [(1%Z, 1 # 2); (2%Z, 7 # 2)] /\
         skeleton w = ([0%Z; 1%Z; 2%Z], [(0%Z, 1%Z); (1%Z, 2%Z)]) /\ Forall (Qlt 0) [3 # 8; 3 # 4; 1; 3].
Proof. exact CVI8_example_stoch. Qed.

Example C08_vi_example_sync :
  let r :=
           dsync_run (ex8 None) 50 50
             [1 # 2; 1 # 4; 1 # 2; 1 # 2; 1 # 8; 1 # 2; 1 # 2; 1 # 2; 1 # 2; 1 # 2; 1 # 2; 1 # 2; 1 # 2] [] in
         let w := vi_base (world (r_final r)) in
         r_stuck r = false /\
         cw_occ w = [(1%Z, 0%Z, 1); (2%Z, 1%Z, 2)] /\
         cw_hit w = [(1%Z, 1); (2%Z, 2)] /\ skeleton w = ([0%Z; 1%Z; 2%Z], [(0%Z, 1%Z); (1%Z, 2%Z)]).
Proof. exact CVI8_example_sync. Qed.

