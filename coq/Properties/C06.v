(* C06 - synchronous dynamics applies independent per-element trials each timestep.
   The lemmas the proofs rest on are in Proofs/KernelSync.v, Proofs/Binomial.v, Proofs/KernelSyncLaw.v
   and Proofs/KernelSyncLawAll.v; what only one statement needs is proved under it.
   For every world type W, every table (arbitrary user programs), every oracle, every fuel.
   Level note: the probability laws are about [trial p] = {true: p, false: 1-p}; that a uniform
   variate r satisfies r <= p with probability p is the (unproved) reading of the oracle. *)
From Coq Require Import List ZArith QArith Bool Arith Lia.
From EpyV Require Import Lib.Prelude Lib.Lists Model.Kernel Model.Compart Proofs.KernelMember Proofs.KernelSync Proofs.Binomial Proofs.KernelSyncLaw Proofs.KernelSyncLawAll.
Import ListNotations.
Open Scope Q_scope.

(* allEventsInTimestep equals an explicit function of the loci at the call and of the two
   oracle streams (spec_tranche: per-element events in registration order, then fixed-rate
   events), and consumes exactly tranche_rands variates and tranche_draws ranks, nothing else
   of the state changing ([advance]; an exhausted stream reads 0 and sets stuck). *)
Theorem C06_tranche_char : forall W (tb : table W) (s : st W),
  tranche tb s =
  (spec_tranche tb (loci s) (rands s) (draws s),
   advance (tranche_rands tb (loci s)) 0 (tranche_draws tb (loci s) (rands s) (draws s)) s).
Proof. exact (@tranche_spec). Qed.

(* the specification unfolded, so that it can be read here *)
Theorem C06_spec_unfold : forall W (tb : table W) lc rs ds,
  spec_tranche tb lc rs ds =
    spec_elem lc (per_element tb) rs ++
    spec_fixed lc (fixed_rate tb) (skipn (count_elem lc (per_element tb)) rs) ds /\
  tranche_rands tb lc = (count_elem lc (per_element tb) + count_fixed lc (fixed_rate tb))%nat /\
  tranche_draws tb lc rs ds =
    length (spec_fixed lc (fixed_rate tb) (skipn (count_elem lc (per_element tb)) rs) ds) /\
  (forall x evs rs', spec_elem lc (x :: evs) rs' =
     spec_trials x (ev_p (snd x)) (block lc x) rs' ++ spec_elem lc evs (skipn (length (block lc x)) rs')) /\
  (forall x evs, count_elem lc (x :: evs) = (length (block lc x) + count_elem lc evs)%nat) /\
  (forall x, block lc x = if active lc x then lookup lc x else []) /\
  (forall x, active lc x = true <-> lookup lc x <> [] /\ 0 < ev_p (snd x)) /\
  (forall evs, count_fixed lc evs = length (filter (active lc) evs)).
Proof.
  intros W tb lc rs ds.
  split; [reflexivity|]. split; [reflexivity|]. split; [reflexivity|]. split; [reflexivity|].
  split; [reflexivity|]. split; [reflexivity|]. split; [exact (active_true lc) | reflexivity].
Qed.

(* per-element event x with probability p on elements els (the locus at the start of the step,
   ascending): one variate per element in order, and exactly those with r <= p are selected *)
Theorem C06_trials_filter : forall x p els rs, (length els <= length rs)%nat ->
  spec_trials x p els rs =
  map (fun er => (x, fst er)) (filter (fun er => Qle_bool (snd er) p) (combine els rs)).
Proof.
  intros x p. induction els as [|e els IH]; intros rs H; [reflexivity|].
  destruct rs as [|r rs]; [simpl in H; lia|].
  cbn [spec_trials hd tl combine filter snd]. rewrite (IH rs) by (simpl in H; lia).
  destruct (Qle_bool r p); reflexivity.
Qed.

Theorem C06_trials_model : forall W p x els (s : st W),
  trials p x els s = (spec_trials x p els (rands s), advance (length els) 0 0 s).
Proof. exact (@trials_spec). Qed.

(* fixed-rate events: one variate per active event; iff r <= p, one rank selecting a member *)
Theorem C06_fixed_step : forall lc x evs rs ds,
  spec_fixed lc (x :: evs) rs ds =
  if active lc x then
    if Qle_bool (hd 0 rs) (ev_p (snd x))
    then (x, nth (hd 0%nat ds mod length (lookup lc x)) (lookup lc x) (EN 0)) :: spec_fixed lc evs (tl rs) (tl ds)
    else spec_fixed lc evs (tl rs) ds
  else spec_fixed lc evs rs ds.
Proof. reflexivity. Qed.

(* at most one firing per fixed-rate event per step: the selected events are a subsequence of
   the registered fixed-rate events *)
Theorem C06_fixed_at_most_once : forall lc evs rs ds,
  subseq (map fst (spec_fixed lc evs rs ds)) evs /\ (length (spec_fixed lc evs rs ds) <= length evs)%nat.
Proof.
  intros lc evs rs ds. assert (H : subseq (map fst (spec_fixed lc evs rs ds)) evs).
  { revert rs ds. induction evs as [|x evs IH]; intros rs ds; [constructor|].
    cbn [spec_fixed]. destruct (active lc x); [|apply sub_skip, IH].
    destruct (Qle_bool (hd 0 rs) (ev_p (snd x))); [cbn [map fst]; apply sub_take, IH | apply sub_skip, IH]. }
  split; [exact H|]. rewrite <- (map_length fst). exact (subseq_length _ _ _ H).
Qed.

(* in the loop: the tranche of a step is the specification applied to the state left by the
   posted events of that step *)
Theorem C06_step_tranche : forall W (tb : table W) pf t (s : st W),
  sync_step tb pf t s =
  let s1 := snd (run_pending tb pf t 0 (set_clock t s)) in
  let n := fst (run_pending tb pf t 0 (set_clock t s)) in
  fire_tranche tb t (spec_tranche tb (loci s1) (rands s1) (draws s1)) n
    (advance (tranche_rands tb (loci s1)) 0 (tranche_draws tb (loci s1) (rands s1) (draws s1)) (set_clock t s1)).
Proof. exact (@sync_step_eq). Qed.

Theorem C06_loop_step : forall W (tb : table W) pf f t events steps (s : st W),
  sync_loop tb pf (S f) t events steps s =
  if at_equil tb t s then (t, events, steps, s)
  else let '(nev, s3) := sync_step tb pf t s in
       sync_loop tb pf f (Qred (t + 1)) (events + nev) (if (0 <? nev)%nat then S steps else steps) s3.
Proof. exact (@sync_loop_S). Qed.

(* A synchronous run is the set-up records followed by a sequence of steps; step k (from 0) has
   time k+1; within a step the records of the posted events due by then (posted_rec t: posted
   handlers and their taps with times <= t) all come before the records of the tranche
   (tranche_rec t: handlers entered at time t with clock t on members, taps at t of registered
   events with positive probability).  The reported time is 1 + the number of executed steps,
   the event count is the number of handlers entered, and a run that is not stuck ended because
   atEquilibrium held. *)
Theorem C06_run_structure : forall W (tb : table W) pf fuel rs ds, exists steps,
  let r := sync_run tb pf fuel rs ds in
  r_out r = rev (out (setup_state tb rs [] ds)) ++ flat steps /\
  steps_ok tb 1 steps /\
  r_time r = inject_Z (Z.of_nat (S (length steps))) /\
  r_events r = total_events steps /\
  r_steps r = busy_steps steps /\
  (r_stuck r = false -> at_equil tb (r_time r) (r_final r) = true).
Proof. exact (@sync_run_spec). Qed.

Theorem C06_steps_unfold : forall W (tb : table W) t ti lp lt rest,
  (steps_ok tb t ((ti, lp, lt) :: rest) <->
   ti = t /\ Qle_bool (t_maxtime tb) t = false /\
   Forall (posted_rec t) lp /\ Forall (tranche_rec tb t) lt /\ steps_ok tb (Qred (t + 1)) rest) /\
  flat ((ti, lp, lt) :: rest) = (lp ++ lt) ++ flat rest.
Proof. intros. split; [reflexivity | reflexivity]. Qed.

Theorem C06_clock : forall W (tb : table W) steps k x, steps_ok tb 1 steps -> nth_error steps k = Some x ->
  fst (fst x) = inject_Z (Z.of_nat (S k)) /\
  Forall (posted_rec (inject_Z (Z.of_nat (S k)))) (snd (fst x)) /\
  Forall (tranche_rec tb (inject_Z (Z.of_nat (S k)))) (snd x).
Proof.
  intros W tb steps k x H E. destruct (steps_ok_nth tb steps 1 k x H E) as (H1 & _ & H3 & H4).
  assert (T : time_after 1 k = inject_Z (Z.of_nat (S k))).
  { change 1 with (inject_Z 1). rewrite time_after_inject. f_equal. rewrite Nat2Z.inj_succ. apply Z.add_1_l. }
  rewrite T in *. split; [exact H1 | split; assumption].
Qed.

(* the successive step times are 1, 2, 3, ... exactly (no rounding in the model) *)
Theorem C06_clock_times : forall n z, time_after (inject_Z z) n = inject_Z (z + Z.of_nat n).
Proof. exact time_after_inject. Qed.

(* one step: posted events first (lp is older than lt; out is newest first), counts add up *)
Theorem C06_posted_first : forall W (tb : table W) pf t (s : st W), exists lp lt,
  out (snd (sync_step tb pf t s)) = lt ++ lp ++ out s /\
  Forall (posted_rec t) lp /\ Forall (tranche_rec tb t) lt /\
  fst (sync_step tb pf t s) = (nposted lp + nfired lt)%nat.
Proof. exact (@sync_step_records). Qed.

(* number of successes of n independent trials of probability p *)
Theorem C06_binomial : forall n p k,
  prob (Nat.eqb k) (successes n p) == qn (binom n k) * qpow p k * qpow (1 - p) (n - k).
Proof. exact binomial_law. Qed.

(* Pascal's numbers are n! / (k! (n-k)!) *)
Theorem C06_binom_fact : forall n k, (k <= n)%nat -> (binom n k * (fact k * fact (n - k)) = fact n)%nat.
Proof.
  induction n as [|n IH]; intros k H.
  - assert (k = 0%nat) by lia; subst. reflexivity.
  - destruct k as [|k]; [cbn [binom]; rewrite Nat.sub_0_r; cbn [fact]; lia|].
    cbn [binom]. destruct (Nat.eq_dec k n) as [->|Hne].
    + rewrite binom_diag, (binom_gt n (S n)) by lia. replace (S n - S n)%nat with 0%nat by lia.
      change (fact 0) with 1%nat. ring.
    + assert (H1 := IH k ltac:(lia)). assert (H2 := IH (S k) ltac:(lia)).
      remember (n - S k)%nat as m eqn:Em.
      replace (S n - S k)%nat with (S m) by lia. replace (n - k)%nat with (S m) in H1 by lia.
      change (fact (S n)) with (S n * fact n)%nat.
      replace (S n * fact n)%nat with (S k * fact n + S m * fact n)%nat
        by (replace (S n) with (S k + S m)%nat by lia; ring).
      rewrite <- H1 at 1. rewrite <- H2.
      change (fact (S m)) with (S m * fact m)%nat. change (fact (S k)) with (S k * fact k)%nat. ring.
Qed.

(* an isolated element, one trial per step: first selected at step k *)
Theorem C06_geometric : forall n p k, (1 <= k <= n)%nat ->
  prob (is_some_k k) (first_success n p) == qpow (1 - p) (k - 1) * p.
Proof.
  induction n as [|n IH]; intros p k H; [lia|].
  cbn [first_success]. rewrite prob_bind_trial, prob_ret, prob_bind_ret.
  destruct k as [|k]; [lia|].
  rewrite (prob_ext _ _ (is_some_k k)) by (intros [j|]; reflexivity).
  destruct k as [|k].
  - rewrite first_success_not_0. cbn [is_some_k Nat.eqb Nat.sub qpow]. ring.
  - rewrite IH by lia. cbn [is_some_k Nat.eqb]. replace (S (S k) - 1)%nat with (S (S k - 1)) by lia. cbn [qpow]. ring.
Qed.

Theorem C06_geometric_never : forall n p,
  prob (fun r => match r with None => true | Some _ => false end) (first_success n p) == qpow (1 - p) n.
Proof.
  induction n as [|n IH]; intros p.
  - cbn [first_success qpow]. rewrite prob_ret. reflexivity.
  - cbn [first_success]. rewrite prob_bind_trial, prob_ret, prob_bind_ret.
    rewrite (prob_ext _ _ (fun r => match r with None => true | Some _ => false end)) by (intros [j|]; reflexivity).
    rewrite IH. cbn [qpow]. ring.
Qed.

(* connection to the model: the selection depends on each variate only through [r <= p], picks the
   elements at the successful positions, and selects as many as there are successes; with the
   outcomes distributed as independent trials the number selected from a locus of size n is
   binomial(n, p) *)
Theorem C06_trials_outcomes : forall x p els rs,
  spec_trials x p els rs = map (pair x) (pick (outcomes p (length els) rs) els) /\
  length (spec_trials x p els rs) = ntrue (outcomes p (length els) rs).
Proof.
  intros. split; [apply spec_trials_pick|].
  rewrite spec_trials_pick, map_length, pick_length; [reflexivity | apply outcomes_length].
Qed.

Theorem C06_selected_binomial : forall (x : xev) p els k,
  prob (fun sel => Nat.eqb k (length sel)) (selected_dist x p els) ==
  qn (binom (length els) k) * qpow p k * qpow (1 - p) (length els - k).
Proof. intros. exact (selected_binomial xev x p els k). Qed.

(* locus 0 = {1,2,3} with a per-element event of probability 1/2; locus 1 = {7,8} with a
   fixed-rate event of probability 1/4; a posted event due at 3/2 *)
Definition ex_tb : table unit :=
  {| t_maxtime := 3; t_loci := [(0%nat, [EN 1; EN 2; EN 3]); (0%nat, [EN 7; EN 8])];
     t_procs := [{| p_events := [ {| ev_elem := true; ev_locus := 0; ev_p := 1#2; ev_prog := 0 |};
                                  {| ev_elem := false; ev_locus := 1; ev_p := 1#4; ev_prog := 1 |} ];
                    p_setup := [APost (3#2) 2%nat] |}];
     t_progs := [static []; static []; static [AObserve]];
     t_world := tt; t_equil := fun _ _ => false |}.

(* trial values 1/4, 3/4, 1/2 against p = 1/2 select 1 and 3 (r = p counts); then 1/4 <= 1/4
   fires the fixed-rate event on the member of rank 3 mod 2.  In step 2 the posted event runs
   before the (empty) tranche. *)
Example C06_example :
  let ev0 := {| ev_elem := true; ev_locus := 0; ev_p := 1#2; ev_prog := 0 |} in
  let ev1 := {| ev_elem := false; ev_locus := 1; ev_p := 1#4; ev_prog := 1 |} in
  fst (tranche ex_tb (setup_state ex_tb [1#4; 3#4; 1#2; 1#4] [] [3%nat])) =
    [(0%nat, 0%nat, ev0, EN 1); (0%nat, 0%nat, ev0, EN 3); (0%nat, 1%nat, ev1, EN 8)] /\
  let r := sync_run ex_tb 10 10 [1#4; 3#4; 1#2; 1#4; 1; 1; 1; 1] [3%nat] in
  r_out r = [OPosted 0 (3 # 2); OHandler 0 1 1 (EN 1) (Some true);
             OTap 1 0 (NEv 0 0) (EN 1); OHandler 0 1 1 (EN 3) (Some true);
             OTap 1 0 (NEv 0 0) (EN 3); OHandler 1 1 1 (EN 8) (Some true);
             OTap 1 0 (NEv 0 1) (EN 8); OHandler 2 (3 # 2) (3 # 2) (EN 0) None;
             OObserve (3 # 2) [3%nat; 2%nat]; OTap (3 # 2) 0 (NPost 2) (EN 0)] /\
  r_time r = 3 /\ r_events r = 4%nat /\ r_steps r = 2%nat /\ r_stuck r = false.
Proof. cbv zeta. repeat split; vm_compute; reflexivity. Qed.

Example C06_example_laws :
  prob (Nat.eqb 2) (successes 3 (1#3)) == 2 # 9 /\
  qn (binom 3 2) * qpow (1#3) 2 * qpow (1 - (1#3)) (3 - 2) == 2 # 9 /\
  prob (is_some_k 3) (first_success 5 (1#3)) == 4 # 27.
Proof. repeat split; vm_compute; reflexivity. Qed.

(* step_dist: the variates a timestep consumes are replaced by every pattern of outcomes of
   independent trials (success = variate 0, failure = variate 2), each trial with the probability of
   the event it belongs to, and pushed through tranche and fire_tranche. *)
Theorem C06_step_dist_unfold : forall W (tb : table W) A t (s : st W) (view : st W -> A),
  step_dist tb t s view =
  bind (patterns (trial_probs tb (loci s)))
       (fun m => ret (view (snd (tranche_step tb t 0 (with_rands (rands_of m) s))))) /\
  (fixed_rate tb = [] -> length (trial_probs tb (loci s)) = tranche_rands tb (loci s)).
Proof. intros. split; [reflexivity | exact (trial_probs_all tb (loci s))]. Qed.

(* tranche_step is the timestep of the model after its posted events *)
Theorem C06_step_is_tranche_step : forall W (tb : table W) pf t (s : st W),
  sync_step tb pf t s =
  tranche_step tb t (fst (run_pending tb pf t 0 (set_clock t s))) (set_clock t (snd (run_pending tb pf t 0 (set_clock t s)))).
Proof. exact (@sync_step_tranche_step). Qed.

(* The special case of C06_step_law_elements below: for a table with a single per-element event and no
   fixed-rate event, what a timestep selects is distributed as the image of one independent
   Bernoulli(p) trial per element of the locus, hence its size is binomial. *)
Theorem C06_step_law_partial : forall W (tb : table W) (s : st W) x,
  per_element tb = [x] -> fixed_rate tb = [] -> active (loci s) x = true ->
  0 <= ev_p (snd x) -> ev_p (snd x) < 2 ->
  (forall P, prob P (select_dist tb s) == prob P (selected_dist x (ev_p (snd x)) (lookup (loci s) x))) /\
  (forall k, prob (fun sel => Nat.eqb k (length sel)) (select_dist tb s) ==
             qn (binom (length (lookup (loci s) x)) k) * qpow (ev_p (snd x)) k *
             qpow (1 - ev_p (snd x)) (length (lookup (loci s) x) - k)).
Proof.
  intros W tb s x Hpe Hfr Ha H0 H2. split.
  - exact (select_dist_single tb s x Hpe Hfr Ha H0 H2).
  - exact (select_count_binomial tb s x Hpe Hfr Ha H0 H2).
Qed.

(* non-vacuity of C06_step_law_partial: one event with p = 1/2 on a locus of three elements *)
Definition ex_single : table unit :=
  {| t_maxtime := 2; t_loci := [(0%nat, [EN 1; EN 2; EN 3])];
     t_procs := [{| p_events := [ {| ev_elem := true; ev_locus := 0; ev_p := 1#2; ev_prog := 0 |} ]; p_setup := [] |}];
     t_progs := [static []]; t_world := tt; t_equil := fun _ _ => false |}.

Example C06_step_law_partial_example :
  let s := setup_state ex_single [] [] [] in
  let x := (0%nat, 0%nat, {| ev_elem := true; ev_locus := 0; ev_p := 1#2; ev_prog := 0 |}) in
  per_element ex_single = [x] /\ fixed_rate ex_single = [] /\ active (loci s) x = true /\
  prob (fun sel => Nat.eqb 2 (length sel)) (select_dist ex_single s) == 3 # 8.
Proof. cbv zeta. repeat split; vm_compute; reflexivity. Qed.

(* The full statement.  select_dist_full scripts the whole oracle of a timestep's selection: one
   independent trial per element per per-element event (in the order the variates are consumed), then
   the fixed-rate part call by call (fixed_script: one trial per active event and, on success, a rank
   uniform over the locus as it is).  For EVERY table - any number of per-element and fixed-rate events
   on any loci, arbitrary user programs - the selection is distributed as the product law: the
   independent per-event selections (each element of the locus kept iff its own Bernoulli(p) trial
   succeeds) concatenated in registration order, followed by the independent fixed-rate events, each at
   most once with its probability on a uniformly drawn element.  Probabilities in [0, 2) (the scripted
   success value 0 and failure value 2 then decide every comparison r <= p as intended). *)
Theorem C06_step_law : forall W (tb : table W) (s : st W),
  probs_ok (per_element tb) -> probs_ok (fixed_rate tb) ->
  forall P, prob P (select_dist_full tb s) ==
            prob P (bind (selected_all (loci s) (per_element tb))
                         (fun a => bind (fixed_all (loci s) (fixed_rate tb)) (fun b => ret (a ++ b)))).
Proof. exact (@select_dist_full_law). Qed.

(* the definitions, unfolded so that they can be read here *)
Theorem C06_step_law_unfold : forall W (tb : table W) (s : st W) lc x evs,
  select_dist_full tb s =
    bind (patterns (probs_of (loci s) (per_element tb))) (fun m =>
      bind (fixed_script (loci s) (fixed_rate tb)) (fun md =>
        ret (fst (tranche tb (set_oracle (rands_of (m ++ fst md)) (lns s) (snd md) s))))) /\
  probs_of lc (x :: evs) = repeat (ev_p (snd x)) (length (block lc x)) ++ probs_of lc evs /\
  selected_all lc (x :: evs) =
    bind (selected_dist x (ev_p (snd x)) (block lc x)) (fun a => bind (selected_all lc evs) (fun b => ret (a ++ b))) /\
  fixed_all lc (x :: evs) =
    (if active lc x then
       bind (trial (ev_p (snd x))) (fun b : bool =>
         if b then bind (uniform (length (lookup lc x))) (fun k =>
                   bind (fixed_all lc evs) (fun r => ret ((x, nth k (lookup lc x) (EN 0)) :: r)))
         else fixed_all lc evs)
     else fixed_all lc evs) /\
  (forall els p, selected_dist x p els = bind (masks (length els) p) (fun m => ret (map (pair x) (pick m els)))) /\
  (forall n, uniform n = map (fun k => (k, 1 / qn n)) (seq 0 n)) /\
  (probs_ok evs <-> forall y, In y evs -> 0 <= ev_p (snd y) /\ ev_p (snd y) < 2).
Proof. intros. do 6 (split; [reflexivity|]). split; intros H; exact H. Qed.

(* without fixed-rate events (all shipped compartmented models) the law of select_dist *)
Theorem C06_step_law_elements : forall W (tb : table W) (s : st W),
  fixed_rate tb = [] -> probs_ok (per_element tb) ->
  forall P, prob P (select_dist tb s) == prob P (selected_all (loci s) (per_element tb)).
Proof.
  intros W tb s Hfr Hok P. unfold select_dist.
  rewrite <- (spec_elem_law (loci s) (per_element tb) Hok P).
  rewrite !prob_bind_ret. apply prob_ext_In. intros m q _. f_equal.
  rewrite tranche_spec. cbn [fst]. unfold spec_tranche. rewrite Hfr.
  cbn [spec_fixed with_rands set_oracle loci rands]. rewrite app_nil_r. reflexivity.
Qed.

(* ... and the STATE after the tranche of the step: the image of that product law under the deterministic firing of the
   selected events in order, with the membership re-check (fire_tranche), started in the state in which the oracle of the
   selection is used up and everything else is as it was.  So the one-step law of any model is the product law of
   independent trials pushed through its own event functions - for every table, every network, every start state. *)
Theorem C06_step_after_law : forall W (tb : table W) A (t : Q) (s : st W) (view : st W -> A),
  probs_ok (per_element tb) -> probs_ok (fixed_rate tb) ->
  forall P, prob P (step_dist_full tb t s view) ==
            prob (fun sel => P (view (snd (fire_tranche tb t sel 0 (after_selection s)))))
                 (bind (selected_all (loci s) (per_element tb))
                       (fun a => bind (fixed_all (loci s) (fixed_rate tb)) (fun b => ret (a ++ b)))).
Proof.
  intros W tb A t s view Hpe Hfr P.
  rewrite <- (select_dist_full_law tb s Hpe Hfr (fun sel => P (view (snd (fire_tranche tb t sel 0 (after_selection s)))))).
  unfold step_dist_full, select_dist_full.
  rewrite <- (prob_bind2_map _ _ _ _ P (fun sel => view (snd (fire_tranche tb t sel 0 (after_selection s))))
               (patterns (probs_of (loci s) (per_element tb))) (fixed_script (loci s) (fixed_rate tb))
               (fun m md => fst (tranche tb (set_oracle (rands_of (m ++ fst md)) (lns s) (snd md) s)))).
  apply prob_bind_ext. intros m qm Hm. apply prob_bind_ext. intros md qd Hmd.
  rewrite !prob_ret. unfold tranche_step.
  pose proof (tranche_state tb s m qm md qd Hfr Hm Hmd) as Hs.
  destruct (tranche tb (set_oracle (rands_of (m ++ fst md)) (lns s) (snd md) s)) as [evs s2].
  cbn [fst snd] in *. rewrite Hs. reflexivity.
Qed.

Theorem C06_step_after_law_unfold : forall W (tb : table W) A (t : Q) (s : st W) (view : st W -> A),
  step_dist_full tb t s view =
    bind (patterns (probs_of (loci s) (per_element tb))) (fun m =>
      bind (fixed_script (loci s) (fixed_rate tb)) (fun md =>
        ret (view (snd (tranche_step tb t 0 (set_oracle (rands_of (m ++ fst md)) (lns s) (snd md) s)))))) /\
  after_selection s = set_oracle [] (lns s) [] s /\
  (forall n s', tranche_step tb t n s' = let '(evs, s2) := tranche tb s' in fire_tranche tb t evs n s2).
Proof. intros. repeat split. Qed.

(* consequences of the product law.  For an event that eqx singles out, wherever it stands among any
   other events: the number of its elements selected in one step is binomial(|locus|, p) ... *)
Theorem C06_count_binomial : forall eqx lc evs1 x evs2 k,
  eqx x = true -> (forall y, In y (evs1 ++ evs2) -> eqx y = false) ->
  prob (fun sel => Nat.eqb k (count_for eqx sel)) (selected_all lc (evs1 ++ x :: evs2)) ==
  qn (binom (length (block lc x)) k) * qpow (ev_p (snd x)) k * qpow (1 - ev_p (snd x)) (length (block lc x) - k).
Proof. exact selected_all_count. Qed.

(* ... and an active fixed-rate event selects an element with feature Q with probability
   p * #{such elements of its locus} / |locus|: it happens with probability p, on a uniform element *)
Theorem C06_fixed_rate_law : forall eqx Q lc f1 x f2,
  eqx x = true -> (forall y, In y (f1 ++ f2) -> eqx y = false) -> active lc x = true ->
  prob (hit eqx Q) (fixed_all lc (f1 ++ x :: f2)) ==
    ev_p (snd x) * (qn (length (filter Q (lookup lc x))) / qn (length (lookup lc x))) /\
  prob (hit eqx (fun _ => true)) (fixed_all lc (f1 ++ x :: f2)) == ev_p (snd x).
Proof.
  intros eqx Q lc f1 x f2 Hx Hn Ha. split.
  - exact (fixed_all_hit eqx Q lc f1 x f2 Hx Hn Ha).
  - rewrite (fixed_all_hit eqx (fun _ => true) lc f1 x f2 Hx Hn Ha), (filter_all _ _ (fun _ _ => eq_refl)).
    field. exact (qn_pos _ (active_nonempty _ _ Ha)).
Qed.

(* both laws have total mass 1, and so has the scripted law of the model's selection *)
Theorem C06_laws_are_distributions : forall lc evs,
  mass (selected_all lc evs) == 1 /\ mass (fixed_all lc evs) == 1.
Proof. intros lc evs. split; [apply mass_selected_all | apply mass_fixed_all]. Qed.

Theorem C06_step_law_mass : forall W (tb : table W) (s : st W),
  probs_ok (per_element tb) -> probs_ok (fixed_rate tb) -> mass (select_dist_full tb s) == 1.
Proof.
  intros W tb s Hpe Hfr. unfold mass. rewrite (select_dist_full_law tb s Hpe Hfr (fun _ => true)).
  rewrite (prob_bind_const _ _ (fun _ => true) _ _ 1).
  - rewrite mass_selected_all. ring.
  - intros a q _. rewrite (prob_bind_ret _ _ (fun _ => true)). apply mass_fixed_all.
Qed.

(* non-vacuity: two per-element events (p = 1/2 on a locus of two, p = 1/4 on a locus of one) and one
   fixed-rate event (p = 1/3 on the locus of two); both sides of C06_step_law computed *)
Definition ex_full : table unit :=
  {| t_maxtime := 2; t_loci := [(0%nat, [EN 1; EN 2]); (0%nat, [EN 7])];
     t_procs := [{| p_events := [ {| ev_elem := true; ev_locus := 0; ev_p := 1#2; ev_prog := 0 |};
                                  {| ev_elem := true; ev_locus := 1; ev_p := 1#4; ev_prog := 0 |};
                                  {| ev_elem := false; ev_locus := 0; ev_p := 1#3; ev_prog := 0 |} ]; p_setup := [] |}];
     t_progs := [static []]; t_world := tt; t_equil := fun _ _ => false |}.

Example C06_step_law_example :
  let s := setup_state ex_full [] [] [] in
  length (per_element ex_full) = 2%nat /\ length (fixed_rate ex_full) = 1%nat /\
  forallb (fun x => Qle_bool 0 (ev_p (snd x)) && negb (Qle_bool 2 (ev_p (snd x)))) (per_element ex_full ++ fixed_rate ex_full) = true /\
  prob (fun sel => Nat.eqb 2 (length sel)) (select_dist_full ex_full s) == 17 # 48 /\
  prob (fun sel => Nat.eqb 2 (length sel))
       (bind (selected_all (loci s) (per_element ex_full))
             (fun a => bind (fixed_all (loci s) (fixed_rate ex_full)) (fun b => ret (a ++ b)))) == 17 # 48 /\
  mass (select_dist_full ex_full s) == 1.
Proof. cbv zeta. repeat split; vm_compute; reflexivity. Qed.

(* non-vacuity of C06_step_after_law on the shipped SIR table (path 0 - 1 - 2, node 1 infectious, pInfect 1/2,
   pRemove 1/4): the scripted law of the compartments after the step, and the product law pushed through
   fire_tranche, both equal the hand-written product form *)
Example C06_step_after_law_example :
  let tb := sir_table [0; 1; 2]%Z [(0, 1); (1, 2)]%Z [(0, 3); (1, 1); (2, 3)]%Z (1#2) (1#4) in
  let s := set_clock 1 (setup_state tb [] [] []) in
  let want := indep [two 1 (1#2) 3; two 2 (1#4) 1; two 1 (1#2) 3] in
  same_law (assignments [1; 2; 3]%Z 3) (step_dist_full tb 1 s (comps_of [0; 1; 2]%Z)) want = true /\
  same_law (assignments [1; 2; 3]%Z 3)
    (bind (bind (selected_all (loci s) (per_element tb)) (fun a => bind (fixed_all (loci s) (fixed_rate tb)) (fun b => ret (a ++ b))))
          (fun sel => ret (comps_of [0; 1; 2]%Z (snd (fire_tranche tb 1 sel 0 (after_selection s)))))) want = true.
Proof. cbv zeta. split; vm_compute; reflexivity. Qed.

(* The shipped SIR model (Model/Compart.v, the table of harness/compart_coq.py; I = 1, R = 2, S = 3),
   pInfect = 1/2, pRemove = 1/4: the law of the compartments after the first timestep equals the
   hand-written product form - every susceptible node with k infectious neighbours becomes infected
   with probability 1 - (1/2)^k, every infectious node is removed with probability 1/4, independently,
   all read off the start state.  same_law compares the two laws on all 27 assignments and checks
   that both have mass 1 and the model's has none elsewhere. *)
(* path 0 - 1 - 2, node 1 infectious *)
Example C06_step_law_example_path :
  same_law (assignments [1; 2; 3]%Z 3)
    (sir_step [0; 1; 2]%Z [(0, 1); (1, 2)]%Z [(0, 3); (1, 1); (2, 3)]%Z (1#2) (1#4))
    (indep [two 1 (1#2) 3; two 2 (1#4) 1; two 1 (1#2) 3]) = true.
Proof. vm_compute. reflexivity. Qed.

(* triangle, node 0 infectious *)
Example C06_step_law_example_triangle :
  same_law (assignments [1; 2; 3]%Z 3)
    (sir_step [0; 1; 2]%Z [(0, 1); (1, 2); (0, 2)]%Z [(0, 1); (1, 3); (2, 3)]%Z (1#2) (1#4))
    (indep [two 2 (1#4) 1; two 1 (1#2) 3; two 1 (1#2) 3]) = true.
Proof. vm_compute. reflexivity. Qed.

(* triangle, nodes 0 and 1 infectious: node 2 has two infectious neighbours, 1 - (1/2)^2 = 3/4; the two
   chosen edges compete for node 2 and the second is skipped (C05) *)
Example C06_step_law_example_triangle_two :
  same_law (assignments [1; 2; 3]%Z 3)
    (sir_step [0; 1; 2]%Z [(0, 1); (1, 2); (0, 2)]%Z [(0, 1); (1, 1); (2, 3)]%Z (1#2) (1#4))
    (indep [two 2 (1#4) 1; two 2 (1#4) 1; two 1 (3#4) 3]) = true.
Proof. vm_compute. reflexivity. Qed.

(* the explicit table for the path: 8 outcomes *)
Example C06_step_law_example_path_table :
  forallb (fun xq => Qeq_bool (prob (list_eqb Z.eqb (fst xq))
                                (sir_step [0; 1; 2]%Z [(0, 1); (1, 2)]%Z [(0, 3); (1, 1); (2, 3)]%Z (1#2) (1#4))) (snd xq))
    [([1; 1; 1], 3#16); ([1; 1; 3], 3#16); ([3; 1; 1], 3#16); ([3; 1; 3], 3#16);
     ([1; 2; 1], 1#16); ([1; 2; 3], 1#16); ([3; 2; 1], 1#16); ([3; 2; 3], 1#16)]%Z = true.
Proof. vm_compute. reflexivity. Qed.

(* one pattern followed through a whole run of the model (maximum time 2: exactly one timestep):
   trial values 0, 2, 2 = edge (0,1) succeeds, edge (2,1) and the removal of 1 fail *)
Example C06_step_law_example_run :
  let tb := sir_table [0; 1; 2]%Z [(0, 1); (1, 2)]%Z [(0, 3); (1, 1); (2, 3)]%Z (1#2) (1#4) in
  let r := sync_run tb 10 10 [0; 2; 2] [] in
  comps_of [0; 1; 2]%Z (r_final r) = [1; 1; 3]%Z /\ r_time r = 2 /\ r_events r = 1%nat /\ r_stuck r = false /\
  trial_probs tb (loci (setup_state tb [] [] [])) = [1#2; 1#2; 1#4].
Proof. cbv zeta. repeat split; vm_compute; reflexivity. Qed.
