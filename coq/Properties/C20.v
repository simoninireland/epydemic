(* C20 - pulse-coupled oscillators always have exactly one scheduled firing.
   The statements, each assembled from the lemmas of Proofs/Pulse{Base,Inv,Run,Sync,SyncModel}.v.

   The process is Model/Pulse.v's table over the event kernel of Model/Kernel.v.  [reach] holds of the
   state after set-up and of every state either scheduler loop passes through between events (C20_states:
   the final state for EVERY fuel, i.e. every truncation of a run).  The numeric maps (decimal rounding,
   phaseToState, stateToPhase, rng.random) are an arbitrary oracle; the hypotheses on it are stated on
   the log of answered requests [pw_reqs]:
     good_lo   : a posting time answered for a caller at time t is not before t  (the time posted is the binary64
                 value of t + x with x >= 0; were it before t, postEvent would raise ValueError and the run die);
     good ub   : moreover it is at most ub of the exact argument, ub any monotone bound of the rounding;
     round_one : round(x, 5) of an argument that is exactly 1 is 1 (only in the two synchrony statements at the end).
   Several statements carry hypotheses their proofs do not use (a monotone bound and a period >= 0 where only
   good_lo matters): they are introduced as _. *)
From Coq Require Import List ZArith QArith Qabs Bool Arith Lia Lqa.
From EpyV Require Import Lib.Prelude Model.Kernel Model.Pulse.
From EpyV Require Import Proofs.KernelBase Proofs.PulseBase Proofs.PulseInv Proofs.PulseRun Proofs.PulseSync Proofs.PulseSyncModel.
Import ListNotations.
Open Scope Q_scope.

(* the states the theorems speak about: every state of a run of either dynamics, for every fuel *)
Theorem C20_states : forall cfg oracle orders pf fuel rs ls ds,
  reach cfg oracle orders (r_final (stoch_run (pulse_table cfg oracle orders) pf fuel rs ls ds))
  /\ reach cfg oracle orders (r_final (sync_run (pulse_table cfg oracle orders) pf fuel rs ds)).
Proof. intros. split; [apply stoch_run_reach|apply sync_run_reach]. Qed.

(* After set-up and after every event every node of the network has exactly one LIVE queue entry: the one
   the node's 'event' attribute names (index k in the ids handed out by postEvent), due at the time the user
   state recorded; and every live entry is such an entry (so there are no others); ids are unique. *)
Theorem C20_one_pending : forall cfg oracle orders (s : st pworld),
  0 <= pc_period cfg -> reach cfg oracle orders s -> good_lo (pw_reqs (world s)) ->
  (forall n, In n (pc_nodes cfg) ->
     exists k T, ev_of (world s) n = Some (k, T) /\ (k < length (ids s))%nat
                 /\ filter (live_of n) (queue s) = [fentry T (nth k (ids s) 0%nat) n])
  /\ (forall x, In x (queue s) -> e_live x = true ->
        exists n k T, ev_of (world s) n = Some (k, T) /\ x = fentry T (nth k (ids s) 0%nat) n)
  /\ NoDup (map e_id (queue s)).
Proof.
  intros cfg oracle orders s _ R Hg. pose proof (reach_PInv_lo cfg oracle orders s _ R (incl_refl _) Hg) as P.
  pose proof (pi_link P) as L. split; [|split].
  - intros n Hn. pose proof (pi_dom P n Hn) as Hd.
    destruct (ev_of (world s) n) as [[k T]|] eqn:E; [|contradiction].
    exists k, T. split; [reflexivity|]. split.
    + rewrite (lk_len L). exact (proj1 (lk_fwd L n k T E)).
    + exact (link_one_live _ _ s n k T L E (pi_pend P n)).
  - exact (lk_bwd L).
  - exact (lk_nodup L).
Qed.

(* Every pending firing is due no earlier than the latest firing and no later than the rounding bound of
   (time of the latest firing + period); the clock is never before the latest firing. *)
Theorem C20_due_bound : forall cfg (ub : Q -> Q) oracle orders (s : st pworld),
  (forall x y, x <= y -> ub x <= ub y) -> 0 <= pc_period cfg ->
  reach cfg oracle orders s -> good ub (pw_reqs (world s)) ->
  forall n k T, ev_of (world s) n = Some (k, T) ->
    lastT (world s) <= T /\ T <= ub (lastT (world s) + pc_period cfg).
Proof.
  intros cfg ub oracle orders s Hm Hp R Hg n k T E.
  exact (pi_tm (reach_Inv cfg ub Hm (ub_ahead_mono cfg ub Hm Hp) oracle orders s R Hg) n k T E).
Qed.

(* the instance for a rounding that errs by at most eps *)
Theorem C20_due_bound_eps : forall cfg eps oracle orders (s : st pworld),
  0 <= pc_period cfg -> reach cfg oracle orders s -> good (fun x => x + eps) (pw_reqs (world s)) ->
  forall n k T, ev_of (world s) n = Some (k, T) -> T <= lastT (world s) + pc_period cfg + eps.
Proof.
  intros cfg eps oracle orders s Hp R Hg n k T E.
  exact (proj2 (C20_due_bound cfg (fun x => x + eps) oracle orders s (fun x y H => proj2 (Qplus_le_l x y eps) H) Hp R Hg n k T E)).
Qed.

(* One event: the live head h of the queue fires.  It is the pending firing of a node n; afterwards (T, n) has
   been appended to the log, the clock is T, the last record of the event stream is n's FIRED tap at T, and n is
   rescheduled at the oracle's rounding of T + clamp(round(1 - 0)) * period (no cascade touches it afterwards). *)
Theorem C20_refire : forall cfg (ub : Q -> Q) oracle orders (s : st pworld) h,
  (forall x y, x <= y -> ub x <= ub y) -> 0 <= pc_period cfg ->
  reach cfg oracle orders s -> head (queue s) = Some h -> e_live h = true ->
  let s' := pend_step (pulse_table cfg oracle orders) h s in
  good ub (pw_reqs (world s')) ->
  exists n, e_elem h = EN n /\ fired_at cfg s s' n (e_time h).
Proof.
  intros cfg ub oracle orders s h _ _ R Hh Hl s' Hg. pose proof (good_good_lo ub _ Hg) as Hlo.
  pose proof (reach_PInv_lo cfg oracle orders s _ R (pend_step_reqs cfg oracle orders h s) Hlo) as P.
  exact (proj2 (pend_step_PInv cfg (fun _ => maxans _) (fun x y _ => Qle_refl _) (fun t c _ => Qle_refl _) oracle orders s h P Hh Hl (good_lo_good _ Hlo))).
Qed.

(* when round(1 - 0) in C20_refire is answered with 1, the time asked for is exactly T + period: one period later *)
Theorem C20_refire_one_period : forall cfg T, clamp01 1 = 1 /\ Qred (T + clamp01 1 * pc_period cfg) == T + pc_period cfg.
Proof. intros cfg T. split; [reflexivity|]. rewrite Qred_correct. change (clamp01 1) with 1. ring. Qed.

(* The firing log: times non-decreasing (newest first: each at least the one before), as many nodes as times,
   and the FIRED taps of the event stream are exactly the logged (time, node) pairs, in order. *)
Theorem C20_log : forall cfg (ub : Q -> Q) oracle orders (s : st pworld),
  (forall x y, x <= y -> ub x <= ub y) -> 0 <= pc_period cfg ->
  reach cfg oracle orders s -> good ub (pw_reqs (world s)) ->
  desc (pw_ftimes (world s))
  /\ length (pw_ftimes (world s)) = length (pw_fnodes (world s))
  /\ taps (out s) = map tap_of (combine (pw_ftimes (world s)) (pw_fnodes (world s))).
Proof.
  intros cfg ub oracle orders s _ _ R Hg.
  pose proof (reach_PInv_lo cfg oracle orders s _ R (incl_refl _) (good_good_lo ub _ Hg)) as P.
  exact (conj (pi_sorted P) (conj (pi_len P) (pi_taps P))).
Qed.

(* normalisePhase lands in [0, 1] whatever the rounding returns; so do getPhase and the reported final phases *)
Theorem C20_phase_range : forall r, 0 <= clamp01 r /\ clamp01 r <= 1.
Proof. exact clamp01_range. Qed.
Theorem C20_final_phases_range : forall cfg t w, Forall (fun x => 0 <= x /\ x <= 1) (fst (final_phases cfg t w)).
Proof.
  intros cfg t w. unfold final_phases.
  assert (G : forall nodes acc, Forall (fun x => 0 <= x /\ x <= 1) (fst acc) ->
    Forall (fun x => 0 <= x /\ x <= 1)
      (fst (fold_left (fun (acc : list Q * pworld) n => let '(phi, w1) := get_phase cfg t n (snd acc) in (fst acc ++ [phi], w1)) nodes acc))).
  { induction nodes as [|n nodes IH]; intros acc Ha; cbn [fold_left]; [exact Ha|].
    apply IH. destruct (get_phase cfg t n (snd acc)) as [phi w1] eqn:E. cbn [fst].
    apply get_phase_spec in E. apply Forall_app. split; [exact Ha|]. constructor; [tauto|constructor]. }
  apply G. constructor.
Qed.

(* PARTIAL.  Synchrony is absorbing on a complete network, as a statement about pending firing times over a
   batch of consecutive events at one time T.  Proved from the model: the node that fires is the one whose
   pending time is T, and every other node whose pending time is T keeps it (it is passed over; this needs of the
   oracle only [round_one]: round(x, 5) of exactly 1 is 1, which Tie/C20.v checks on every run).
   HYPOTHESISED (they are statements about the floating-point maps, which the model receives as oracle values):
   every other node NOT due at T is moved to upd(its pending time) for one function upd (complete network: every
   other node is a neighbour; the update depends on the pending time alone), the firing nodes all go to
   nxt <> T, and upd nxt = nxt (phase 0 maps to itself).  Conclusion: equal pending times are equal after the
   batch; hence the number of distinct pending times does not increase and no synchronised group shrinks.
   Not proved: that the shipped phaseToState/stateToPhase/round satisfy the hypotheses (D checks the conclusion
   on every complete-network run).
   What happens to a node that is due at T is deliberately not among the hypotheses: cascade decides "already
   synchronised" on the phase, not on phaseToState(phase), which is not 1.0 at phase 1.0 in binary64 for
   dissipations such as 0.01, 0.1, 1e-6 (repair F18). *)
Theorem C20_sync_absorbing_partial : forall cfg (ub : Q -> Q) oracle orders T nxt (upd : Q -> Q),
  (forall x y, x <= y -> ub x <= ub y) -> 0 <= pc_period cfg ->
  let tb := pulse_table cfg oracle orders in
  (forall s h n, reach cfg oracle orders s -> head (queue s) = Some h -> e_live h = true -> e_time h = T ->
     e_elem h = EN n -> forall m, m <> n -> ptime s m <> Some T -> ptime (pend_step tb h s) m = option_map upd (ptime s m)) ->
  (forall s h n, reach cfg oracle orders s -> head (queue s) = Some h -> e_live h = true -> e_time h = T ->
     e_elem h = EN n -> ptime (pend_step tb h s) n = Some nxt) ->
  nxt <> T -> upd nxt = nxt ->
  forall s s', reach cfg oracle orders s -> tbatch cfg oracle orders T s s' -> good ub (pw_reqs (world s')) ->
  round_one (pw_reqs (world s')) ->
  (forall m, ptime s' m <> Some T) ->
  (forall a b, ptime s a = ptime s b -> ptime s' a = ptime s' b)
  /\ (ndistinct Z (option Q) optQ_dec (pc_nodes cfg) (ptime s') <= ndistinct Z (option Q) optQ_dec (pc_nodes cfg) (ptime s))%nat
  /\ (forall a, In a (pc_nodes cfg) ->
        (group Z (option Q) optQ_dec (pc_nodes cfg) (ptime s) a <= group Z (option Q) optQ_dec (pc_nodes cfg) (ptime s') a)%nat).
Proof.
  intros cfg ub oracle orders T nxt upd _ _ tb H1 H2 H3 H5 s s' R Hb Hg Hr Hend.
  assert (A : forall a b, ptime s a = ptime s b -> ptime s' a = ptime s' b).
  { intros a b. exact (sync_absorbing_model cfg oracle orders T nxt upd H1 H2 H3 H5 s s' a b R Hb (good_good_lo ub _ Hg) Hr Hend). }
  split; [exact A|]. split.
  - apply distinct_not_increasing. intros a b _ _. apply A.
  - intros a Ha. apply group_not_shrinking; [intros x y _ _; apply A|exact Ha].
Qed.

(* The part of the synchrony clause that is proved from the model: when a node fires at T, every OTHER node whose
   firing is pending at T is still pending at T afterwards (cascade reads its phase, the rounding of exactly 1, and
   passes it over).  Of the hypotheses only the time and element of h, round_one and m <> n are used. *)
Theorem C20_due_now_passed_over : forall cfg (ub : Q -> Q) oracle orders T s h n m,
  (forall x y, x <= y -> ub x <= ub y) -> 0 <= pc_period cfg ->
  let tb := pulse_table cfg oracle orders in
  reach cfg oracle orders s -> head (queue s) = Some h -> e_live h = true -> e_time h = T -> e_elem h = EN n ->
  good ub (pw_reqs (world s)) -> round_one (pw_reqs (world (pend_step tb h s))) ->
  m <> n -> ptime s m = Some T -> ptime (pend_step tb h s) m = Some T.
Proof.
  intros cfg ub oracle orders T s h n m _ _ tb _ _ _ Ht He _ Hr Hmn Hpt.
  exact (due_now_kept cfg oracle orders T s h n m Ht He Hr Hmn Hpt).
Qed.

(* A real run (two coupled nodes, period 1, the values the implementation's arithmetic produced): three firings,
   the third after a synchronisation.  Its final state is reachable, its oracle satisfies [good] for the bound
   x + 1e-5, and the log is not empty. *)
Definition ex_cfg : pcfg :=
  {| pc_nodes := [0; 1]%Z; pc_adj := [(0, [1]); (1, [0])]%Z; pc_period := 1; pc_coupling := 1 # 8; pc_maxtime := 3 # 2; pc_observe := true |}.
Definition ex_oracle : list (rkind * Q) :=
  [(RR, 1 # 4); (RG, 5955422397294589 # 36028797018963968); (RN, 3759154608966153 # 4503599627370496); (RT, 3759154608966153 # 4503599627370496);
   (RR, 1 # 2); (RG, 212536501914567 # 562949953421312); (RN, 2803310624053039 # 4503599627370496); (RT, 2803310624053039 # 4503599627370496);
   (RN, 1 # 1); (RT, 7306910251423535 # 4503599627370496); (RN, 1773877821228691 # 2251799813685248); (RS, 3854826337731417 # 4503599627370496);
   (RG, 4369114592791149 # 4503599627370496);
   (RN, 4369122142497213 # 4503599627370496); (RN, 8606559031890113 # 288230376151711744); (RT, 1468894054463161 # 2251799813685248);
   (RN, 4369122142497213 # 4503599627370496); (RN, 1 # 1); (RT, 3720693868148409 # 2251799813685248);
   (RN, 8606559031890113 # 288230376151711744); (RS, 3605401984276117 # 72057594037927936); (RG, 125340932159485 # 1125899906842624); (RN, 8022171944242517 # 72057594037927936);
   (RN, 8004427761710677 # 9007199254740992); (RT, 6940001989781661 # 4503599627370496); (RN, 8022171944242517 # 72057594037927936);
   (RN, 1 # 1); (RT, 2860900404288039 # 1125899906842624); (RN, 8004427761710677 # 9007199254740992); (RS, 4174958880980699 # 4503599627370496);
   (RG, 4884083242615269 # 4503599627370496);
   (RN, 1221015930972689 # 1125899906842624); (RN, 0 # 1); (RT, 6940001989781661 # 4503599627370496); (RN, 1 # 1); (RN, 1 # 1);
   (RT, 2860900404288039 # 1125899906842624)].
Definition ex_orders : list (list Z) := [[0]; [1]; [0]]%Z.
Definition ex_final : st pworld := r_final (stoch_run (pulse_table ex_cfg ex_oracle ex_orders) 100 100 [] [] []).

(* what C20_nonvacuous needs of the run, under one let: the run is evaluated once when this is checked *)
Lemma ex_final_eval : let w := world ex_final in
  good_b (1 # 100000) (pw_reqs w) = true /\ pw_fnodes w = [1; 0; 1]%Z /\ pw_bad w = false /\ pw_oracle w = [].
Proof. vm_compute. repeat split. Qed.

Example C20_nonvacuous :
  reach ex_cfg ex_oracle ex_orders ex_final
  /\ good (fun x => x + (1 # 100000)) (pw_reqs (world ex_final))
  /\ 0 <= pc_period ex_cfg
  /\ pw_fnodes (world ex_final) = [1; 0; 1]%Z
  /\ pw_bad (world ex_final) = false /\ pw_oracle (world ex_final) = [].
Proof.
  destruct ex_final_eval as [Eg E].
  split; [apply stoch_run_reach|]. split; [apply good_b_good, Eg|]. split; [cbn; lra|exact E].
Qed.

(* The hypotheses of the abstract batch theorem (PulseSync.batch_sync_absorbing, with its `upd t = t \/ upd t = nxt`,
   of which the model only ever supplies the left disjunct) are satisfiable: two nodes due at time 0, rescheduled
   at 1, nothing else moves.  This is not a witness for the hypotheses of C20_sync_absorbing_partial, which
   quantify over the reachable states of a model run. *)
Example C20_sync_nonvacuous :
  let t := 0%nat in let nxt := 1%nat in let upd := fun x : nat => x in
  let p0 := fun _ : bool => 0%nat in
  let p1 := fun b : bool => if b then 1%nat else 0%nat in
  let p2 := fun _ : bool => 1%nat in
  nxt <> t /\ (upd t = t \/ upd t = nxt) /\ upd nxt = nxt
  /\ batch bool nat t nxt upd p0 p2 /\ (forall m, p2 m <> t) /\ p2 true = p2 false.
Proof.
  cbv zeta. split; [discriminate|]. split; [left; reflexivity|]. split; [reflexivity|]. split; [|split; [intros m; discriminate|reflexivity]].
  eapply (b_cons _ _ _ _ _ true _ (fun b : bool => if b then 1%nat else 0%nat)).
  - split; [reflexivity|]. split; [reflexivity|]. intros [|] H; [contradiction|reflexivity].
  - eapply (b_cons _ _ _ _ _ false); [|apply b_nil].
    split; [reflexivity|]. split; [reflexivity|]. intros [|] H; [reflexivity|contradiction].
Qed.
