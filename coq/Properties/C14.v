(* C14 - Percolate keeps a floor(T*M)-subset of the edges, chosen by the shuffled order.
   The statements of C14, each derived from the lemmas of Proofs/Percolate.v (the split) and Proofs/PermCount.v
   (counting permutations by their prefix). *)
From Coq Require Import List ZArith QArith Qround Bool Arith Lia Permutation.
From EpyV Require Import Lib.Prelude Lib.Lists Model.Percolate Proofs.Percolate.
From EpyV Require Import Proofs.PermCount.
Import ListNotations.

(* occupied ++ unoccupied is a rearrangement of the edge list, and the two are disjoint *)
Theorem C14_partition : forall nodes es perm T, NoDupU es -> is_perm perm (length es) ->
  let m := percolate nodes es perm T in
  Permutation (occupied m ++ unoccupied m) es /\ (forall e, In e (occupied m) -> In e (unoccupied m) -> False).
Proof.
  intros nodes es perm T Hnd Hp. pose proof (partition_perm nodes es perm T Hp) as P. split; [exact P|].
  apply NoDup_app_iff. exact (Permutation_NoDup (Permutation_sym P) (NoDupU_NoDup es Hnd)).
Qed.

(* the working network keeps exactly the occupied edges: a sub-multiset of the original, no edge twice *)
Theorem C14_edges_are_occupied : forall nodes es perm T, NoDupU es -> is_perm perm (length es) ->
  let m := percolate nodes es perm T in
  Permutation (edges_after m) (occupied m) /\ (forall e, In e (edges_after m) -> In e es) /\ NoDupU (edges_after m).
Proof.
  intros nodes es perm T Hnd Hp. cbv zeta.
  pose proof (partition_perm nodes es perm T Hp) as P. pose proof (edges_after_perm nodes es perm T Hnd Hp) as Pe.
  split; [exact Pe | split].
  - intros e He. apply (Permutation_in _ P), in_or_app. left. exact (Permutation_in _ Pe He).
  - apply (NoDupU_perm _ _ (Permutation_sym Pe)), (NoDupU_app _ _ (NoDupU_perm _ _ (Permutation_sym P) Hnd)).
Qed.

(* exactly floor(T*M) edges remain, for every T in [0,1] *)
Theorem C14_count : forall nodes es perm T, NoDupU es -> is_perm perm (length es) -> (0 <= T)%Q -> (T <= 1)%Q ->
  let k := length (edges_after (percolate nodes es perm T)) in
  (inject_Z (Z.of_nat k) <= inject_Z (Z.of_nat (length es)) * T)%Q /\
  (inject_Z (Z.of_nat (length es)) * T < inject_Z (Z.of_nat k) + 1)%Q.
Proof.
  intros nodes es perm T Hnd Hp H0 H1. cbv zeta.
  rewrite (edges_after_count nodes es perm T Hnd Hp), (Nat.min_l _ _ (occ_of_le (length es) T H0 H1)).
  apply floor_nat_spec, Qmult_le_0_compat; [apply inj_nonneg | exact H0].
Qed.

Theorem C14_none_for_0 : forall nodes es perm, NoDupU es -> is_perm perm (length es) ->
  edges_after (percolate nodes es perm 0%Q) = [].
Proof.
  intros nodes es perm _ Hp. unfold percolate. rewrite occ_of_0. cbn. apply filter_none. intros e He.
  apply negb_false_iff, existsb_exists. exists e. split; [|apply same_edge_refl].
  exact (Permutation_in _ (Permutation_sym (apply_perm_Permutation _ es perm Hp)) He).
Qed.

Theorem C14_all_for_1 : forall nodes es perm, NoDupU es -> is_perm perm (length es) ->
  Permutation (edges_after (percolate nodes es perm 1%Q)) es.
Proof.
  intros nodes es perm _ Hp. rewrite edges_after_1; [reflexivity|].
  rewrite (Permutation_length Hp). apply seq_length.
Qed.

Theorem C14_nodes_same : forall nodes es perm T, nodes_after (percolate nodes es perm T) = nodes.
Proof. reflexivity. Qed.

(* taking the first k or dropping them commutes with relabelling the elements (the library's firstn_map and
   skipn_map): which positions are occupied does not depend on what the edges are *)
Theorem C14_equivariant : forall (A B : Type) (s : A -> B) k (p : list A),
  firstn k (map s p) = map s (firstn k p) /\ skipn k (map s p) = map s (skipn k p).
Proof. intros. split; [apply firstn_map | apply skipn_map]. Qed.

(* Uniformity is stated by counting.  [perms l] (Proofs/PermCount.v) lists all permutations of l by inserting the
   head at every position; [perms (seq 0 n)] is the range of the shuffle oracle: every index permutation, once
   each, n! of them (C14_shuffles).  Applying all of them to es lists every rearrangement of es exactly once. *)
Theorem C14_shuffles : forall n,
  NoDup (perms (seq 0 n)) /\ length (perms (seq 0 n)) = fact n /\
  (forall perm, In perm (perms (seq 0 n)) <-> is_perm perm n).
Proof.
  intros n. split; [apply perms_NoDup, seq_NoDup | split].
  - rewrite perms_length, seq_length. reflexivity.
  - intros perm. apply perms_spec.
Qed.

Theorem C14_shuffles_rearrange : forall (es : list edge),
  map (apply_perm (0,0)%Z es) (perms (seq 0 (length es))) = perms es /\
  (forall p, In p (perms es) <-> Permutation p es).
Proof. intros es. split; [exact (apply_all_perms (0,0)%Z es) | intros p; exact (perms_spec es p)]. Qed.

(* Over all M! shuffles of an edge list without repeated undirected edges, the occupied list of
   Percolate.percolate has the same elements as a given k-subset S of es (k = min(floor(M*T), M), the number
   retained) for exactly k! * (M-k)! shuffles, whichever subset S is: with a uniform shuffle every k-subset is
   retained with probability k!(M-k)!/M! = 1/C(M,k).  [same_edges a b = true] iff a and b have the same elements. *)
Theorem C14_uniform : forall nodes es T S,
  NoDupU es -> NoDup S -> incl S es -> length S = Nat.min (occ_of (length es) T) (length es) ->
  length (filter (fun perm => same_edges (occupied (percolate nodes es perm T)) S) (perms (seq 0 (length es))))
  = (fact (length S) * fact (length es - length S))%nat.
Proof.
  intros nodes es T S Hnd NDS Sub Hk. rewrite occupied_filter.
  exact (prefix_count_min zpair_eqb zpair_eqb_iff es S (NoDupU_NoDup es Hnd) NDS Sub _ Hk).
Qed.

(* the same without the closed form: any two k-subsets are hit by equally many shuffles *)
Theorem C14_uniform_pair : forall nodes es T S S',
  NoDupU es -> NoDup S -> NoDup S' -> incl S es -> incl S' es ->
  length S = Nat.min (occ_of (length es) T) (length es) ->
  length S' = Nat.min (occ_of (length es) T) (length es) ->
  length (filter (fun perm => same_edges (occupied (percolate nodes es perm T)) S) (perms (seq 0 (length es))))
  = length (filter (fun perm => same_edges (occupied (percolate nodes es perm T)) S') (perms (seq 0 (length es)))).
Proof.
  intros nodes es T S S' Hnd NDS NDS' Sub Sub' Hk Hk'. rewrite !occupied_filter.
  exact (prefix_uniform zpair_eqb zpair_eqb_iff es S S' _ (NoDupU_NoDup es Hnd) NDS NDS' Sub Sub' Hk Hk').
Qed.

Theorem C14_same_edges_spec : forall a b, same_edges a b = true <-> (forall e, In e a <-> In e b).
Proof. exact (same_elts_spec zpair_eqb zpair_eqb_iff). Qed.

(* the underlying fact for any type with a boolean equality: of the n! permutations of a duplicate-free list,
   exactly k!(n-k)! have a given k-subset as the set of their first k elements *)
Theorem C14_prefix_count : forall (A : Type) (eqb : A -> A -> bool), (forall x y, eqb x y = true <-> x = y) ->
  forall es S : list A, NoDup es -> NoDup S -> incl S es ->
  length (perms es) = fact (length es) /\
  length (filter (fun p => same_elts eqb (firstn (length S) p) S) (perms es))
  = (fact (length S) * fact (length es - length S))%nat.
Proof. intros A eqb He es S H1 H2 H3. split; [exact (perms_length es) | exact (prefix_count eqb He es S H1 H2 H3)]. Qed.

(* non-vacuity of C14_uniform: 4 edges, T = 1/2, S a 2-subset (given in the other order):
   4 = 2!*2! of the 24 shuffles retain it *)
Example C14_uniform_example :
  let es := [(0,1); (1,2); (0,2); (2,3)]%Z in let S := [(0,2); (0,1)]%Z in
  NoDupU es /\ NoDup S /\ incl S es /\ length S = Nat.min (occ_of (length es) (1#2)) (length es) /\
  length (perms (seq 0 (length es))) = 24%nat /\
  length (filter (fun perm => same_edges (occupied (percolate [0;1;2;3]%Z es perm (1#2))) S)
                 (perms (seq 0 (length es)))) = 4%nat.
Proof.
  cbv zeta. split; [|split; [|split; [|split; [|split]]]]; try reflexivity.
  - unfold NoDupU. cbn. repeat constructor; cbn; intuition discriminate.
  - repeat constructor; cbn; intuition discriminate.
  - intros e He. cbn in *. intuition.
Qed.

(* non-vacuity: a triangle with a pendant edge, T = 1/2, a non-trivial shuffle *)
Example C14_example :
  let es := [(0,1); (1,2); (0,2); (2,3)]%Z in
  NoDupU es /\ is_perm [2;0;3;1]%nat (length es) /\
  edges_after (percolate [0;1;2;3]%Z es [2;0;3;1]%nat (1#2)) = [(0,1); (0,2)]%Z.
Proof.
  cbv zeta. split; [|split; [|reflexivity]].
  - unfold NoDupU. cbn. repeat constructor; cbn; intuition discriminate.
  - apply is_perm_by_In; [repeat constructor; cbn; intuition discriminate | intros x; cbn; lia].
Qed.
