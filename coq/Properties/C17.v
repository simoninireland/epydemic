(* C17 - degree-distribution generating functions match their distributions.  PARTIAL:
   theorems: the network clause (coefficients = degree fractions, gf(1) = 1, gf.dx()(1) = 2M/N) and
   the exact algebra of ContinuousGF's contour extraction over any field with a primitive m-th root
   of unity (aliasing identity, the no-alias case, getCoefficient / evaluate of a polynomial series,
   the step rule).  NOT theorems (checked numerically by harness/c17.py, see tools/claims.d/C17.json):
   that the alias tail a_(n+m) + a_(n+2m) + ... of the exp / polylog series is negligible, and the
   floating-point evaluation of those series by numpy / cmath / mpmath.
   Each statement is proved in a few lines from the lemmas of Proofs/GFNet.v (standard library,
   over Q) and Proofs/Contour.v (MathComp; its statements are the [..._stmt] definitions there). *)
From Coq Require Import List ZArith QArith Bool Arith Lia.
From EpyV Require Import Lib.Prelude Model.GF Model.GFNet Proofs.GFSum Proofs.GFDeriv Proofs.GFEval Proofs.GFNet.
From EpyV Require Model.Contour Proofs.Contour Proofs.ContourExample.
Import ListNotations.
Open Scope Q_scope.

(* the i-th coefficient is the fraction of nodes of degree i (0 above the largest degree), for every i *)
Theorem C17_net_coeff : forall g f, gf_from_network g = Some f ->
  forall i, coeff f i == qn (count i (degrees g)) / qn (length (g_nodes g)).
Proof. exact net_coeff. Qed.

(* the only network without a generating function is the empty one (max() of an empty sequence) *)
Theorem C17_net_defined : forall g, gf_from_network g = None <-> g_nodes g = [].
Proof.
  intros g. unfold gf_from_network, net_coeffs, degrees. destruct (g_nodes g); simpl; split; intros H; try reflexivity; discriminate.
Qed.

(* gf(1) = 1: the fractions sum to one *)
Theorem C17_net_one : forall g f, gf_from_network g = Some f -> eval f 1 == 1.
Proof.
  intros g f H. destruct (net_shape g f H) as [V D].
  unfold eval. rewrite (eval_cut_poly _ f 1 V _ (Nat.eq_le_incl _ _ D)).
  rewrite (sumn_ext _ _ (fun i => 1 * coeff f i)) by (intros i _; rewrite qpow_1; ring).
  rewrite (net_moment g f _ _ H) by lia. rewrite lsum_ones. unfold degrees. rewrite map_length.
  field. exact (net_nodes_nz g f H).
Qed.

(* gf.dx()(1) = 2M/N, the mean degree (handshake lemma; a self-loop counts twice, as in networkx) *)
Theorem C17_net_mean : forall g f, graph_wf g -> gf_from_network g = Some f ->
  eval (deriv 1 f) 1 == qn (2 * length (g_edges g)) / qn (length (g_nodes g)).
Proof.
  intros g f Hwf H. destruct (net_shape g f H) as [V D].
  unfold eval. rewrite (eval_deriv _ 1 f 1 V _ (Nat.eq_le_incl _ _ D)).
  rewrite <- (handshake g Hwf), <- lsum_qn, <- (net_moment g f qn (S (S (S (list_max (degrees g))))) H) by lia.
  rewrite (sumn_shift (S (S (list_max (degrees g))))). change (qn 0) with 0. rewrite Qmult_0_l, Qplus_0_l.
  apply sumn_ext. intros i _. rewrite ffq_1, qpow_1, Nat.add_1_r. ring.
Qed.

Theorem C17_handshake : forall g, graph_wf g -> list_sum (degrees g) = (2 * length (g_edges g))%nat.
Proof. exact handshake. Qed.

(* mean over the m points r z^k of f(x)/x^n  =  sum of a_j r^(j-n) over j == n (mod m) *)
Theorem C17_contour_exact : Proofs.Contour.contour_exact_stmt.
Proof. exact Proofs.Contour.contour_exact. Qed.

(* n < m and fewer than m + n coefficients: exactly a_n *)
Theorem C17_contour_no_alias : Proofs.Contour.contour_no_alias_stmt.
Proof. exact Proofs.Contour.contour_no_alias. Qed.

(* getCoefficient(i) of an order-th derivative object is coefficient i of the order-th derivative,
   PROVIDED i + order < m: the code adapts m to i only, not to i + order *)
Theorem C17_contour_deriv : Proofs.Contour.contour_coeff_deriv_stmt.
Proof. exact Proofs.Contour.contour_coeff_deriv. Qed.

(* evaluate(x0) of an order-th derivative object (m = 100) is the order-th derivative at x0 *)
Theorem C17_contour_value : Proofs.Contour.contour_value_deriv_stmt.
Proof. exact Proofs.Contour.contour_value_deriv. Qed.

(* the step rule gives more points than the index: i < 100 * ceil((i + 1) / 99), and it is that ceiling *)
Theorem C17_step_rule : forall i, (i < contour_points i)%nat /\
  (99 * (contour_points i / 100) >= i + 1)%nat /\ (99 * (contour_points i / 100 - 1) < i + 1)%nat.
Proof.
  intros i. unfold contour_points. rewrite (Nat.mul_comm 100), Nat.div_mul by lia.
  pose proof (Nat.div_mod (i + 1 + 98) 99 ltac:(lia)) as D.
  pose proof (Nat.mod_upper_bound (i + 1 + 98) 99 ltac:(lia)) as B.
  lia.
Qed.

(* a triangle with a pendant node, a self-loop and an isolated node *)
Example C17_example :
  let g := {| g_nodes := [0; 1; 2; 3; 4]%Z; g_edges := [(0, 1); (1, 2); (2, 0); (2, 3); (3, 3)]%Z |} in
  graph_wf g /\ exists f, gf_from_network g = Some f /\
    list_eqb Qeq_bool (map (coeff f) [0; 1; 2; 3; 4]%nat) [1 # 5; 0; 2 # 5; 2 # 5; 0] = true /\
    eval f 1 == 1 /\ eval (deriv 1 f) 1 == 2 # 1.
Proof.
  cbv zeta. split.
  - split; [repeat constructor; simpl; intuition discriminate|].
    intros e He. simpl in He. repeat (destruct He as [<-|He]; [simpl; tauto|]). contradiction.
  - eexists. split; [reflexivity|]. split; [vm_compute; reflexivity|]. split; vm_compute; reflexivity.
Qed.

(* the hypotheses of the contour theorems hold in the algebraic numbers with the code's m = 100 *)
Example C17_contour_example : Proofs.ContourExample.contour_example_stmt.
Proof. exact Proofs.ContourExample.contour_example_holds. Qed.
