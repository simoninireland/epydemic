(* C02 - stochastic dynamics samples the continuous-time Markov chain of the model.
   The theorems are proved here from the lemmas of Proofs/Gillespie{Select,Rates,Jump,Holding}.v,
   Proofs/KernelRelabel.v and Lib/Dist.v; C02_step / C02_step_single unfold one iteration of the
   model's loop in place.
   The model is the Gillespie loop [stoch_loop] of Model/Kernel.v (stochasticdynamics.py) over
   exact rationals, for every world type W and every table (arbitrary user processes); the oracle
   is the list of rng.random() values, of ln(1/r1) values and of drawn ranks.

   What is NOT a theorem here (DESIGN.md section 7): that a uniform variate lands in an interval
   with probability equal to its length, and that numpy's generator is uniform.  The theorems give
   the exact preimage of every random decision (which r2 select which kind: an interval of the
   right length; which r1 give a holding time > s: an interval of length exp(-a s); which rank
   gives which element), and, with those lengths taken as probabilities in a finite-distribution
   monad over Q, the jump-chain law and its equality with the CTMC's.  The law of durations is
   covered only through C02_holding_time (no distribution over the reals is formalised).
   Every theorem except C02_holding_time is closed under the global context. *)
From Coq Require Import List ZArith QArith Bool Arith Reals Lqa Lia.
From EpyV Require Import Lib.Prelude Lib.Dist Model.Kernel
  Proofs.KernelRelabel Proofs.GillespieSelect Proofs.GillespieRates Proofs.GillespieJump Proofs.GillespieHolding Proofs.GillespieExamples.
Import ListNotations.
Open Scope Q_scope.

(* [prefix f l j] is the sum of the first j rates.  For non-negative rates and 0 <= xc < total the
   scan returns the first entry whose cumulative sum exceeds xc: the unique j with
   prefix j <= xc < prefix (j+1). *)
Theorem C02_select_index : forall A (f : A -> Q) xc l x0,
  (forall x, In x l -> 0 <= f x) -> 0 <= xc -> xc < sumf f l ->
  exists j, (j < length l)%nat /\ prefix f l j <= xc /\ xc < prefix f l (S j) /\ select f xc 0 x0 l = nth j l x0 /\
            forall k, prefix f l k <= xc -> xc < prefix f l (S k) -> k = j.
Proof. exact (@select_index). Qed.

(* as an iff on the entry, for lists without repeated entries (as [transitions] is) *)
Theorem C02_select_interval : forall A (f : A -> Q) xc l x0 j,
  NoDup l -> (forall x, In x l -> 0 <= f x) -> 0 <= xc -> xc < sumf f l -> (j < length l)%nat ->
  (select f xc 0 x0 l = nth j l x0 <-> prefix f l j <= xc /\ xc < prefix f l (S j)).
Proof. exact (@select_interval). Qed.

Theorem C02_zero_rate_never : forall A (f : A -> Q) xc l x0 x,
  (forall y, In y l -> 0 <= f y) -> 0 <= xc -> xc < sumf f l -> f x == 0 -> select f xc 0 x0 l <> x.
Proof.
  intros A f xc l x0 x Hnn Hlo Hhi Hz E. destruct (select_pos A f xc l x0 Hlo Hhi) as [_ Hp].
  rewrite E, Hz in Hp. exact (Qlt_irrefl 0 Hp).
Qed.

(* the entry returned always has a positive rate and is an entry of the list *)
Theorem C02_selected_positive : forall A (f : A -> Q) xc l x0,
  (forall x, In x l -> 0 <= f x) -> 0 <= xc -> xc < sumf f l ->
  In (select f xc 0 x0 l) l /\ 0 < f (select f xc 0 x0 l).
Proof. intros A f xc l x0 _. apply select_pos. Qed.

(* with xc = r2 * a: the r2 in [0,1) selecting entry j are exactly [prefix j / a, prefix (j+1) / a),
   an interval of length rate_j / a *)
Theorem C02_select_measure : forall A (f : A -> Q) l x0 r2 j,
  NoDup l -> (forall x, In x l -> 0 <= f x) ->
  let a := sumf f l in 0 < a -> 0 <= r2 -> r2 < 1 -> (j < length l)%nat ->
  (select f (r2 * a) 0 x0 l = nth j l x0 <-> prefix f l j / a <= r2 /\ r2 < prefix f l (S j) / a)
  /\ prefix f l (S j) / a - prefix f l j / a == f (nth j l x0) / a.
Proof.
  intros A f l x0 r2 j Hnd Hnn a Ha Hr0 Hr1 Hj. subst a. split.
  - rewrite (select_interval f (r2 * sumf f l) l x0 j Hnd Hnn); try assumption.
    + rewrite (div_le_iff _ _ _ Ha), (lt_div_iff _ _ _ Ha). reflexivity.
    + apply Qmult_le_0_compat; lra.
    + assert (r2 * sumf f l < 1 * sumf f l) by (apply Qmult_lt_compat_r; assumption). lra.
  - rewrite (prefix_S _ f l j x0 Hj). field. lra.
Qed.

(* the same on the kernel: the loop's own total [sum_rates] (a left-to-right sum) and its own list of
   transitions, which has no repeated entry; only a table with non-negative probabilities is assumed *)
Theorem C02_select_measure_kernel : forall W (tb : table W) (s : st W) x0 r2 j,
  nonneg_table W tb ->
  let trs := transitions tb in let a := sum_rates s trs in
  0 < a -> 0 <= r2 -> r2 < 1 -> (j < length trs)%nat ->
  (select (rate s) (r2 * a) 0 x0 trs = nth j trs x0 <->
     prefix (rate s) trs j / a <= r2 /\ r2 < prefix (rate s) trs (S j) / a)
  /\ prefix (rate s) trs (S j) / a - prefix (rate s) trs j / a == rate s (nth j trs x0) / a.
Proof.
  intros W tb s x0 r2 j Hnn trs a Ha Hr0 Hr1 Hj.
  assert (Ea : a == sumf (rate s) trs) by apply sum_rates_sumf.
  assert (Ha' : 0 < sumf (rate s) trs) by (rewrite <- Ea; exact Ha).
  destruct (C02_select_measure _ (rate s) trs x0 r2 j (transitions_NoDup W tb) (transitions_rates_nonneg W tb s Hnn) Ha' Hr0 Hr1 Hj) as [H1 H2].
  rewrite (select_xc_ext _ (rate s) (r2 * a) (r2 * sumf (rate s) trs)) by (rewrite Ea; reflexivity).
  rewrite Ea. split; assumption.
Qed.

(* dt = ln(1/r1)/a exceeds s exactly when r1 < exp(-a s): the inverse-CDF identity of Exp(a).
   Over Coq's real numbers; depends on the standard library's axioms for them. *)
Theorem C02_holding_time : forall a r1 s : R, (0 < a)%R -> (0 < r1 <= 1)%R ->
  ((ln (/ r1) / a > s)%R <-> (r1 < exp (- a * s))%R).
Proof. exact holding_time. Qed.

Theorem C02_rate_table : forall W (tb : table W) (s : st W),
  (forall x : nat * nat * event, ev_elem (snd x) = true ->
     rate s x == ev_p (snd x) * inject_Z (Z.of_nat (length (locus s (ev_locus (snd x))))))
  /\ (forall x : nat * nat * event, ev_elem (snd x) = false -> rate s x = ev_p (snd x))
  /\ sum_rates s (transitions tb) ==
       sumf (fun x : nat * nat * event => ev_p (snd x) * inject_Z (Z.of_nat (length (locus s (ev_locus (snd x)))))) (per_element tb)
       + sumf (fun x : nat * nat * event => ev_p (snd x)) (fixed_rate tb).
Proof.
  intros W tb s. split; [exact (rate_elem W s)|]. split; [exact (rate_fixed W s)|].
  rewrite sum_rates_sumf. unfold transitions. rewrite sumf_app. apply Qplus_comp; apply sumf_ext; intros x Hx; apply filter_In in Hx.
  - exact (rate_elem W s x (proj2 Hx)).
  - rewrite (rate_fixed W s x); [reflexivity|]. apply negb_true_iff. exact (proj2 Hx).
Qed.

(* the order: per-element events of all processes (allProcesses() order, registration order within a
   process), then the fixed-rate events likewise; no entry occurs twice *)
Theorem C02_transitions_order : forall W (tb : table W),
  all_events tb = flat_map (fun ip => index_events (fst ip) 0 (p_events (snd ip))) (combine (seq 0 (length (t_procs tb))) (t_procs tb))
  /\ transitions tb = filter (fun x : nat * nat * event => ev_elem (snd x)) (all_events tb)
                      ++ filter (fun x : nat * nat * event => negb (ev_elem (snd x))) (all_events tb)
  /\ NoDup (transitions tb).
Proof. intros W tb. split; [apply all_events_from_spec|]. split; [reflexivity | apply transitions_NoDup]. Qed.

(* no pending posted event, not at equilibrium, a <> 0, more than one transition: r1, ln(1/r1), r2 are
   consumed; kind = select (r2 * a); time advances by (1/a) ln(1/r1); one rank is consumed iff the
   locus of the kind is not empty and the event function is called on the element of that rank *)
Theorem C02_step : forall W (tb : table W) pf f t ev (s : st W) r1 r2 rs ln ls x0 x1 rest,
  queue s = [] -> running W tb t s ->
  rands s = r1 :: r2 :: rs -> lns s = ln :: ls -> transitions tb = x0 :: x1 :: rest ->
  let a := sum_rates s (transitions tb) in
  let nt := Qred (t + Qred (1 / a * ln)) in
  let x := select (rate s) (r2 * a) 0 x0 (transitions tb) in
  let l := locus s (ev_locus (snd x)) in
  stoch_loop tb (S pf) (S f) t ev s =
    match l with
    | [] => stoch_loop tb (S pf) f nt (ev + 0) (after s nt rs ls (draws s))
    | _ => match draws s with
           | [] => stoch_loop tb (S pf) f nt (S (ev + 0)) (fire_event tb x nt (nth (0 mod length l) l (EN 0)) (set_stuck (after s nt rs ls [])))
           | k :: ds => stoch_loop tb (S pf) f nt (S (ev + 0)) (fire_event tb x nt (nth (k mod length l) l (EN 0)) (after s nt rs ls ds))
           end
    end.
Proof.
  intros W tb pf f t ev s r1 r2 rs ln ls x0 x1 rest Hq [Heq Ha] Hr Hl Htr a nt x l.
  subst l x nt a. cbn [stoch_loop]. rewrite Heq, Ha. rewrite Htr.
  unfold next_rand at 1. rewrite Hr. unfold next_ln at 1. cbn [lns set_oracle]. rewrite Hl.
  unfold next_rand at 1. cbn [rands set_oracle].
  rewrite run_pending_empty; [|cbn [queue set_oracle]; exact Hq].
  unfold locus. cbn [loci set_clock set_queue set_oracle].
  destruct (nth (ev_locus (snd (select (rate s) (r2 * sum_rates s (x0 :: x1 :: rest)) 0 x0 (x0 :: x1 :: rest)))) (loci s) []) eqn:El.
  - apply f_equal. reflexivity.
  - (* only the states are compared, by computation on records; [fire_event] stays folded *)
    unfold next_draw. cbn [draws set_clock set_queue set_oracle].
    destruct (draws s) as [|k ds]; do 2 apply f_equal; reflexivity.
Qed.

(* exactly one transition: r2 is not consumed *)
Theorem C02_step_single : forall W (tb : table W) pf f t ev (s : st W) r1 rs ln ls x0,
  queue s = [] -> running W tb t s ->
  rands s = r1 :: rs -> lns s = ln :: ls -> transitions tb = [x0] ->
  let a := sum_rates s (transitions tb) in
  let nt := Qred (t + Qred (1 / a * ln)) in
  let l := locus s (ev_locus (snd x0)) in
  stoch_loop tb (S pf) (S f) t ev s =
    match l with
    | [] => stoch_loop tb (S pf) f nt (ev + 0) (after s nt rs ls (draws s))
    | _ => match draws s with
           | [] => stoch_loop tb (S pf) f nt (S (ev + 0)) (fire_event tb x0 nt (nth (0 mod length l) l (EN 0)) (set_stuck (after s nt rs ls [])))
           | k :: ds => stoch_loop tb (S pf) f nt (S (ev + 0)) (fire_event tb x0 nt (nth (k mod length l) l (EN 0)) (after s nt rs ls ds))
           end
    end.
Proof.
  intros W tb pf f t ev s r1 rs ln ls x0 Hq [Heq Ha] Hr Hl Htr a nt l.
  subst l nt a. cbn [stoch_loop]. rewrite Heq, Ha. rewrite Htr.
  unfold next_rand at 1. rewrite Hr. unfold next_ln at 1. cbn [lns set_oracle]. rewrite Hl.
  rewrite run_pending_empty; [|cbn [queue set_oracle]; exact Hq].
  unfold locus. cbn [loci set_clock set_queue set_oracle].
  destruct (nth (ev_locus (snd x0)) (loci s) []) eqn:El.
  - apply f_equal. reflexivity.
  - unfold next_draw. cbn [draws set_clock set_queue set_oracle].
    destruct (draws s) as [|k ds]; do 2 apply f_equal; reflexivity.
Qed.

(* [jump_dist]: the kind has the distribution of the interval lengths of C02_select_measure, the
   element is [nth (k mod n)] for k uniform on the n ranks of the kind's locus (none when empty).
   [ctmc_jump]: every (kind j, element e of its locus) with probability p_j / a (per-element) or
   (p_j / |locus|) / a (fixed rate). *)
Theorem C02_jump_law : forall W (tb : table W) (s : st W),
  ~ total_rate W tb s == 0 -> deq out_eqb (jump_dist W tb s) (ctmc_jump W tb s).
Proof. exact (@jump_law). Qed.

Theorem C02_jump_law_mass : forall W (tb : table W) (s : st W) j e,
  ~ total_rate W tb s == 0 -> (j < length (transitions tb))%nat ->
  NoDup (locus_of W tb s j) -> In e (locus_of W tb s j) ->
  let ev := snd (nth j (transitions tb) dflt) in
  mass out_eqb (jump_dist W tb s) (j, Some e)
  == (if ev_elem ev then ev_p ev else ev_p ev / qlen (locus_of W tb s j)) / total_rate W tb s.
Proof.
  intros W tb s j e Ha Hj Hnd Hin ev. rewrite (jump_law W tb s Ha (j, Some e)).
  unfold ctmc_jump. rewrite mass_flat_map.
  rewrite (sumf_single _ j); [|apply seq_NoDup|apply in_seq; lia|].
  - unfold ctmc_entry. fold ev. destruct (locus_of W tb s j) as [|e0 l'] eqn:El; [destruct Hin|].
    set (l := e0 :: l') in *. set (c := (if ev_elem ev then ev_p ev else ev_p ev / qlen l) / total_rate W tb s).
    unfold mass. rewrite sumf_map. cbn [fst snd].
    assert (H := sum_indicator elem_eqb KernelMember.elem_eqb_eq (fun _ => c) e 1 l Hnd Hin).
    rewrite Qmult_1_l in H. rewrite <- H. apply sumf_ext. intros e' _.
    unfold out_eqb. cbn [fst snd oelem_eqb]. rewrite Nat.eqb_refl. cbn [andb].
    assert (Es : elem_eqb e' e = elem_eqb e e').
    { destruct (elem_eqb e e') eqn:E1.
      - apply KernelMember.elem_eqb_eq in E1. subst. apply KernelMember.elem_eqb_eq. reflexivity.
      - destruct (elem_eqb e' e) eqn:E2; [|reflexivity]. apply KernelMember.elem_eqb_eq in E2. subst.
        rewrite (proj2 (KernelMember.elem_eqb_eq e e) eq_refl) in E1. discriminate. }
    rewrite Es. ring.
  - intros k Hk Hne. unfold ctmc_entry. destruct (locus_of W tb s k).
    + rewrite mass_cons, mass_nil. unfold out_eqb. cbn [fst snd]. rewrite (proj2 (Nat.eqb_neq k j) Hne). cbn. ring.
    + unfold mass. rewrite sumf_map. apply sumf_zero. intros e' _. cbn [fst snd]. unfold out_eqb. cbn [fst snd].
      rewrite (proj2 (Nat.eqb_neq k j) Hne). cbn. ring.
Qed.

(* The absorbing jump chain: from s, if the process' own equilibrium test holds or a = 0 the
   observation is reported, otherwise a jump is made and the chain continues from the state the
   loop produces ([next]: clock set to the jump time, event function run and tapped).  For every
   table, observation, list of jump times and start state the law obtained from the model's
   iteration equals the one obtained from the CTMC's jump law.  (Time limit not modelled: the
   chain is followed to absorption or for |nts| jumps.) *)
Theorem C02_outcome_law : forall W (tb : table W) O (observe : st W -> O) (eqbO : option O -> option O -> bool) nts (s : st W),
  deq eqbO (outcome_dist W tb O observe nts s) (ctmc_outcome W tb O observe nts s).
Proof.
  intros W tb O observe eqbO. induction nts as [|nt nts IH]; intros s; cbn [outcome_dist ctmc_outcome].
  - destruct (absorbed W tb s); apply deq_refl.
  - destruct (absorbed W tb s) eqn:Eab; [apply deq_refl|].
    apply (bind_cong out_eqb out_eqb_eq); [|intros je; apply IH].
    apply jump_law. intros E. unfold absorbed in Eab. apply orb_false_iff in Eab.
    assert (E' : sum_rates s (transitions tb) == 0) by (rewrite sum_rates_sumf; exact E).
    apply Qeq_bool_iff in E'. destruct Eab. congruence.
Qed.

(* a process that registers no stochastic event adds no transition: same kinds (process index
   shifted), same rates, same total, same selection *)
Theorem C02_observers_passive : forall W (tb : table W) su (s : st W),
  transitions (with_observer W tb su) = map shift (transitions tb)
  /\ sum_rates s (transitions (with_observer W tb su)) = sum_rates s (transitions tb)
  /\ forall xc cur, select (rate s) xc 0 (shift cur) (transitions (with_observer W tb su))
                    = shift (select (rate s) xc 0 cur (transitions tb)).
Proof.
  intros W tb su s.
  assert (E : transitions (with_observer W tb su) = map shift (transitions tb))
    by exact (transitions_relabel shift (fun _ => eq_refl) tb (with_observer W tb su) (all_events_from_shift (t_procs tb) 0%nat)).
  rewrite E. split; [reflexivity|].
  split; [apply (sum_rates_relabel shift (fun _ => eq_refl)) | intros xc cur; apply (select_relabel shift (fun _ => eq_refl))].
Qed.

(* and its posted events (programs in a set P closed under posting, none of which touches a locus:
   Monitor.observe is [AObserve]) leave loci and the three oracle streams as they were, so the total
   rate, the kind selected and the oracle values consumed by the stochastic part are unchanged *)
Theorem C02_observers_passive_pending : forall W (tb : table W) (P : nat -> Prop) fuel t n (s : st W) trs,
  closed W tb P -> qinv W P s ->
  let s' := snd (run_pending tb fuel t n s) in
  sum_rates s' trs = sum_rates s trs
  /\ (forall xc xs cur, select (rate s') xc xs cur trs = select (rate s) xc xs cur trs)
  /\ rands s' = rands s /\ lns s' = lns s /\ draws s' = draws s.
Proof.
  intros W tb P fuel t n s trs Hc Hq s'. destruct (run_pending_passive W tb P fuel t n s Hc Hq) as [(H1 & H2 & H3 & H4) _].
  fold s' in H1, H2, H3, H4. split; [apply sum_rates_loci; exact H1|].
  split; [intros; apply select_ext; intros x; apply rate_loci; exact H1|]. repeat split; assumption.
Qed.

(* rates 1/2, 0, 1/1000, 1/2 (equal, zero and 1:1000): thresholds at and next to every prefix sum *)
Example C02_ex_select :
  map (fun xc => fst (select (fun x : nat * Q => snd x) xc 0 (0%nat, 0) [(0%nat, 1 # 2); (1%nat, 0); (2%nat, 1 # 1000); (3%nat, 1 # 2)]))
      [0; 499 # 1000; 1 # 2; 5001 # 10000; 501 # 1000; 1 # 1; 1001 # 1000; 2 # 1]
  = [0; 0; 2; 2; 3; 3; 3; 3]%nat.
Proof. vm_compute. reflexivity. Qed.

(* SIR (pInfect 1/2, pRemove 1/4) on the complete graph on 3 nodes seeded at node 0: the jump law in
   the initial state computed through the model: SI edges (1,0), (2,0) and infected node 0, a = 5/4 *)
Example C02_ex_jump_sir_complete :
  jump_probs complete3 0 = [((0%nat, Some (EE 1 0)), 2 # 5); ((0%nat, Some (EE 2 0)), 2 # 5); ((1%nat, Some (EN 0)), 1 # 5)].
Proof. vm_compute. reflexivity. Qed.

(* the examples below evaluate this form: only the entries of the outcome asked for are added, and
   every partial sum is reduced; adding all the entries (349 for the complete graph) unreduced, most
   of them 0 * p with the denominator of p, multiplies the denominators up *)
Lemma pr_filter d x :
  pr d x = Qred (fold_left (fun a yp => Qred (a + snd yp)) (filter (fun yp => opt_eqb Nat.eqb (fst yp) x) d) 0).
Proof. apply Qred_complete. rewrite mass_filter, fold_sumf. unfold total. ring. Qed.

(* exact final-size laws computed through the model's jump chain (handlers of Model/Compart.v run on
   the kernel state) = the CTMC law enumerated by hand: b = 1/2, g = 1/4.
   path 0-1-2 seeded at the end 0: q = b/(b+g) = 2/3;  P(1) = 1-q, P(2) = q(1-q), P(3) = q^2 *)
Example C02_ex_sir_path_end :
  map (pr (final_size_law path3 0 6)) [None; Some 0; Some 1; Some 2; Some 3]%nat = [0; 0; 1 # 3; 2 # 9; 4 # 9].
Proof. rewrite (map_ext _ _ (pr_filter _)). vm_compute. reflexivity. Qed.

(* path seeded in the middle: P(1) = g/(2b+g) = 1/5, then the other end is reached with prob. 2/3 *)
Example C02_ex_sir_path_middle :
  map (pr (final_size_law path3 1 6)) [None; Some 0; Some 1; Some 2; Some 3]%nat = [0; 0; 1 # 5; 4 # 15; 8 # 15].
Proof. rewrite (map_ext _ _ (pr_filter _)). vm_compute. reflexivity. Qed.

(* complete graph: P(1) = g/(2b+g) = 1/5;  P(2) = 4/5 * (2g/(2b+2g)) * (g/(b+g)) = 4/45;  P(3) = 32/45 *)
Example C02_ex_sir_complete :
  map (pr (final_size_law complete3 0 6)) [None; Some 0; Some 1; Some 2; Some 3]%nat = [0; 0; 1 # 5; 4 # 45; 32 # 45].
Proof. rewrite (map_ext _ _ (pr_filter _)). vm_compute. reflexivity. Qed.

(* a whole run of the loop on one oracle, bare and behind a Monitor observing every 1/2: same event
   functions on the same elements, same oracle values left over, 14 observations made *)
Example C02_ex_observer_run :
  entries (r_out (ex_run (Some (1 # 2)))) = entries (r_out (ex_run None))
  /\ length (entries (r_out (ex_run None))) = 5%nat
  /\ nobs (r_out (ex_run (Some (1 # 2)))) = 14%nat
  /\ rands (r_final (ex_run (Some (1 # 2)))) = rands (r_final (ex_run None))
  /\ draws (r_final (ex_run (Some (1 # 2)))) = draws (r_final (ex_run None))
  /\ r_stuck (ex_run (Some (1 # 2))) = false.
Proof. vm_compute. repeat split. Qed.

(* the hypotheses of C02_step hold in the initial state of that run: no posted event, running, two transitions *)
Example C02_ex_step_hypotheses :
  let tb := sir_table_until 6 complete3 0 None in
  let s := setup_state tb ex_rands ex_lns ex_draws in
  queue s = [] /\ running _ tb 0 s /\ length (transitions tb) = 2%nat /\ length (rands s) = 12%nat.
Proof. vm_compute. repeat split. Qed.

(* the hypotheses of C02_observers_passive_pending hold for the Monitor in front of SIR: its only posted
   program (number 2) is [AObserve], and the queue holds only that observation *)
Example C02_ex_monitor_passive :
  let tb := sir_table_until 6 complete3 0 (Some (1 # 2)) in
  closed _ tb (fun k => k = 2%nat) /\ qinv _ (fun k => k = 2%nat) (setup_state tb ex_rands ex_lns ex_draws)
  /\ length (queue (setup_state tb ex_rands ex_lns ex_draws)) = 1%nat.
Proof.
  split; [|split].
  - intros k -> t e l w. cbn. constructor; [exact I | constructor].
  - unfold qinv. vm_compute. constructor; [reflexivity | constructor].
  - vm_compute. reflexivity.
Qed.
