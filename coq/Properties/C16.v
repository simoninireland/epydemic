(* C16 - generating-function algebra agrees with exact polynomial arithmetic.
   Each statement is proved in a few lines from the lemmas of Proofs/GF*.v.
   [coeff g i] is gf[i], [eval g x] is gf(x) (the 301-term loop at the leaves), [deriv k g] is
   gf.dx(k), [scale]/[gadd]/[gsub]/[gmul]/[gdiv]/... the operator layer, [build e] the object a
   program over the operators constructs.  All equalities are == on Q (what Fraction's == is).
   [sumn n f] = f 0 + ... + f (n-1)  (Proofs/GFSum.v). *)
From Coq Require Import List ZArith QArith Bool Arith Lia.
From EpyV Require Import Lib.Prelude Model.GF Proofs.GFSum Proofs.GFCoeff Proofs.GFDeriv Proofs.GFEval.
Import ListNotations.
Open Scope Q_scope.

Theorem C16_sum : forall a b i, coeff (Sum a b) i == coeff a i + coeff b i.
Proof. intros. reflexivity. Qed.

(* ProductGF's forwards/backwards enumeration of index pairs is the Cauchy product *)
Theorem C16_prod_cauchy : forall a b i,
  coeff (Prod a b) i == sumn (S i) (fun j => coeff a j * coeff b (i - j)%nat).
Proof. exact coeff_Prod. Qed.

Theorem C16_scale : forall n g i, coeff (scale n g) i == n * coeff g i.
Proof. exact coeff_scale. Qed.

(* the operators with number operands: a number is the constant polynomial *)
Theorem C16_add_num : forall f n i, coeff (gadd_num f n) i == coeff f i + (if (i =? 0)%nat then n else 0).
Proof. exact coeff_gadd_num. Qed.

Theorem C16_sub : forall f g n i,
  coeff (gsub f g) i == coeff f i - coeff g i /\
  coeff (gsub_num f n) i == coeff f i - (if (i =? 0)%nat then n else 0).
Proof. intros. split; [apply coeff_gsub | apply coeff_gsub_num]. Qed.

Theorem C16_mul : forall f g n i,
  coeff (gmul f g) i == sumn (S i) (fun j => coeff f j * coeff g (i - j)%nat) /\
  coeff (gmul_num f n) i == n * coeff f i.
Proof. intros. split; [apply coeff_Prod | apply coeff_scale]. Qed.

(* division: by zero the code raises (the model has no value), otherwise coefficientwise division *)
Theorem C16_div : forall f n,
  (n == 0 -> gdiv f n = None) /\
  (~ n == 0 -> exists h, gdiv f n = Some h /\ forall i, coeff h i == coeff f i / n).
Proof.
  intros f n. split; [apply gdiv_zero|]. intros Hn. exists (scale (1 / n) f). split; [apply gdiv_nonzero; exact Hn|].
  intros i. rewrite coeff_scale. field. exact Hn.
Qed.

(* the fuel used by [deriv] (and any larger amount) suffices: the out-of-fuel value never appears *)
Theorem C16_deriv_fuel : forall k g fuel, (deriv_fuel k g <= fuel)%nat -> deriv_on fuel k g = Some (deriv k g).
Proof.
  intros k g fuel Hf. destruct (deriv_on_fuel k g fuel Hf) as [d E]. rewrite E. f_equal.
  exact (derives_fun (deriv_on_derives E) (deriv_derives k g)).
Qed.

(* [deriv] satisfies the recursion of FunctionGF/SumGF/ProductGF.derivative literally *)
Theorem C16_deriv_equations : forall k c m a b,
  deriv k (Fn c m) = Fn (dcoef c k) m /\
  deriv k (Sum a b) = Sum (deriv k a) (deriv k b) /\
  deriv 0 (Prod a b) = Prod a b /\
  deriv (S k) (Prod a b) = deriv k (Sum (Prod (deriv 1 a) b) (Prod a (deriv 1 b))).
Proof.
  intros. split; [|split; [|split]]; apply (derives_fun (deriv_derives _ _)); econstructor; apply deriv_derives.
Qed.

(* coefficient i of the k-th derivative = (i+k)!/i! * coefficient i+k *)
Theorem C16_deriv : forall k g i,
  coeff (deriv k g) i == qn (fact (i + k)) / qn (fact i) * coeff g (i + k)%nat.
Proof. exact coeff_deriv_fact. Qed.

Theorem C16_deriv_first : forall g i, coeff (deriv 1 g) i == qn (S i) * coeff g (S i).
Proof. intros g i. rewrite coeff_deriv, ffq_1, Nat.add_1_r. reflexivity. Qed.

(* every leaf's coefficients end by its own _maxTerm (always so for coefficient lists, whose _maxTerm
   is their length; degree <= 300 for coefficient functions): evaluate() is the value of the polynomial
   with the tree's coefficients (N: any bound on its degree; the coefficients above degb are 0) *)
Theorem C16_eval : forall g x, leaves_within (fun m => m) g ->
  forall N, (degb (fun m => m) g <= N)%nat -> eval g x == sumn (S N) (fun i => coeff g i * qpow x i).
Proof. intros g x H N HN. exact (eval_cut_poly (fun m => m) g x H N HN). Qed.

Theorem C16_coeff_above_degree : forall g, leaves_within (fun m => m) g ->
  forall i, (degb (fun m => m) g < i)%nat -> coeff g i == 0.
Proof. exact (coeff_vanish (fun m => m)). Qed.

Theorem C16_eval_deriv : forall k g x, leaves_within (fun m => m) g ->
  forall N, (degb (fun m => m) g <= N)%nat ->
  eval (deriv k g) x == sumn (S N) (fun i => qn (fact (i + k)) / qn (fact i) * coeff g (i + k)%nat * qpow x i).
Proof.
  intros k g x H N HN. unfold eval. rewrite (eval_deriv (fun m => m) k g x H N HN).
  apply sumn_ext. intros i _. rewrite ffq_quot. reflexivity.
Qed.

(* scaling and differentiating keep every leaf within its loop and do not raise the degree *)
Theorem C16_closure : forall cut n k g, leaves_within cut g ->
  leaves_within cut (scale n g) /\ leaves_within cut (deriv k g) /\
  (degb cut (deriv k g) <= degb cut g)%nat /\ degb cut (scale n g) = degb cut g.
Proof.
  intros cut n k g H. destruct (deriv_within_degb cut k g H) as [V D].
  split; [apply scale_within; exact H | split; [exact V | split; [exact D | apply scale_degb]]].
Qed.

(* the loops may stop anywhere past the leaves' degrees (e.g. all at term 300, as the tree did before
   fix F12, when the leaves have degree <= 300) *)
Theorem C16_eval_cutoff : forall cut cut' g x, leaves_within cut g -> leaves_within cut' g ->
  eval_cut cut g x == eval_cut cut' g x.
Proof. exact eval_cut_indep. Qed.

(* the only failure is a division by zero somewhere in the program *)
Theorem C16_expr_defined : forall e, build e = None <-> divides_by_zero e.
Proof. exact build_None. Qed.

(* gf[i] = the coefficient computed by exact polynomial arithmetic ([sem]: sum, difference, Cauchy
   product, scaling, division, (i+k)!/i! shift, constants) *)
Theorem C16_expr_coeff : forall e g, build e = Some g -> forall i, coeff g i == sem e i.
Proof. exact build_coeff. Qed.

(* gf(x) = the value of that polynomial (coefficient lists of any length; coefficient functions
   that end by term 300) *)
Theorem C16_expr_eval : forall e g x, build e = Some g -> funcs_short e ->
  forall N, (degb (fun m => m) g <= N)%nat -> eval g x == sumn (S N) (fun i => sem e i * qpow x i).
Proof.
  intros e g x Hb Hs N HN. unfold eval.
  rewrite (eval_cut_poly (fun m => m) g x (build_within _ e g Hb (funcs_short_leaves_ok e Hs)) N HN).
  apply sumn_ext. intros i _. rewrite (build_coeff e g Hb). reflexivity.
Qed.

(* tie B sums every leaf as far as the longest coefficient list: that is [eval], and for lists of at
   most 301 entries it is also the all-leaves-to-300 evaluation of the tree before fix F12 *)
Theorem C16_tie_eval_is_eval : forall e g x, build e = Some g ->
  (funcs_short e -> eval_to (max_len e) g x == eval g x) /\
  ((max_len e <= S max_term)%nat -> eval_to (max_len e) g x == eval_to max_term g x).
Proof.
  intros e g x Hb. split; intros H; apply eval_cut_indep; apply (build_within _ e g Hb).
  - apply max_len_leaves_ok. lia.
  - apply funcs_short_leaves_ok, H.
  - apply max_len_leaves_ok. lia.
  - apply max_len_leaves_ok, H.
Qed.

(* (1 + 2x) * ((1/2 - 3x^2) + x), its second derivative, values at 2/3 *)
Example C16_example :
  let e := EMul (ECoeffs [1; 2 # 1]) (EAdd (ECoeffs [1 # 2; 0; -3 # 1]) (EFunc [0; 1])) in
  exists g, build e = Some g /\ funcs_short e /\ leaves_within (fun m => m) g /\ degb (fun m => m) g = 302%nat /\
    list_eqb Qeq_bool (map (coeff g) [0; 1; 2; 3; 4]%nat) [1 # 2; 2 # 1; -1 # 1; -6 # 1; 0] = true /\
    coeff (deriv 2 g) 1 == -36 # 1 /\ eval_to (max_len e) g (2 # 3) == -7 # 18 /\ eval_to (max_len e) (deriv 2 g) (2 # 3) == -26 # 1.
Proof.
  intros e. assert (Hs : funcs_short e) by (simpl; unfold max_term; lia).
  eexists. split; [reflexivity|]. split; [exact Hs|]. split; [|split; [|split]].
  - exact (build_within _ e _ eq_refl (funcs_short_leaves_ok e Hs)).
  - reflexivity.
  - vm_compute. reflexivity.
  - split; [|split]; vm_compute; reflexivity.
Qed.
