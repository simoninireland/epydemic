(* C04 - posted events fire exactly once, at their time, in posting order on ties (the posted-event
   queue of Model/Kernel.v against its abstract reading: the LIVE entries ordered by (time, id)).
   The invariants and lemmas the proofs assemble are in Proofs/Kernel*.v.  Everything is for every user-state type W,
   every table (arbitrary handler programs that post / un-post / query / change loci), every
   oracle and every fuel.

   Vocabulary:
     wf s               ids in the queue are pairwise distinct and < nextid s (holds after set-up and
                        is preserved by every operation, C04_wf_action etc.)
     before a b         the heap order: earlier time, or equal time (==) and smaller id
     dead x / unposted x   x with e_live := false / the record OUnpost (e_id x) (Some (Some (e_time x)))
     gone_st i s        id i was allocated (< nextid) and no live entry carries it
     the_id k s         ids[k mod |ids|], the id an AUnpost k / AQuery k addresses
     pending_fired tb fuel t n s   the entries popped and fired by run_pending tb fuel t n s, in order
     stoch_fired / sync_fired      the same for a whole run
     hrec x             OHandler (e_prog x) (e_time x) (e_time x) (e_elem x) None: what firing x records
     succ_of x ddt y    y = the entry a repeating x posts when it fires: time Qred (e_time x + ddt),
                        same process, element, program and period
     absq q             the abstract queue: the live entries of q sorted by [before] (Proofs/KernelAbs.v) *)
From Coq Require Import List ZArith QArith Qabs Bool Arith Lia Lqa Sorted.
From EpyV Require Import Lib.Lists Model.Kernel Proofs.KernelBase Proofs.KernelLoops Proofs.KernelQueue
  Proofs.KernelFire Proofs.KernelTime Proofs.KernelResults Proofs.KernelAbs Proofs.KernelExample.
Import ListNotations.
Open Scope Q_scope.

Theorem C04_past_rejected : forall W (s : st W) t p e prog rep,
  Qltb t (clock s) = true -> post t p e prog rep s = (None, s).
Proof. intros W s t p e prog rep H. unfold post. rewrite H. reflexivity. Qed.

Theorem C04_post_accepted : forall W (s : st W) t p e prog rep,
  Qltb t (clock s) = false ->
  exists s', post t p e prog rep s = (Some (nextid s), s') /\
    queue s' = mk_entry t (nextid s) p e prog rep :: queue s /\ nextid s' = S (nextid s) /\
    clock s' = clock s /\ out s' = out s.
Proof. intros W s t p e prog rep H. unfold post. rewrite H. eexists. split; [reflexivity|]. cbn. auto. Qed.

Theorem C04_wf_action : forall W (s : st W) p t e a, wf s -> wf (do_action p t e a s).
Proof. intros W s p t e a. exact (do_action_wf p t e a s). Qed.

Theorem C04_wf_run_pending : forall W (tb : table W) fuel t n s n' s',
  wf s -> run_pending tb fuel t n s = (n', s') -> wf s'.
Proof.
  intros W tb fuel t n s n' s'. rewrite !wf_wfk. intros Hw H. apply run_pending_L, run_pendingL_kmoves in H.
  exact (wfk_kmoves H Hw).
Qed.

Theorem C04_wf_runs : forall W (tb : table W) pf fuel rs ls ds,
  wf (r_final (stoch_run tb pf fuel rs ls ds)) /\ wf (r_final (sync_run tb pf fuel rs ds)).
Proof.
  intros. rewrite !wf_wfk. split; [exact (g_wf (run_ginv _ _ (stoch_run_of tb pf fuel rs ls ds)))
                                  |exact (g_wf (run_ginv _ _ (sync_run_of tb pf fuel rs ds)))].
Qed.

(* after _discardUnpostedEvents the head of the heap is the minimum LIVE entry under (time, id);
   lazily deleted entries are invisible *)
Theorem C04_head_is_min_live : forall W (s : st W), wf s ->
  match head (queue (discard s)) with
  | None => forall x, In x (queue s) -> e_live x = false
  | Some h => In h (queue s) /\ e_live h = true /\
              forall x, In x (queue s) -> e_live x = true -> x = h \/ before h x = true
  end.
Proof.
  intros W s [Hnd Hlt].
  assert (Hk : forall x, In x (queue s) -> e_live x = true -> In x (queue (discard s)))
    by (intros x Hx Hl; unfold discard; cbn; apply discard_dead_keeps_live; assumption).
  destruct (head (queue (discard s))) as [h|] eqn:Eh.
  - pose proof (discard_dead_incl _ _ _ (head_in _ _ Eh)) as Hq.
    split; [exact Hq|split; [exact (discard_head_live _ _ Eh)|]].
    intros x Hx Hl. destruct (Nat.eq_dec (e_id x) (e_id h)) as [E|E].
    + left. eapply NoDup_id_inj; eassumption.
    + right. apply before_total; [exact E|]. exact (head_min _ _ Eh x (Hk x Hx Hl)).
  - apply head_none in Eh. intros x Hx. destruct (e_live x) eqn:El; [|reflexivity].
    specialize (Hk x Hx El). rewrite Eh in Hk. destruct Hk.
Qed.

Theorem C04_next_pending_time : forall W (s : st W), wf s ->
  match fst (next_pending_time s) with
  | None => forall x, In x (queue s) -> e_live x = false
  | Some t => exists h, t = e_time h /\ In h (queue s) /\ e_live h = true /\
              forall x, In x (queue s) -> e_live x = true -> x = h \/ before h x = true
  end.
Proof.
  intros W s Hw. pose proof (C04_head_is_min_live W s Hw) as H. unfold next_pending_time. cbn [fst].
  destruct (head (queue (discard s))) as [h|]; cbn; [exists h; split; [reflexivity|exact H]|exact H].
Qed.

(* un-posting a pending id returns exactly its time, lazily deletes it, and the id is gone *)
Theorem C04_unpost_live : forall W (s : st W) p t e k fatal x,
  wf s -> ids s <> [] -> find_live (the_id k s) (queue s) = Some x ->
  let s' := do_action p t e (AUnpost k fatal) s in
  s' = emit (OUnpost (the_id k s) (Some (Some (e_time x)))) (set_queue (kill (the_id k s) (queue s)) s) /\
  In x (queue s) /\ e_id x = the_id k s /\ e_live x = true /\
  gone_st (the_id k s) s'.
Proof.
  intros W s p t e k fatal x Hw Hi Hf. cbv zeta. rewrite (unpost_live p t e k fatal s x Hi Hf).
  split; [reflexivity|]. destruct (find_live_some _ _ _ Hf) as [A [B C]].
  split; [exact A|split; [exact B|split; [exact C|]]].
  split; cbn; [|apply find_live_kill]. rewrite <- B. destruct Hw as [_ Hlt]. rewrite Forall_forall in Hlt. apply Hlt, A.
Qed.

(* an id that has fired or has been un-posted: KeyError when fatal, None otherwise; asking for its
   time is a KeyError *)
Theorem C04_unpost_gone : forall W (s : st W) p t e k fatal,
  gone_st (the_id k s) s -> ids s <> [] ->
  do_action p t e (AUnpost k fatal) s = emit (OUnpost (the_id k s) (if fatal then None else Some None)) s.
Proof.
  intros W s p t e k fatal [_ G] Hi. unfold the_id in *. cbn [do_action]. destruct (ids s) as [|i0 l0]; [contradiction|].
  rewrite G. reflexivity.
Qed.

Theorem C04_query_gone : forall W (s : st W) p t e k,
  gone_st (the_id k s) s -> ids s <> [] ->
  do_action p t e (AQuery k) s = emit (OQuery (the_id k s) None) s.
Proof. intros W s p t e k [_ G] Hi. rewrite (query_spec p t e k s Hi), G. reflexivity. Qed.

Theorem C04_query_pending : forall W (s : st W) p t e k, ids s <> [] ->
  do_action p t e (AQuery k) s = emit (OQuery (the_id k s) (option_map e_time (find_live (the_id k s) (queue s)))) s.
Proof. intros W s p t e k. exact (query_spec p t e k s). Qed.

(* gone is for ever: no action, no run_pending, no scheduler loop (C04_gone_forever_loops) brings
   the id back, and it is never fired *)
Theorem C04_gone_forever_action : forall W (s : st W) i p t e a, gone_st i s -> gone_st i (do_action p t e a s).
Proof. intros W s i p t e a. exact (gone_umoves i (do_action_umoves p t e a s)). Qed.

Theorem C04_gone_forever_pending : forall W (tb : table W) fuel t n s n' s' i,
  gone_st i s -> run_pending tb fuel t n s = (n', s') ->
  gone_st i s' /\ ~ In i (map e_id (pending_fired tb fuel t n s)).
Proof.
  intros W tb fuel t n s n' s' i G H. apply run_pending_L, run_pendingL_kmoves in H.
  exact (gone_kmoves i H G).
Qed.

Theorem C04_fired_is_gone : forall W (tb : table W) fuel t n s n' s' x,
  wf s -> run_pending tb fuel t n s = (n', s') -> In x (pending_fired tb fuel t n s) -> gone_st (e_id x) s'.
Proof.
  intros W tb fuel t n s n' s' x Hw H Hx.
  destruct (run_pendingL_ginv Hw (run_pending_L H)) as [d [E G]].
  destruct (g_fired G x Hx) as [A [B _]]. split; [exact A|].
  apply find_live_none. intros z Hz Ez. exfalso. apply B. rewrite <- Ez. apply in_map, Hz.
Qed.

(* in a whole run: a successful un-post of i means i never fires and is gone at the end *)
Theorem C04_unposted_never_fires : forall W (tb : table W) pf fuel rs ls ds i r,
  (In (OUnpost i (Some (Some r))) (r_out (stoch_run tb pf fuel rs ls ds)) ->
     gone_st i (r_final (stoch_run tb pf fuel rs ls ds)) /\ ~ In i (map e_id (stoch_fired tb pf fuel rs ls ds))) /\
  (In (OUnpost i (Some (Some r))) (r_out (sync_run tb pf fuel rs ds)) ->
     gone_st i (r_final (sync_run tb pf fuel rs ds)) /\ ~ In i (map e_id (sync_fired tb pf fuel rs ds))).
Proof.
  intros W tb pf fuel rs ls ds i r.
  split; [exact (run_unposted _ _ (stoch_run_of tb pf fuel rs ls ds) i r)|exact (run_unposted _ _ (sync_run_of tb pf fuel rs ds) i r)].
Qed.

Theorem C04_gone_forever_loops : forall W (tb : table W) pf fuel i,
  (forall t ev s t' ev' s', gone_st i s -> stoch_loop tb pf fuel t ev s = (t', ev', s') -> gone_st i s') /\
  (forall t ev k s t' ev' k' s', gone_st i s -> sync_loop tb pf fuel t ev k s = (t', ev', k', s') -> gone_st i s').
Proof.
  intros W tb pf fuel i. split.
  - intros t ev s t' ev' s' G H. rewrite <- stoch_loopL_fst in H.
    destruct (stoch_loopL tb pf fuel t ev s) as [[[a b] c] l] eqn:E. cbn in H. injection H as -> -> ->.
    exact (proj1 (gone_kmoves i (stoch_loopL_kmoves E) G)).
  - intros t ev k s t' ev' k' s' G H. rewrite <- sync_loopL_fst in H.
    destruct (sync_loopL tb pf fuel t ev k s) as [[[[a b] c] d] l] eqn:E. cbn in H. injection H as -> -> -> ->.
    exact (proj1 (gone_kmoves i (sync_loopL_kmoves E) G)).
Qed.

(* a lazily deleted entry still in the heap at the end of a run is one the user un-posted *)
Theorem C04_dead_entries_were_unposted : forall W (tb : table W) pf fuel rs ls ds x,
  e_live x = false ->
  (In x (queue (r_final (stoch_run tb pf fuel rs ls ds))) -> In (unposted x) (r_out (stoch_run tb pf fuel rs ls ds))) /\
  (In x (queue (r_final (sync_run tb pf fuel rs ds))) -> In (unposted x) (r_out (sync_run tb pf fuel rs ds))).
Proof.
  intros W tb pf fuel rs ls ds x Hl. split; intros Hx.
  - exact (run_dinv _ _ (stoch_run_of tb pf fuel rs ls ds) x Hx Hl).
  - exact (run_dinv _ _ (sync_run_of tb pf fuel rs ds) x Hx Hl).
Qed.

(* what run_pending returns is the number of entries it fired; it fires only live entries due by
   the bound; the handler records it emits are exactly those of the fired entries, in order:
   each handler receives the entry's own time and element *)
Theorem C04_handler_args : forall W (tb : table W) fuel t n s n' s',
  wf s -> run_pending tb fuel t n s = (n', s') ->
  let l := pending_fired tb fuel t n s in
  n' = (n + length l)%nat /\
  (forall x, In x l -> e_time x <= t /\ e_live x = true) /\
  exists d, out s' = d ++ out s /\ filter is_ph (rev d) = map hrec l.
Proof.
  intros W tb fuel t n s n' s' Hw H. cbv zeta. pose proof (run_pending_L H) as HL.
  split; [exact (run_pendingL_length HL)|split; [exact (run_pendingL_fired_le HL)|]].
  destruct (run_pendingL_ginv Hw HL) as [d [E G]].
  exists d. split; [exact E|exact (ph_rev _ _ (g_hrec G))].
Qed.

(* the fired sequence is strictly increasing in (time, id): earlier time first, posting order on
   ties, also for entries posted from inside handlers for times preceding entries already queued *)
Theorem C04_order_run_pending : forall W (tb : table W) fuel t n s n' s',
  wf s -> run_pending tb fuel t n s = (n', s') ->
  StronglySorted (fun a b => before a b = true) (pending_fired tb fuel t n s).
Proof.
  intros W tb fuel t n s n' s' Hw H.
  assert (O : ord_st s []) by (rewrite wf_wfk in Hw; exact (ord_nil _ _ _ Hw)).
  exact (o_sorted (run_pendingL_ord O (run_pending_L H))).
Qed.

Theorem C04_order_stoch : forall W (tb : table W) pf fuel rs ls ds,
  nonneg_tb tb -> Forall (Qle 0) ls ->
  StronglySorted (fun a b => before a b = true) (stoch_fired tb pf fuel rs ls ds) /\
  filter is_ph (r_out (stoch_run tb pf fuel rs ls ds)) = map hrec (stoch_fired tb pf fuel rs ls ds).
Proof.
  intros W tb pf fuel rs ls ds Hnn Hl. split.
  - exact (o_sorted (proj1 (stoch_ord tb pf fuel rs ls ds Hnn Hl))).
  - exact (run_records _ _ (stoch_run_of tb pf fuel rs ls ds)).
Qed.

Theorem C04_order_sync : forall W (tb : table W) pf fuel rs ds,
  StronglySorted (fun a b => before a b = true) (sync_fired tb pf fuel rs ds) /\
  filter is_ph (r_out (sync_run tb pf fuel rs ds)) = map hrec (sync_fired tb pf fuel rs ds).
Proof.
  intros W tb pf fuel rs ds. split.
  - exact (o_sorted (proj1 (sync_ord tb pf fuel rs ds))).
  - exact (run_records _ _ (sync_run_of tb pf fuel rs ds)).
Qed.

(* a pending entry due by the bound of a run_pending that does not run out of fuel, and that no
   handler un-posts, fires: once (no id occurs twice among the fired), with its own time and element *)
Theorem C04_exactly_once : forall W (tb : table W) fuel t n s n' s' y,
  wf s -> run_pending tb fuel t n s = (n', s') -> stuck s' = false ->
  In y (queue s) -> e_live y = true -> e_time y <= t -> ~ In (unposted y) (out s') ->
  In y (pending_fired tb fuel t n s) /\ NoDup (map e_id (pending_fired tb fuel t n s)) /\
  In (OHandler (e_prog y) (e_time y) (e_time y) (e_elem y) None) (out s').
Proof.
  intros W tb fuel t n s n' s' y Hw H Hs Hy Hl Ht Hu. apply run_pending_L in H.
  destruct (run_pendingL_ginv Hw H) as [d [E G]].
  assert (Hin : In y (pending_fired tb fuel t n s)).
  { destruct (run_pendingL_cons y Hw H Hy Hl) as [C|[C|C]]; [exact C| |contradiction].
    pose proof (run_pendingL_none_due H Hs y C Hl). lra. }
  split; [exact Hin|split; [apply (g_nodup G)|]].
  rewrite E. apply in_or_app. left. apply (hrec_in_out _ _ y (g_hrec G)), in_rev. rewrite rev_involutive. exact Hin.
Qed.

(* whatever happens (fuel or not), a pending entry has fired, or is still queued, or was un-posted;
   and when the call does not run out of fuel nothing due by the bound is left, nested posts included *)
Theorem C04_conservation : forall W (tb : table W) fuel t n s n' s',
  wf s -> run_pending tb fuel t n s = (n', s') ->
  (forall y, In y (queue s) -> e_live y = true ->
     In y (pending_fired tb fuel t n s) \/ In y (queue s') \/ In (unposted y) (out s')) /\
  (stuck s' = false -> forall x, In x (queue s') -> e_live x = true -> t < e_time x).
Proof.
  intros W tb fuel t n s n' s' Hw H. pose proof (run_pending_L H) as HL. split.
  - intros y. exact (run_pendingL_cons y Hw HL).
  - exact (run_pendingL_none_due HL).
Qed.

Theorem C04_never_twice : forall W (tb : table W) pf fuel rs ls ds,
  NoDup (map e_id (stoch_fired tb pf fuel rs ls ds)) /\ NoDup (map e_id (sync_fired tb pf fuel rs ds)).
Proof.
  intros. split; [exact (g_nodup (run_ginv _ _ (stoch_run_of tb pf fuel rs ls ds)))
                 |exact (g_nodup (run_ginv _ _ (sync_run_of tb pf fuel rs ds)))].
Qed.

(* the fate of every id handed to user code in a run: the entry it names carries the time the user
   posted it for, and it has fired, or was un-posted (the user got that time back), or is still queued *)
Theorem C04_posted_fate_stoch : forall W (tb : table W) pf fuel rs ls ds i tt,
  let r := stoch_run tb pf fuel rs ls ds in
  In (OPosted i tt) (r_out r) ->
  exists x, e_id x = i /\ e_time x = tt /\ e_live x = true /\
    (In x (stoch_fired tb pf fuel rs ls ds) \/ In (OUnpost i (Some (Some tt))) (r_out r) \/ In x (queue (r_final r))).
Proof. intros W tb pf fuel rs ls ds i tt. exact (run_posted_fate _ _ (stoch_run_of tb pf fuel rs ls ds) i tt). Qed.

Theorem C04_posted_fate_sync : forall W (tb : table W) pf fuel rs ds i tt,
  let r := sync_run tb pf fuel rs ds in
  In (OPosted i tt) (r_out r) ->
  exists x, e_id x = i /\ e_time x = tt /\ e_live x = true /\
    (In x (sync_fired tb pf fuel rs ds) \/ In (OUnpost i (Some (Some tt))) (r_out r) \/ In x (queue (r_final r))).
Proof. intros W tb pf fuel rs ds i tt. exact (run_posted_fate _ _ (sync_run_of tb pf fuel rs ds) i tt). Qed.

(* each firing of a repeating entry (period ddt >= 0) posts its successor at e_time + ddt with the
   same program, element and process; the successor then fires, stays queued or is un-posted *)
Theorem C04_repeating_step : forall W (tb : table W) fuel t n s n' s' x ddt,
  wf s -> run_pending tb fuel t n s = (n', s') ->
  In x (pending_fired tb fuel t n s) -> e_rep x = Some ddt -> 0 <= ddt ->
  exists y, succ_of x ddt y /\
    (In y (pending_fired tb fuel t n s) \/ In y (queue s') \/ In (unposted y) (out s')).
Proof.
  intros W tb fuel t n s n' s' x ddt Hw H.
  exact (run_pendingL_rep_step x ddt Hw (run_pending_L H)).
Qed.

(* hence it fires at t0, t0 + ddt, t0 + 2 ddt, ... as far as the bound reaches *)
Theorem C04_repeating : forall W (tb : table W) fuel t n s n' s' x ddt,
  wf s -> run_pending tb fuel t n s = (n', s') -> stuck s' = false ->
  (forall i r, ~ In (OUnpost i (Some (Some r))) (out s')) ->
  In x (pending_fired tb fuel t n s) -> e_rep x = Some ddt -> 0 <= ddt ->
  forall k : nat, e_time x + inject_Z (Z.of_nat k) * ddt <= t ->
  exists y, In y (pending_fired tb fuel t n s) /\ e_time y == e_time x + inject_Z (Z.of_nat k) * ddt /\
            e_prog y = e_prog x /\ e_elem y = e_elem x /\ e_proc y = e_proc x /\ e_rep y = Some ddt.
Proof.
  intros W tb fuel t n s n' s' x ddt Hw H Hs Hnu Hx Hr Hd. apply run_pending_L in H.
  induction k as [|k IH]; intros Hk.
  - exists x. split; [exact Hx|split; [rewrite inj_nat_0; lra|auto]].
  - rewrite inj_nat_S in Hk.
    assert (Hk' : e_time x + inject_Z (Z.of_nat k) * ddt <= t).
    { assert (0 <= inject_Z (Z.of_nat k)) by (change 0 with (inject_Z 0); rewrite <- Zle_Qle; lia). nra. }
    destruct (IH Hk') as [y [Hy [Ty [P1 [P2 [P3 P4]]]]]].
    destruct (run_pendingL_rep_step y ddt Hw H Hy P4 Hd) as [z [Sz Cz]].
    destruct (succ_fields _ _ _ Sz) as [F1 [F2 [F3 [F4 [F5 F6]]]]].
    assert (Tz : e_time z == e_time x + inject_Z (Z.of_nat (S k)) * ddt).
    { rewrite F1, Qred_correct, Ty, inj_nat_S. ring. }
    exists z. split; [|split; [exact Tz|repeat split; congruence]].
    destruct Cz as [C|[C|C]]; [exact C| |exfalso; eapply Hnu; exact C].
    exfalso. pose proof (run_pendingL_none_due H Hs z C F6) as Hlt.
    rewrite Tz, inj_nat_S in Hlt. lra.
Qed.

Theorem C04_repeating_runs : forall W (tb : table W) pf fuel rs ls ds x ddt,
  e_rep x = Some ddt -> 0 <= ddt ->
  (In x (stoch_fired tb pf fuel rs ls ds) ->
     exists y, succ_of x ddt y /\
       (In y (stoch_fired tb pf fuel rs ls ds) \/ In y (queue (r_final (stoch_run tb pf fuel rs ls ds))) \/
        In (unposted y) (r_out (stoch_run tb pf fuel rs ls ds)))) /\
  (In x (sync_fired tb pf fuel rs ds) ->
     exists y, succ_of x ddt y /\
       (In y (sync_fired tb pf fuel rs ds) \/ In y (queue (r_final (sync_run tb pf fuel rs ds))) \/
        In (unposted y) (r_out (sync_run tb pf fuel rs ds)))).
Proof.
  intros W tb pf fuel rs ls ds x ddt Hr Hd. split; intros Hx.
  - exact (run_rep _ _ (stoch_run_of tb pf fuel rs ls ds) x ddt Hx Hr Hd).
  - exact (run_rep _ _ (sync_run_of tb pf fuel rs ds) x ddt Hx Hr Hd).
Qed.

(* when StochasticDynamics.do returns (not stuck), every posted event still pending is due at or
   after the reported end time: everything due strictly before it has fired or was un-posted *)
Theorem C04_stochastic_end : forall W (tb : table W) pf fuel rs ls ds,
  nonneg_tb tb -> Forall (Qle 0) ls ->
  let r := stoch_run tb pf fuel rs ls ds in
  r_stuck r = false -> forall x, In x (queue (r_final r)) -> e_live x = true -> r_time r <= e_time x.
Proof.
  intros W tb pf fuel rs ls ds Hnn Hl. cbv zeta. intros Hs.
  exact (t_live (stoch_tinv tb pf fuel rs ls ds Hnn Hl Hs)).
Qed.

(* synchronous: every pending event is due at or after the last executed step TIME - 1 *)
Theorem C04_synchronous_end : forall W (tb : table W) pf fuel rs ds,
  let r := sync_run tb pf fuel rs ds in
  r_stuck r = false -> forall x, In x (queue (r_final r)) -> e_live x = true -> r_time r <= e_time x + 1.
Proof.
  intros W tb pf fuel rs ds. cbv zeta. intros Hs x Hx Hl.
  destruct (sync_tinv tb pf fuel rs ds Hs) as [L [HL T]]. pose proof (t_live T x Hx Hl). rewrite <- HL. lra.
Qed.

(* absq q: exactly the live entries of q, sorted by (time, id), strictly when ids are distinct *)
Theorem C04_abs_spec : forall q,
  (forall x, In x (absq q) <-> In x q /\ e_live x = true) /\
  StronglySorted (fun a b => before b a = false) (absq q) /\
  (NoDup (map e_id q) -> StronglySorted (fun a b => before a b = true) (absq q)).
Proof.
  intros q. split; [exact (absq_in q)|split; [exact (absq_asc q)|]].
  intros H. pose proof (absq_ids_NoDup q H) as Hn. pose proof (absq_asc q) as Ha.
  induction Ha as [|a l Hs IH Hf]; [constructor|]. cbn in Hn. inversion Hn as [|? ? Hna Hnl]; subst.
  constructor; [auto|]. rewrite Forall_forall in *. intros b Hb. apply before_total; [|auto].
  intros E. apply Hna. rewrite <- E. apply in_map, Hb.
Qed.

(* postEvent is sorted insertion *)
Theorem C04_refines_post : forall W (s : st W) t p e prog rep,
  Qltb t (clock s) = false ->
  absq (queue (snd (post t p e prog rep s))) = insert (mk_entry t (nextid s) p e prog rep) (absq (queue s)).
Proof. intros W s t p e prog rep H. unfold post. rewrite H. exact (absq_post (mk_entry t (nextid s) p e prog rep) (queue s) eq_refl). Qed.

(* unpostEvent deletes the id from the abstract queue (lazy deletion in the heap is invisible) *)
Theorem C04_refines_unpost : forall i q, absq (kill i q) = filter (id_not i) (absq q).
Proof. intros i q. unfold absq. rewrite live_kill, filter_isort. reflexivity. Qed.

(* _discardUnpostedEvents does not change the abstract queue *)
Theorem C04_refines_discard : forall W (s : st W), wf s -> absq (queue (discard s)) = absq (queue s).
Proof. intros W s Hw. exact (absq_discard _ (queue s) (proj1 Hw)). Qed.

(* the head of the heap after discarding is the head of the abstract queue, and popping it leaves the tail *)
Theorem C04_refines_head : forall W (s : st W), wf s -> head (queue (discard s)) = hd_error (absq (queue s)).
Proof.
  intros W s Hw. pose proof (C04_head_is_min_live W s Hw) as H.
  destruct (head (queue (discard s))) as [h|].
  - destruct H as [Hin [Hl Hmin]].
    assert (Hh : In h (absq (queue s))) by (apply absq_in; auto).
    pose proof (absq_asc (queue s)) as Ha. destruct (absq (queue s)) as [|m rest] eqn:E; [destruct Hh|].
    cbn. f_equal. assert (Hm : In m (queue s) /\ e_live m = true) by (apply absq_in; rewrite E; left; reflexivity).
    destruct (Hmin m (proj1 Hm) (proj2 Hm)) as [->|Hb]; [reflexivity|].
    destruct Hh as [->|Hh]; [reflexivity|]. inversion Ha as [|? ? _ Hf]; subst.
    rewrite Forall_forall in Hf. rewrite (Hf h Hh) in Hb. discriminate.
  - unfold absq. replace (filter e_live (queue s)) with (@nil entry); [reflexivity|].
    symmetry. induction (queue s) as [|x q IH]; cbn; [reflexivity|].
    rewrite (H x (or_introl eq_refl)). apply IH. intros y Hy. apply H. right. exact Hy.
Qed.

Theorem C04_refines_pop : forall W (s : st W) h, wf s -> head (queue (discard s)) = Some h ->
  absq (remove_id (e_id h) (queue (discard s))) = tl (absq (queue s)).
Proof.
  intros W s h Hw Hh. pose proof Hw as [Hnd _].
  assert (Hnd' : NoDup (map e_id (queue (discard s)))) by (unfold discard; cbn; apply discard_dead_NoDup, Hnd).
  rewrite (absq_remove _ _ Hnd'). unfold discard. cbn [queue set_queue]. rewrite (absq_discard _ _ Hnd).
  pose proof (C04_refines_head W s Hw) as E. rewrite Hh in E.
  pose proof (absq_ids_NoDup _ Hnd) as Hn.
  destruct (absq (queue s)) as [|m rest]; [discriminate|]. cbn in E. injection E as <-. cbn.
  unfold id_not at 1. rewrite Nat.eqb_refl. cbn. apply filter_all. intros x Hx. unfold id_not.
  destruct (Nat.eqb_spec (e_id x) (e_id h)) as [E|E]; [|reflexivity]. exfalso.
  cbn in Hn. inversion Hn as [|? ? Hna _]; subst. apply Hna. rewrite <- E. apply in_map, Hx.
Qed.

(* Proofs/KernelExample.v.  After set-up the heap holds ids 0 (1/2, repeating), 1 (2), 2 (5/2) and the
   un-posted 3 (7/4, dead).  run_pending up to 5/2 fires six entries: the repeating one at 1/2 and 3/2,
   id 1 at 2 whose handler posts id 6 for 9/4 (before the queued 5/2), then 6, then the tie at 5/2 in
   posting order (id 2 before the third repetition id 5); the dead entry never fires; the successor
   7/2 stays queued. *)
Example C04_example_run_pending :
  let s := setup_state ex_tb [] [] [] in
  wf s /\
  map (fun x => (key x, e_live x)) (queue s) =
    [((7 # 4, 3%nat), false); ((5 # 2, 2%nat), true); ((2, 1%nat), true); ((1 # 2, 0%nat), true)] /\
  map key (absq (queue s)) = [(1 # 2, 0%nat); (2, 1%nat); (5 # 2, 2%nat)] /\
  option_map key (head (queue (discard s))) = Some (1 # 2, 0%nat) /\
  let '(n, s') := run_pending ex_tb 20 (5 # 2) 0 s in
  n = 6%nat /\ stuck s' = false /\
  map key (pending_fired ex_tb 20 (5 # 2) 0 s) =
    [(1 # 2, 0%nat); (3 # 2, 4%nat); (2, 1%nat); (9 # 4, 6%nat); (5 # 2, 2%nat); (5 # 2, 5%nat)] /\
  map (fun x => (key x, e_live x)) (queue s') = [((7 # 2, 7%nat), true)].
Proof.
  cbv zeta. vm_compute. split; [|repeat split].
  split; [repeat constructor; cbn; intuition discriminate|repeat constructor].
Qed.

(* whole runs on the same table (outputs in Properties/C03.v): the premises of the order theorems
   hold and the fired sequences are as expected; at the end of the stochastic run (TIME = 4) the
   only pending entry is due at 9/2 *)
Example C04_example_runs :
  nonneg_tb ex_tb /\ Forall (Qle 0) ex_lns /\
  r_stuck (stoch_run ex_tb 50 50 ex_rands ex_lns ex_draws) = false /\
  map key (stoch_fired ex_tb 50 50 ex_rands ex_lns ex_draws) =
    [(1 # 2, 0%nat); (3 # 2, 4%nat); (2, 1%nat); (9 # 4, 6%nat); (5 # 2, 2%nat); (5 # 2, 5%nat); (7 # 2, 7%nat)] /\
  map (fun x => (key x, e_live x)) (queue (r_final (stoch_run ex_tb 50 50 ex_rands ex_lns ex_draws))) =
    [((9 # 2, 8%nat), true)] /\
  r_stuck (sync_run ex_tb 50 50 ex_sync_rands ex_draws) = false /\
  map key (sync_fired ex_tb 50 50 ex_sync_rands ex_draws) = [(1 # 2, 0%nat); (3 # 2, 4%nat); (2, 1%nat)] /\
  map (fun x => (key x, e_live x)) (queue (r_final (sync_run ex_tb 50 50 ex_sync_rands ex_draws))) =
    [((9 # 4, 6%nat), true); ((5 # 2, 5%nat), true); ((5 # 2, 2%nat), true)].
Proof.
  split; [|split].
  - repeat constructor. unfold Qle. cbn. lia.
  - repeat constructor; unfold Qle; cbn; lia.
  - repeat split; vm_compute; reflexivity.
Qed.
