(* C12 - Monitor time series and network statistics report the true state.
   Statistics clause: theorems about Model/NetStats.v.  Monitor clause: theorems about the
   observation action of Model/Kernel.v (a Monitor is the repeating posted program [AObserve]). *)
From Coq Require Import List ZArith QArith Bool Arith Lia Permutation Lqa Sorted.
From EpyV Require Import Lib.Prelude Model.NetStats Proofs.NetStats Proofs.NetStatsComp
  Model.Kernel Proofs.KernelBase Proofs.KernelLoops Proofs.KernelQueue Proofs.KernelFire
  Proofs.KernelTime Proofs.KernelResults Proofs.KernelMonitor Proofs.KernelExample.
Import ListNotations.
Close Scope Q_scope.

(* the reported histogram: entry i is the number of nodes of degree i, for i = 0 .. maximum degree *)
Theorem C12_histogram : forall nodes es, nodes <> [] ->
  length (s_kdist (statistics nodes es)) = S (max_degree nodes es) /\
  forall i, i <= max_degree nodes es -> nth i (s_kdist (statistics nodes es)) 0 = count_deg nodes es i.
Proof. intros nodes es H. split; [exact (histogram_length nodes es H) | intros i _; exact (histogram_count nodes es i)]. Qed.

(* the reported maximum degree is the largest degree, and some node has it *)
Theorem C12_kmax : forall nodes es, nodes <> [] ->
  s_kmax (statistics nodes es) = max_degree nodes es /\
  (forall n, In n nodes -> degree es n <= s_kmax (statistics nodes es)) /\
  (exists n, In n nodes /\ degree es n = s_kmax (statistics nodes es)).
Proof.
  intros nodes es H.
  assert (E : s_kmax (statistics nodes es) = max_degree nodes es).
  { unfold statistics; cbn [s_kmax]. rewrite (histogram_length nodes es H). lia. }
  rewrite E. split; [reflexivity|]. split; [intros n Hn; exact (degree_le_max nodes es n Hn) | exact (max_degree_attained nodes es H)].
Qed.

(* order, edge count, and mean degree = (sum over i of i * h_i) / N = 2M / N *)
Theorem C12_order_edges_kmean : forall nodes es, NoDup nodes -> closed nodes es -> nodes <> [] ->
  s_N (statistics nodes es) = length nodes /\ s_M (statistics nodes es) = length es /\
  list_sum (s_kdist (statistics nodes es)) = length nodes /\
  (s_kmean (statistics nodes es) == inject_Z (Z.of_nat (2 * length es)) / inject_Z (Z.of_nat (length nodes)))%Q.
Proof.
  intros nodes es ND Hc _. split; [reflexivity|]. split; [reflexivity|]. split; [exact (histogram_total nodes es)|].
  unfold statistics; cbn [s_kmean]. rewrite (histogram_handshake nodes es ND Hc). reflexivity.
Qed.

(* the component summary is read off the size list sorted in decreasing order: the number of
   components, the largest and the second largest size (0 when absent) *)
Theorem C12_components : forall nodes es,
  let cs := component_sizes nodes es in
  s_components (statistics nodes es) = length cs /\
  (forall x, In x cs -> x <= s_lcc (statistics nodes es)) /\
  (cs <> [] -> In (s_lcc (statistics nodes es)) cs) /\
  s_slcc (statistics nodes es) <= s_lcc (statistics nodes es).
Proof.
  intros nodes es cs. unfold statistics; cbn [s_components s_lcc s_slcc]. fold cs.
  assert (P := sort_desc_perm cs). assert (D := sort_desc_desc cs).
  split; [exact (Permutation_length P)|].
  destruct (sort_desc cs) as [|x l] eqn:E.
  - apply Permutation_nil in P. rewrite P. cbn. split; [intros ? []|]. split; [congruence | lia].
  - cbn [nth]. split; [intros y Hy; apply (desc_head_max x l D), (Permutation_in _ (Permutation_sym P)), Hy|].
    split; [intros _; apply (Permutation_in _ P); left; reflexivity|].
    destruct l as [|y l']; cbn [nth]; [lia|]. apply (desc_head_max x (y :: l') D). right; left; reflexivity.
Qed.

(* non-vacuity: a star with four leaves plus an isolated node *)
Example C12_example :
  let nodes := [0;1;2;3;4;5]%Z in let es := [(0,1);(0,2);(0,3);(0,4)]%Z in
  NoDup nodes /\ closed nodes es /\
  s_kmax (statistics nodes es) = 4 /\ s_kdist (statistics nodes es) = [1;4;0;0;1] /\
  s_components (statistics nodes es) = 2 /\ s_lcc (statistics nodes es) = 5 /\ s_slcc (statistics nodes es) = 1.
Proof.
  cbv zeta. split; [repeat constructor; cbn; intuition discriminate|].
  split; [|vm_compute; repeat split; reflexivity].
  intros e He. cbn in He. repeat (destruct He as [<-|He]; [cbn; tauto|]). destruct He.
Qed.

(* Monitor clause (Model/Kernel.v)
   A Monitor is a process whose set-up is [APostRep 0 delta kobs] where program kobs performs
   [AObserve], which records OObserve t (map length loci).  The invariants of the final state of a run
   that the statements are read off are in Proofs/KernelMonitor.v.

   Vocabulary:
     monitor_tb tb delta kobs   delta > 0; some process' set-up is exactly [APostRep 0 delta kobs] (the
                       other processes, their events and programs are arbitrary, except that no set-up and
                       no program posts program kobs through APost / APostOn, the only actions that hand
                       an id to user code); program kobs returns the action list [AObserve]
     lht o             (o newest first) the time of the most recent OHandler record in o, 0 if none:
                       [lht (rev pre)] is the time of the last handler call before position |pre| of r_out
     hrec y, trec y    the OHandler (member None) and OTap records that firing the queue entry y leaves
     stoch_fired / sync_fired   the queue entries fired during the run, in order
     nonneg_tb, Forall (Qle 0) ls, r_stuck = false   as in C03 / C04 *)
Open Scope Q_scope.

(* What an observation records.  The action itself: the handler time and the
   size of every kernel locus at that instant, in registration order *)
Theorem C12_obs_action : forall W (s : st W) p t e,
  do_action p t e AObserve s = emit (OObserve t (map (@length elem) (loci s))) s.
Proof. reflexivity. Qed.

(* ... and in a run, for EVERY table: each OObserve t sizes in r_out was made inside the handler call
   whose time is t (the last OHandler record before it carries t; 0 for set-up code) and has exactly
   one entry per locus of the simulation (no action changes the number of loci) *)
Theorem C12_obs_record_stoch : forall W (tb : table W) pf fuel rs ls ds pre t sizes post,
  r_out (stoch_run tb pf fuel rs ls ds) = pre ++ OObserve t sizes :: post ->
  t = lht (rev pre) /\ length sizes = length (t_loci tb).
Proof.
  intros W tb pf fuel rs ls ds pre t sizes post. rewrite (proj1 (stoch_fields tb pf fuel rs ls ds)).
  exact (obs_record _ _ pre t sizes post (JK_stoch_run tb pf fuel rs ls ds)).
Qed.

Theorem C12_obs_record_sync : forall W (tb : table W) pf fuel rs ds pre t sizes post,
  r_out (sync_run tb pf fuel rs ds) = pre ++ OObserve t sizes :: post ->
  t = lht (rev pre) /\ length sizes = length (t_loci tb).
Proof.
  intros W tb pf fuel rs ds pre t sizes post. rewrite (proj1 (sync_fields tb pf fuel rs ds)).
  exact (obs_record _ _ pre t sizes post (JK_sync_run tb pf fuel rs ds)).
Qed.

(* The monitor's event cannot be un-posted: APostRep hands no id to user code, so an entry that
   runs the observe program is never named in [ids], which is all AUnpost / AQuery can address;
   invariant under every action that does not post kobs through APost / APostOn, and such an entry
   survives every action *)
Theorem C12_monitor_never_unposted : forall W (s : st W) kobs p t e a,
  MI kobs s ->
  (nopush kobs a -> MI kobs (do_action p t e a s)) /\
  (forall y, e_prog y = kobs -> In y (queue s) ->
     e_live y = true /\ ~ In (e_id y) (ids s) /\ In y (queue (do_action p t e a s))).
Proof.
  intros W s kobs p t e a HM. split; [intros Ha; exact (MI_do_action kobs p t e a s Ha HM)|].
  intros y Hp Hy. destruct (proj2 (proj2 HM) y Hy Hp) as [A B].
  split; [exact A|split; [exact B|exact (keep_do_action kobs p t e a s HM y Hp Hy)]].
Qed.

Theorem C12_monitor_pending_at_end : forall W (tb : table W) delta kobs pf fuel rs ls ds x,
  monitor_tb tb delta kobs -> e_prog x = kobs ->
  (In x (queue (r_final (stoch_run tb pf fuel rs ls ds))) ->
     e_live x = true /\ ~ In (e_id x) (ids (r_final (stoch_run tb pf fuel rs ls ds)))) /\
  (In x (queue (r_final (sync_run tb pf fuel rs ds))) ->
     e_live x = true /\ ~ In (e_id x) (ids (r_final (sync_run tb pf fuel rs ds)))).
Proof.
  intros W tb delta kobs pf fuel rs ls ds x Hmt Hp.
  split; intros Hx.
  - exact (proj2 (proj2 (pm_mi _ _ _ _ (PM_stoch_run tb delta kobs Hmt pf fuel rs ls ds))) x Hx Hp).
  - exact (proj2 (proj2 (pm_mi _ _ _ _ (PM_sync_run tb delta kobs Hmt pf fuel rs ds))) x Hx Hp).
Qed.

(* The monitor observes at 0, delta, 2 delta, ...: for every k with k * delta
   strictly before the end time (stochastic) / the last executed step TIME - 1 (synchronous) the k-th
   repetition y fired at e_time y == k * delta and left, consecutively in r_out, its handler record,
   ONE observation with one size per locus, and its tap.  (The repetitions are distinct entries, fired
   in increasing time by C04_order_stoch / C04_order_sync; an observation due exactly at the end time may or may not have run.) *)
Theorem C12_obs_times_stoch : forall W (tb : table W) delta kobs pf fuel rs ls ds,
  monitor_tb tb delta kobs -> nonneg_tb tb -> Forall (Qle 0) ls ->
  let r := stoch_run tb pf fuel rs ls ds in
  r_stuck r = false ->
  forall k : nat, inject_Z (Z.of_nat k) * delta < r_time r ->
  exists y sizes pre post, In y (stoch_fired tb pf fuel rs ls ds) /\
    e_time y == inject_Z (Z.of_nat k) * delta /\ e_prog y = kobs /\
    r_out r = pre ++ hrec y :: OObserve (e_time y) sizes :: trec y :: post /\
    length sizes = length (t_loci tb).
Proof.
  intros W tb delta kobs pf fuel rs ls ds Hmt Hnn Hl. cbv zeta. intros Hs k Hk.
  rewrite (proj1 (stoch_fields tb pf fuel rs ls ds)).
  exact (chain_observed tb delta kobs Hmt _ _ _ _ (JK_stoch_run tb pf fuel rs ls ds)
           (PM_stoch_run tb delta kobs Hmt pf fuel rs ls ds)
           (t_live (stoch_tinv tb pf fuel rs ls ds Hnn Hl Hs)) k Hk).
Qed.

Theorem C12_obs_times_sync : forall W (tb : table W) delta kobs pf fuel rs ds,
  monitor_tb tb delta kobs ->
  let r := sync_run tb pf fuel rs ds in
  r_stuck r = false ->
  forall k : nat, inject_Z (Z.of_nat k) * delta + 1 < r_time r ->
  exists y sizes pre post, In y (sync_fired tb pf fuel rs ds) /\
    e_time y == inject_Z (Z.of_nat k) * delta /\ e_prog y = kobs /\
    r_out r = pre ++ hrec y :: OObserve (e_time y) sizes :: trec y :: post /\
    length sizes = length (t_loci tb).
Proof.
  intros W tb delta kobs pf fuel rs ds Hmt. cbv zeta. intros Hs k Hk.
  destruct (sync_tinv tb pf fuel rs ds Hs) as [L [HL T]]. rewrite (proj1 (sync_fields tb pf fuel rs ds)).
  apply (chain_observed tb delta kobs Hmt _ _ _ L (JK_sync_run tb pf fuel rs ds)
           (PM_sync_run tb delta kobs Hmt pf fuel rs ds) (t_live T)).
  rewrite <- HL in Hk. lra.
Qed.

(* An observation at tau made from a handler sits after every event handler
   with an earlier time and before every one with a later time: every handler call before it in
   r_out has time <= tau, every one after it has time >= tau.  Hence the recorded sizes are those
   of the state after every event strictly earlier than tau and before every event strictly later. *)
Theorem C12_obs_value_stoch : forall W (tb : table W) pf fuel rs ls ds pre tau sizes post,
  nonneg_tb tb -> Forall (Qle 0) ls -> r_stuck (stoch_run tb pf fuel rs ls ds) = false ->
  r_out (stoch_run tb pf fuel rs ls ds) = pre ++ OObserve tau sizes :: post -> filter is_handler pre <> [] ->
  (forall k t c e m, In (OHandler k t c e m) pre -> t <= tau) /\
  (forall k t c e m, In (OHandler k t c e m) post -> tau <= t).
Proof.
  intros W tb pf fuel rs ls ds pre tau sizes post Hnn Hl Hs. rewrite (proj1 (stoch_fields tb pf fuel rs ls ds)).
  exact (obs_value _ _ _ pre tau sizes post (JK_stoch_run tb pf fuel rs ls ds) (stoch_tinv tb pf fuel rs ls ds Hnn Hl Hs)).
Qed.

Theorem C12_obs_value_sync : forall W (tb : table W) pf fuel rs ds pre tau sizes post,
  r_stuck (sync_run tb pf fuel rs ds) = false ->
  r_out (sync_run tb pf fuel rs ds) = pre ++ OObserve tau sizes :: post -> filter is_handler pre <> [] ->
  (forall k t c e m, In (OHandler k t c e m) pre -> t <= tau) /\
  (forall k t c e m, In (OHandler k t c e m) post -> tau <= t).
Proof.
  intros W tb pf fuel rs ds pre tau sizes post Hs. destruct (sync_tinv tb pf fuel rs ds Hs) as [L [_ T]].
  rewrite (proj1 (sync_fields tb pf fuel rs ds)).
  exact (obs_value _ L _ pre tau sizes post (JK_sync_run tb pf fuel rs ds) T).
Qed.

(* Conversely, when nobody else posts the observe program at all (monitor_only: as monitor_tb,
   with APostRep of kobs excluded too), every observation made inside a posted call of program kobs
   (the last handler record before it is OHandler kobs _ _ _ None) is at a time k * delta: together
   with C12_obs_times_stoch / _sync the monitor's observation times are exactly 0, delta, 2 delta, ... *)
Theorem C12_obs_only_chain_times : forall W (tb : table W) delta kobs pf fuel rs ls ds pre t sizes post t' c e,
  monitor_only tb delta kobs ->
  (r_out (stoch_run tb pf fuel rs ls ds) = pre ++ OObserve t sizes :: post ->
   lhr (rev pre) = Some (OHandler kobs t' c e None) -> exists k : nat, t == inject_Z (Z.of_nat k) * delta) /\
  (r_out (sync_run tb pf fuel rs ds) = pre ++ OObserve t sizes :: post ->
   lhr (rev pre) = Some (OHandler kobs t' c e None) -> exists k : nat, t == inject_Z (Z.of_nat k) * delta).
Proof.
  intros W tb delta kobs pf fuel rs ls ds pre t sizes post t' c e Hmo.
  split; [rewrite (proj1 (stoch_fields tb pf fuel rs ls ds))|rewrite (proj1 (sync_fields tb pf fuel rs ds))].
  - exact (obs_chain delta kobs _ _ pre t sizes post t' c e (JK_stoch_run tb pf fuel rs ls ds) (QC_stoch_run tb delta kobs Hmo pf fuel rs ls ds)).
  - exact (obs_chain delta kobs _ _ pre t sizes post t' c e (JK_sync_run tb pf fuel rs ds) (QC_sync_run tb delta kobs Hmo pf fuel rs ds)).
Qed.

(* non-vacuity (Proofs/KernelExample.v, ex_mon): a monitor with delta = 1/2 beside a process with a
   per-element event that empties the locus, which also posts and un-posts an event of its own.
   The premises hold; observations at 0, 1/2, 1, 3/2, 2 interleave with the events at 2/3, 7/6, 13/6
   and record sizes 3 3 2 1 1. *)
Example C12_example_monitor :
  monitor_tb ex_mon (1 # 2) 1 /\ monitor_only ex_mon (1 # 2) 1 /\ nonneg_tb ex_mon /\ Forall (Qle 0) ex_mon_lns /\
  let r := stoch_run ex_mon 50 50 ex_mon_rands ex_mon_lns ex_mon_draws in
  r_stuck r = false /\ r_time r = 13 # 6 /\
  r_out r =
    [OPostedRep 0; OPosted 1 (3 # 4); OUnpost 1 (Some (Some (3 # 4)));
     OHandler 1 0 0 (EN 0) None; OObserve 0 [3%nat]; OTap 0 0 (NPost 1) (EN 0);
     OHandler 1 (1 # 2) (1 # 2) (EN 0) None; OObserve (1 # 2) [3%nat]; OTap (1 # 2) 0 (NPost 1) (EN 0);
     OHandler 0 (2 # 3) (2 # 3) (EN 0) (Some true); OTap (2 # 3) 1 (NEv 1 0) (EN 0);
     OHandler 1 1 1 (EN 0) None; OObserve 1 [2%nat]; OTap 1 0 (NPost 1) (EN 0);
     OHandler 0 (7 # 6) (7 # 6) (EN 1) (Some true); OTap (7 # 6) 1 (NEv 1 0) (EN 1);
     OHandler 1 (3 # 2) (3 # 2) (EN 0) None; OObserve (3 # 2) [1%nat]; OTap (3 # 2) 0 (NPost 1) (EN 0);
     OHandler 1 2 2 (EN 0) None; OObserve 2 [1%nat]; OTap 2 0 (NPost 1) (EN 0);
     OHandler 0 (13 # 6) (13 # 6) (EN 2) (Some true); OTap (13 # 6) 1 (NEv 1 0) (EN 2)].
Proof.
  assert (Hmo : monitor_only ex_mon (1 # 2) 1).
  { split.
    - reflexivity.
    - exists [], {| p_events := []; p_setup := [APostRep 0 (1 # 2) 1] |},
        [{| p_events := [ {| ev_elem := true; ev_locus := 0; ev_p := 1; ev_prog := 0 |} ];
            p_setup := [APost (3 # 4) 2; AUnpost 0 false] |}].
      split; [reflexivity|split; [reflexivity|]]. repeat constructor. cbn. discriminate.
    - intros k t e l w. destruct k as [|[|[|[|k]]]]; vm_compute; repeat constructor. }
  split; [apply (monitor_only_tb _ _ _ Hmo); intros; reflexivity|split; [exact Hmo|split; [|split]]].
  - repeat constructor. unfold Qle. cbn. lia.
  - repeat constructor; unfold Qle; cbn; lia.
  - vm_compute. repeat split.
Qed.

(* The component computation of the model (label merging, Model/NetStats.v) IS the partition of the node set
   into connected components: same label iff connected, every label is the least node of its class, the size
   list is that of EVERY partition into components, and the reported component count, largest and second-largest
   sizes are read off it.  Proofs/NetStatsComp.v. *)
Close Scope Q_scope.

Theorem C12_labels_same_iff_connected :
  forall (nodes : list Z) (es : list edge),
         closed nodes es ->
         forall x y : Z,
         In x nodes ->
         In y nodes -> label_of (labels nodes es) x = label_of (labels nodes es) y <-> connected es x y.
Proof. exact labels_same_iff_connected. Qed.

Theorem C12_label_is_min_of_class :
  forall (nodes : list Z) (es : list edge),
         closed nodes es ->
         forall x : Z,
         In x nodes ->
         let l := label_of (labels nodes es) x in
         In l nodes /\
         connected es x l /\
         label_of (labels nodes es) l = l /\ (forall y : Z, In y nodes -> connected es x y -> (l <= y)%Z).
Proof.
  intros nodes es Hc x Hx l. assert (I := labels_Inv nodes es Hc).
  split; [apply (inv_in I), Hx|]. split; [apply (inv_conn I), Hx|].
  split; [apply (inv_idem I), Hx|]. intros y. apply (inv_least I), Hx.
Qed.

Theorem C12_components_partition :
  forall (nodes : list Z) (es : list edge),
         NoDup nodes -> closed nodes es -> is_partition nodes es (components nodes es).
Proof. exact components_partition. Qed.

(* component_sizes lists the sizes of the classes of [components], in the same order *)
Theorem C12_component_sizes_spec :
  forall (nodes : list Z) (es : list edge),
         NoDup nodes ->
         closed nodes es ->
         exists cs : list (list Z),
           is_partition nodes es cs /\ NoDup (concat cs) /\ component_sizes nodes es = map (length (A:=Z)) cs.
Proof.
  intros nodes es ND Hc. exists (components nodes es).
  assert (P := components_partition nodes es ND Hc).
  split; [exact P|]. split; [|apply component_sizes_components; assumption].
  destruct P as (P & _). apply (Permutation_NoDup (Permutation_sym P)), ND.
Qed.

Theorem C12_component_sizes_any_partition :
  forall (nodes : list Z) (es : list edge),
         NoDup nodes ->
         closed nodes es ->
         forall cs : list (list Z),
         is_partition nodes es cs -> Permutation (component_sizes nodes es) (map (length (A:=Z)) cs).
Proof. exact component_sizes_any_partition. Qed.

(* the distinct final labels: one representative per component, pairwise unconnected; their number is
   the length of component_sizes *)
Theorem C12_representatives_spec :
  forall (nodes : list Z) (es : list edge),
         NoDup nodes ->
         closed nodes es ->
         let reps := representatives nodes es in
         NoDup reps /\
         (forall r : Z, In r reps -> In r nodes) /\
         (forall n : Z, In n nodes -> exists r : Z, In r reps /\ connected es n r) /\
         (forall r r' : Z, In r reps -> In r' reps -> connected es r r' -> r = r') /\
         length (component_sizes nodes es) = length reps.
Proof.
  intros nodes es ND Hc reps.
  destruct (lab_reps_spec nodes es (labels nodes es) ND (labels_Inv nodes es Hc)) as (A & B & C & D).
  split; [exact A|]. split; [exact B|]. split; [exact C|]. split; [exact D|].
  unfold component_sizes, reps, representatives, lab_reps. cbv zeta. apply map_length.
Qed.

Theorem C12_component_sizes_sum :
  forall (nodes : list Z) (es : list edge),
         NoDup nodes -> closed nodes es -> list_sum (component_sizes nodes es) = length nodes.
Proof. exact component_sizes_sum. Qed.

Theorem C12_stats_components_spec :
  forall (nodes : list Z) (es : list edge),
         NoDup nodes ->
         closed nodes es ->
         forall cs : list (list Z),
         is_partition nodes es cs ->
         let st := statistics nodes es in
         s_components st = length cs /\
         (forall c : list Z, In c cs -> length c <= s_lcc st) /\
         (cs <> [] -> exists c : list Z, In c cs /\ length c = s_lcc st) /\
         (length cs <= 1 -> s_slcc st = 0) /\
         (2 <= length cs ->
          exists (c1 c2 : list Z) (rest : list (list Z)),
            Permutation cs (c1 :: c2 :: rest) /\
            length c1 = s_lcc st /\
            length c2 = s_slcc st /\
            s_slcc st <= s_lcc st /\ (forall c : list Z, In c rest -> length c <= s_slcc st)).
Proof. exact stats_components_spec. Qed.

(* the same, for the components the model computes, and the number of representatives *)
Theorem C12_stats_components_computed :
  forall (nodes : list Z) (es : list edge),
         NoDup nodes ->
         closed nodes es ->
         let st := statistics nodes es in
         s_components st = length (components nodes es) /\
         s_components st = length (representatives nodes es) /\
         (nodes <> [] -> 1 <= s_components st /\ 1 <= s_lcc st) /\ s_lcc st <= length nodes.
Proof.
  intros nodes es ND Hc st. assert (P := components_partition nodes es ND Hc).
  destruct (stats_components_spec nodes es ND Hc _ P) as (A & B & C & _). fold st in A, B, C.
  split; [exact A|]. split; [rewrite A; unfold components, lab_classes, representatives; apply map_length|].
  assert (S := component_sizes_sum nodes es ND Hc).
  rewrite (component_sizes_components nodes es ND Hc) in S.
  destruct (components nodes es) as [|c cs] eqn:E.
  - cbn in S. split; [intros Hne; destruct nodes; [congruence | discriminate S]|].
    unfold st, statistics; cbn [s_lcc]. rewrite (component_sizes_components nodes es ND Hc), E. cbn. lia.
  - destruct (C ltac:(discriminate)) as (c' & Hc' & <-).
    destruct P as (_ & Hcl & _). rewrite Forall_forall in Hcl. destruct (Hcl c' Hc') as (Hne & _).
    split; [intros _; split; [rewrite A; cbn [length]; lia | destruct c'; [congruence | cbn [length]; lia]]|].
    rewrite <- S. apply list_sum_ge, in_map, Hc'.
Qed.

Example C12_components_example :
  let nodes := [4%Z; 1%Z; 7%Z; 5%Z; 3%Z; 9%Z] in
         let es := [(5%Z, 9%Z); (9%Z, 9%Z); (7%Z, 1%Z); (3%Z, 9%Z); (9%Z, 5%Z); (5%Z, 9%Z)] in
         NoDup nodes /\
         closed nodes es /\
         labels nodes es = [(4%Z, 4%Z); (1%Z, 1%Z); (7%Z, 1%Z); (5%Z, 3%Z); (3%Z, 3%Z); (9%Z, 3%Z)] /\
         components nodes es = [[4%Z]; [1%Z; 7%Z]; [5%Z; 3%Z; 9%Z]] /\
         representatives nodes es = [4%Z; 1%Z; 3%Z] /\
         component_sizes nodes es = [1; 2; 3] /\
         s_components (statistics nodes es) = 3 /\
         s_lcc (statistics nodes es) = 3 /\
         s_slcc (statistics nodes es) = 2 /\ connected es 5 3 /\ ~ connected es 7 3 /\ ~ connected es 4 1.
Proof. exact components_example. Qed.

