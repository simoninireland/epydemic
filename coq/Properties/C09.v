(* C09 - DrawSet is a correct ordered set with an exactly uniform O(log n) draw.
   The proofs are in Proofs/BbtRot.v, BbtSet.v, BbtDraw.v; where the statement here is all there is to
   a lemma, its few lines stand here.

   Vocabulary (Model/Bbt.v): [tree] carries the STORED _height/_leftSize/_rightSize; [run ops] is the
   DrawSet state after the calls [ops] (A add, D discard, R remove, Dr draw, Mem, Iter) from the empty
   set; [step t o] is (new state, result, arguments of the rng.integers calls); [aset ops] is the
   mathematical set after the same calls, as a strictly ascending list; [draw_ct t] is the tree of
   rng.integers requests draw() makes and [prob_ct] its exact law for a uniform independent generator.
   [Good t] = in-order list strictly ascending /\ stored heights and sizes equal the real ones /\
   sub-tree heights differ by at most one, everywhere. *)
From Coq Require Import List ZArith QArith Bool Arith Sorted Lia.
From EpyV Require Import Model.Bbt Proofs.BbtRot Proofs.BbtSet Proofs.BbtDraw Tie.C09.
Import ListNotations.
Close Scope Z_scope. Close Scope Q_scope. Open Scope nat_scope.

(* one rotation (with the nested repairs of bbt.py:197-200, 211, 225, 243-246) about a node whose
   children satisfy [Inv] (the shape part of [Good]) and differ in height by exactly two *)
Theorem C09_rot_spec : forall fuel l d r, Inv l -> Inv r -> ht (mk l d r) <= fuel ->
  (ht l = S (S (ht r)) \/ ht r = S (S (ht l))) ->
  let t := rot fuel (mk l d r) in
  Inv t /\ inorder t = inorder l ++ d :: inorder r /\ size t = size l + 1 + size r /\
  (ht t = ht (mk l d r) \/ S (ht t) = ht (mk l d r)).
Proof. intros fuel l d r Hl Hr Hf Hd. destruct (rot_spec fuel l d r Hl Hr Hf Hd) as (H1 & H2 & H3 & H4 & _). auto. Qed.

Theorem C09_add_good : forall e t, Good t -> Good (fst (add e t)) /\ inorder (fst (add e t)) = ins e (inorder t).
Proof. exact add_good. Qed.

Theorem C09_discard_good : forall e t, Good t ->
  Good (fst (discard e t)) /\ inorder (fst (discard e t)) = del e (inorder t) /\
  (snd (discard e t) = true <-> In e (inorder t)).
Proof. intros e t H. destruct (discard_good e t H) as [Hg Hin]. split; [exact Hg|split; [exact Hin|exact (discard_present e t (proj1 H))]]. Qed.

(* every reachable state is Good *)
Theorem C09_history : forall ops, Good (run ops).
Proof. exact history_good. Qed.

(* the abstract side is the mathematical set: add inserts, discard/remove delete, the rest leave it alone *)
Theorem C09_aset_is_set : forall ops o x,
  In x (aset (ops ++ [o])) <->
  match o with
  | A e => x = e \/ In x (aset ops)
  | D e | R e => In x (aset ops) /\ x <> e
  | _ => In x (aset ops)
  end.
Proof.
  intros ops o x. rewrite aset_snoc. pose proof (aset_sorted ops) as Hs.
  destruct o; cbn [aapply]; try tauto; [apply ins_In|apply del_In; exact Hs|apply del_In; exact Hs].
Qed.

(* iteration order, membership, length, emptiness all agree with the set *)
Theorem C09_set_semantics : forall ops, let t := run ops in
  inorder t = aset ops /\
  (forall e, find e t = true <-> In e (aset ops)) /\
  len t = length (aset ops) /\
  (is_empty t = true <-> aset ops = []).
Proof.
  intros ops t. pose proof (history_good ops) as Hg. pose proof (history_inorder ops) as Hi. fold t in Hg, Hi.
  split; [exact Hi|]. split; [|split].
  - intros e. rewrite <- Hi. apply find_In. apply Hg.
  - rewrite <- Hi. apply len_inorder, Hg.
  - rewrite <- Hi. apply is_empty_iff.
Qed.

Theorem C09_iter_sorted : forall ops,
  step (run ops) Iter = (run ops, RList (aset ops), []) /\ StronglySorted Z.lt (aset ops) /\ NoDup (aset ops).
Proof.
  intros ops. split; [cbn [step]; rewrite history_inorder; reflexivity|].
  split; [apply sorted_StronglySorted|apply sorted_NoDup]; apply aset_sorted.
Qed.

(* remove raises KeyError exactly when the element is absent, and then changes nothing *)
Theorem C09_remove_keyerror : forall ops e,
  (In e (aset ops) -> snd (fst (step (run ops) (R e))) = RUnit) /\
  (~ In e (aset ops) -> step (run ops) (R e) = (run ops, RKeyError, [])).
Proof.
  intros ops e. rewrite <- history_inorder. destruct (remove_spec e (run ops) (proj1 (history_good ops))) as [H1 H2].
  split; [intros H; rewrite (H1 H); reflexivity|exact H2].
Qed.

(* draw: exactly uniform on the members *)
Theorem C09_draw_uniform : forall t e, Good t -> In e (inorder t) ->
  (prob_ct (draw_ct t) e == 1 # Pos.of_nat (size t))%Q.
Proof. exact draw_uniform. Qed.
Theorem C09_draw_uniform_history : forall ops e, In e (aset ops) ->
  (prob_ct (draw_ct (run ops)) e == 1 # Pos.of_nat (length (aset ops)))%Q.
Proof.
  intros ops e H. rewrite <- history_inorder in *. rewrite <- size_inorder.
  apply draw_uniform; [apply history_good|assumption].
Qed.
Theorem C09_draw_nonmember : forall t e, Good t -> ~ In e (inorder t) -> (prob_ct (draw_ct t) e == 0)%Q.
Proof.
  intros t e [_ [Ho _]] Hn.
  rewrite (draw_law e t Ho), (proj1 (count_occ_not_In Z.eq_dec _ _) Hn). apply Qmult_0_l.
Qed.

(* every individual run of draw on a non-empty Good tree returns a member, never touches a missing
   child, and calls rng.integers at most height-many times, each time with 2 <= n <= size t, which is
   what len returns when the stored sizes are right *)
Theorem C09_draw_member : forall t ints, Good t -> t <> Leaf ->
  match fst (run_ct (draw_ct t) ints) with Drew e => In e (inorder t) | Stuck => False | BadScript => True end /\
  length (snd (run_ct (draw_ct t) ints)) <= ht t /\
  Forall (fun n => 2 <= n <= size t) (snd (run_ct (draw_ct t) ints)).
Proof. intros t ints [_ [Ho _]] Hne. exact (run_draw t Ho Hne ints). Qed.

Theorem C09_draw_empty_raises : forall ops ints, aset ops = [] ->
  step (run ops) (Dr ints) = (run ops, RValueError, []).
Proof.
  intros ops ints H. rewrite <- history_inorder in H. apply is_empty_iff in H.
  destruct (run ops); [reflexivity|discriminate].
Qed.

(* height balance gives a logarithmic height; find compares with at most height-many entries *)
Theorem C09_height_log : forall t, Good t ->
  2 ^ (ht t / 2) <= size t + 1 /\ ht t <= 2 * Nat.log2 (size t + 1) + 1.
Proof.
  intros t [_ [_ Hb]]. split; [exact (height_bound t Hb)|].
  pose proof (half_height_log t Hb). pose proof (Nat.div_mod (ht t) 2 ltac:(lia)).
  pose proof (Nat.mod_upper_bound (ht t) 2 ltac:(lia)). lia.
Qed.
Theorem C09_descent : forall e t, find_visits e t <= ht t.
Proof.
  intros e t. induction t as [|l IHl d h ls rs r IHr]; cbn [find_visits ht]; [apply le_n|].
  apply le_n_S. destruct (e =? d)%Z; [apply Nat.le_0_l|].
  destruct (e <? d)%Z; [rewrite IHl; apply Nat.le_max_l|rewrite IHr; apply Nat.le_max_r].
Qed.

(* int pairs: the encoding used for edges preserves and reflects the lexicographic order *)
Theorem C09_pair_order : forall K a b c d, (0 <= b < K)%Z -> (0 <= d < K)%Z ->
  ((a * K + b < c * K + d)%Z <-> (a < c)%Z \/ (a = c /\ b < d)%Z) /\
  ((a * K + b = c * K + d)%Z <-> a = c /\ b = d).
Proof. intros K a b c d Hb Hd. split; [exact (pair_code_lt K a b c d Hb Hd)|exact (pair_code_eq K a b c d Hb Hd)]. Qed.

(* the boolean that tie level 2 evaluates on a dumped implementation tree implies Good *)
Theorem C09_good_b_sound : forall t, good_b t = true -> Good t.
Proof.
  intros t H. apply andb_true_iff in H. destruct H as [Hs Hp].
  split; [apply sorted_b_sound, Hs|].
  destruct (shape_b t) as [[h n]|] eqn:E; [apply (shape_b_sound t h n E)|discriminate].
Qed.

(* non-vacuity: insert 3,1,5,0,2,4,6, delete 3: a Good 6-element tree with root 4 (the successor), on which
   draw returns 2 for the integers [1; 2] and every member has probability 1/6 *)
Example C09_example :
  let ops := [A 3; A 1; A 5; A 0; A 2; A 4; A 6; D 3]%Z in
  good_b (run ops) = true /\ aset ops = [0; 1; 2; 4; 5; 6]%Z /\
  dump (run ops) = [Some (4%Z, 2, 3, 2); Some (1%Z, 1, 1, 1); Some (0%Z, 0, 0, 0); None; None; Some (2%Z, 0, 0, 0); None; None;
                    Some (5%Z, 1, 0, 1); None; Some (6%Z, 0, 0, 0); None; None] /\
  step (run ops) (Dr [1; 2]) = (run ops, RDrew 2%Z, [6; 3]) /\
  map (fun e => Qred (prob_ct (draw_ct (run ops)) e)) (aset ops) = [1 # 6; 1 # 6; 1 # 6; 1 # 6; 1 # 6; 1 # 6]%Q.
Proof. vm_compute. repeat split; reflexivity. Qed.
