(* C13 - Newman-Ziff percolation reports true component sizes at every sample.
   Statements; each proof is a lemma of Proofs/NewmanZiff*.v, or a few lines from such lemmas.

   Vocabulary (Proofs/NewmanZiffUF.v, NewmanZiffQuery.v, NewmanZiffSampling.v, NewmanZiffMain.v):
     path a n r d        following parent entries of the array a from n reaches the root r in d steps
     occ a n             n is an occupied node (in range, entry is not the marker N+1)
     conn es x y         reflexive-symmetric-transitive closure of the edge list es
     UF a es             a is a union-find forest for (occupied nodes, es): every occupied node reaches a
                         root in fewer steps than the size stored there (acyclic; rootOf terminates within
                         fuel N), edge endpoints share their root, every node is connected to its root,
                         a root stores minus the number of nodes in its tree
     Inv s               UF (comp s) (wedges s), _gcc is the largest stored size, _ncomponents the number of roots
     class_size / largest_class / n_classes / size_spec
                         component sizes, largest component, number of components of a graph (V, es),
                         defined from conn only (no reference to the array)
     reports_true N o    what the sample o reports (largest component, number of components, component
                         size of each node 0..N-1) is true of the working network recorded in o
     least_reach k M p   k is the first number of occupations with k/M >= p (exact rationals)
     eeq es es'          the same set of undirected edges *)
From Coq Require Import List ZArith QArith Bool Arith Lia Permutation Sorted.
From EpyV Require Import Lib.Prelude Model.Percolate Model.NewmanZiff.
(* not imported: it has an is_perm of its own, and the statements below speak of NewmanZiffMain.is_perm *)
From EpyV Require Proofs.Percolate.
From EpyV Require Import Proofs.NewmanZiffUF Proofs.NewmanZiffOcc Proofs.NewmanZiffQuery Proofs.NewmanZiffSampling Proofs.NewmanZiffMain.
Import ListNotations.
Local Open Scope nat_scope.

(* the classes of rootOf are exactly the connected components *)
Theorem C13_uf_classes : forall a es, UF a es -> forall n m r s d e,
  path a n r d -> path a m s e -> (r = s <-> conn es n m).
Proof. exact @uf_classes. Qed.

(* rootOf (fuel N, path compression included) returns the root and keeps the invariant *)
Theorem C13_uf_inv_rootOf : forall a es n, UF a es -> occ a n ->
  exists a' r d, root a n = (a', r) /\ path a n r d /\ is_root a' r /\ UF a' es /\ length a' = length a.
Proof.
  intros a es n U O. destruct (root_spec U O) as (a' & r & d & E & P & C). exists a', r, d.
  split; [exact E|]. split; [exact P|]. split; [apply (compr_root C), (path_lt P)|].
  split; [exact (UF_compr U C) | exact (c_len C)].
Qed.

(* BondPercolation.setUp establishes it (N >= 1 nodes), occupy preserves it *)
Theorem C13_uf_init_bond : forall nodes, 1 <= length nodes -> Inv (init_bond nodes).
Proof. exact init_bond_Inv. Qed.

Theorem C13_uf_inv : forall s n m, Inv s -> occ (comp s) n -> occ (comp s) m ->
  let s' := occupy_bond s (n, m) in
  Inv s' /\ length (comp s') = length (comp s) /\ (forall x, occ (comp s') x <-> occ (comp s) x)
  /\ eeq (wedges s') ((n, m) :: wedges s) /\ wnodes s' = wnodes s /\ (gcc s <= gcc s')%Z.
Proof.
  intros s n m I On Om. destruct (occupy_bond_spec s n m I On Om) as (H1 & H2 & H3 & H4 & H5).
  exact (conj H1 (conj H2 (conj H3 (conj H4 (conj H5 (occupy_bond_gcc s (n, m))))))).
Qed.

(* SitePercolation.setUp establishes it, occupy (node not yet occupied) preserves it together with
   "the working network is the sub-network induced by the occupied nodes" (SInv) *)
Theorem C13_uf_init_site : forall adj nodes, SInv adj (init_site nodes).
Proof. exact init_site_SInv. Qed.

Theorem C13_uf_inv_site : forall N adj s nr, adj_ok N adj -> SInv adj s -> length (comp s) = N -> nr < N -> ~ In nr (wnodes s) ->
  let s' := occupy_site adj s nr in
  SInv adj s' /\ length (comp s') = N /\ wnodes s' = wnodes s ++ [nr] /\ (gcc s <= gcc s')%Z.
Proof.
  intros N adj s nr A I L Lnr Fr. destruct (occupy_site_spec N adj s nr A I L Lnr Fr) as (H1 & H2 & H3).
  exact (conj H1 (conj H2 (conj H3 (occupy_site_gcc adj s nr)))).
Qed.

Theorem C13_component_size : forall a es (V : nat -> Prop) n, UF a es -> (forall x, V x <-> occ a x) -> occ a n ->
  exists a' c, componentSize_bond a n = (a', c) /\ UF a' es /\ class_size V es n c.
Proof.
  intros a es V n U HV O. destruct (componentSize_bond_spec a es V n U HV O) as (a' & c & E & C & _ & S).
  exists a', c. split; [exact E|]. split; [exact (UF_compr U C) | exact S].
Qed.

Theorem C13_component_size_site : forall a es (V : nat -> Prop) n, UF a es -> (forall x, V x <-> occ a x) -> n < length a ->
  exists a' c, componentSize_site a n = (a', c) /\ compr a a' /\ size_spec V es n c.
Proof. exact componentSize_site_spec. Qed.

Theorem C13_site_unoccupied : forall adj s n, SInv adj s -> n < length (comp s) -> ~ In n (wnodes s) ->
  componentSize_site (comp s) n = (comp s, 0%Z).
Proof.
  intros adj s n I L H. unfold componentSize_site. destruct (Z.eqb_spec (get (comp s) n) (unocc (comp s))) as [E|Ne]; [reflexivity|].
  destruct H. apply (si_occ _ _ I). split; assumption.
Qed.

Theorem C13_gcc : forall s (V : nat -> Prop), Inv s -> (forall x, V x <-> occ (comp s) x) ->
  largest_class V (wedges s) (gcc s).
Proof. intros s V I HV. exact (gcc_true (comp s) (wedges s) V (inv_uf s I) HV (gcc s) (inv_gcc s I)). Qed.

Theorem C13_ncomponents : forall s (V : nat -> Prop), Inv s -> (forall x, V x <-> occ (comp s) x) ->
  n_classes V (wedges s) (ncomp s).
Proof. intros s V I HV. exact (nc_true (comp s) (wedges s) V (inv_uf s I) HV (ncomp s) (inv_nc s I)). Qed.

(* the run: one sample per requested point, labelled with it, in order, each taken after the first k
   occupations with k/M >= p, each reporting the truth about the working network, which is the sub-network
   of the elements occupied so far; the series never decreases *)

Theorem C13_samples : forall nodes es0 perm ps,
  nodes_ok nodes -> 1 <= length nodes -> Forall (valid_edge (length nodes)) es0 -> 1 <= length es0 ->
  is_perm perm (length es0) -> StronglySorted Qlt ps -> Forall (fun p => (0 <= p)%Q /\ (p <= 1)%Q) ps ->
  let es := apply_perm (0, 0) es0 perm in
  exists s' os n, do_bond nodes es0 perm ps = (s', os, n)
    /\ Permutation es es0
    /\ Forall2 (bond_sample_ok nodes es) ps os
    /\ map fst (series os) = ps
    /\ StronglySorted Z.le (map snd (series os)).
Proof.
  intros nodes es0 perm ps NO HN VE HM IP Srt Rng es. unfold do_bond. fold es.
  pose proof (Proofs.Percolate.apply_perm_Permutation (0, 0) es0 perm IP : @Permutation nedge es es0) as Pe. clearbody es.
  rewrite <- Pe in VE. rewrite <- (Permutation_length Pe) in HM.
  destruct (bond_samples nodes es ps NO HN VE HM Srt Rng) as (s' & os & n & E & F).
  exists s', os, n. split; [exact E|]. split; [exact Pe|]. split; [exact F|].
  split; [exact (series_labels _ _ _ (fun p o H => proj1 H) F) | exact (run_monotone occupy_bond_gcc E)].
Qed.

Theorem C13_samples_site : forall adj nodes perm ps,
  nodes_ok nodes -> NoDup nodes -> 1 <= length nodes -> adj_ok (length nodes) adj ->
  is_perm perm (length nodes) -> StronglySorted Qlt ps -> Forall (fun p => (0 <= p)%Q /\ (p <= 1)%Q) ps ->
  let ns := apply_perm 0 nodes perm in
  exists s' os n, do_site nodes adj perm ps = (s', os, n)
    /\ Permutation ns nodes
    /\ Forall2 (site_sample_ok adj (length nodes) ns) ps os
    /\ map fst (series os) = ps
    /\ StronglySorted Z.le (map snd (series os)).
Proof.
  intros adj nodes perm ps NO ND HN A IP Srt Rng ns. unfold do_site. fold ns.
  pose proof (Proofs.Percolate.apply_perm_Permutation 0 nodes perm IP : Permutation ns nodes) as Pn. clearbody ns.
  rewrite <- Pn in ND. rewrite <- (Permutation_length Pn) in HN.
  assert (VN : Forall (fun n => n < length nodes) ns).
  { apply Forall_forall. intros n I. apply NO, (Permutation_in _ Pn), I. }
  destruct (site_samples adj nodes ns ps A ND VN HN Srt Rng) as (s' & os & n & E & F).
  exists s', os, n. split; [exact E|]. split; [exact Pn|]. split; [exact F|].
  split; [exact (series_labels _ _ _ (fun p o H => proj1 H) F) | exact (run_monotone (occupy_site_gcc adj) E)].
Qed.

(* the GCC series of the results never decreases (for every input, no side conditions) *)
Theorem C13_monotone : forall nodes es0 perm ps s' os n, do_bond nodes es0 perm ps = (s', os, n) ->
  StronglySorted Z.le (map snd (series os)).
Proof. intros nodes es0 perm ps s' os n. exact (run_monotone occupy_bond_gcc). Qed.

Theorem C13_monotone_site : forall nodes adj perm ps s' os n, do_site nodes adj perm ps = (s', os, n) ->
  StronglySorted Z.le (map snd (series os)).
Proof. intros nodes adj perm ps s' os n. exact (run_monotone (occupy_site_gcc adj)). Qed.

(* the working network seen by a sample is exactly the sub-network of the elements occupied so far *)
Theorem C13_working_network : forall nodes es p o, bond_sample_ok nodes es p o ->
  exists k, least_reach k (length es) p /\ o_wnodes o = nodes /\ eeq (o_wedges o) (firstn k es).
Proof. intros nodes es p o (_ & k & H1 & H2 & H3 & _). exists k. exact (conj H1 (conj H2 H3)). Qed.

Theorem C13_working_network_site : forall adj N ns p o, site_sample_ok adj N ns p o ->
  exists k, least_reach k (length ns) p /\ o_wnodes o = firstn k ns /\ induced adj (o_wnodes o) (o_wedges o).
Proof. intros adj N ns p o (_ & k & H1 & H2 & H3 & _). exists k. exact (conj H1 (conj H2 H3)). Qed.

(* requested point 0 (necessarily the first): the empty configuration *)
Theorem C13_first_empty : forall nodes es p o, nodes_ok nodes -> 1 <= length nodes -> bond_sample_ok nodes es p o -> (p == 0)%Q ->
  o_wnodes o = nodes /\ o_wedges o = [] /\ o_gcc o = 1%Z.
Proof.
  intros nodes es p o NO HN (_ & k & Lk & Hn & He & (G & _ & _)) E0. rewrite (least_reach_0 _ _ _ E0 Lk) in He.
  apply eeq_nil in He. split; [exact Hn|]. split; [exact He|]. rewrite He, Hn in G.
  destruct G as [_ [(n & Vn & Cs)|[_ H]]].
  - exact (class_size_unique _ _ _ _ _ Cs (class_size_no_edges _ _ Vn)).
  - destruct (H 0). apply NO. exact HN.
Qed.

Theorem C13_first_empty_site : forall adj N ns p o, site_sample_ok adj N ns p o -> (p == 0)%Q ->
  o_wnodes o = [] /\ o_wedges o = [] /\ o_gcc o = 0%Z /\ o_ncomp o = 0%Z.
Proof.
  intros adj N ns p o (_ & k & Lk & Hn & [H1 _] & (G & (reps & _ & Hr & _ & _ & Ek) & _)) E0.
  rewrite (least_reach_0 _ _ _ E0 Lk) in Hn. cbn in Hn. rewrite Hn in *. split; [reflexivity|]. split; [|split].
  - destruct (o_wedges o) as [|[x y] l]; [reflexivity|]. destruct (H1 x y (or_introl eq_refl)) as [[] _].
  - destruct G as [_ [(n & [] & _)|[E _]]]. exact E.
  - destruct reps as [|r reps]; [exact Ek|]. destruct (Hr r (or_introl eq_refl)).
Qed.

(* requested point 1 (necessarily the last): the complete network (and, by reports_true, its largest component) *)
Theorem C13_last_complete : forall nodes es p o, 1 <= length es -> bond_sample_ok nodes es p o -> (p == 1)%Q ->
  o_wnodes o = nodes /\ eeq (o_wedges o) es.
Proof.
  intros nodes es p o HM (_ & k & Lk & Hn & He & _) E1. rewrite (least_reach_1 _ _ _ HM E1 Lk), firstn_all in He. auto.
Qed.

Theorem C13_last_complete_site : forall adj N ns p o, 1 <= length ns -> site_sample_ok adj N ns p o -> (p == 1)%Q ->
  o_wnodes o = ns /\ induced adj ns (o_wedges o).
Proof.
  intros adj N ns p o HM (_ & k & Lk & Hn & Hi & _) E1. rewrite (least_reach_1 _ _ _ HM E1 Lk), firstn_all in Hn.
  rewrite Hn in Hi. auto.
Qed.

(* the sampling rule alone, for any state, occupation and sample functions (also the library's own sample()) *)
Theorem C13_sampling_rule : forall (St El Ob : Type) (occupy : St -> El -> St) (sample : Q -> St -> St * Ob)
  (all : list El) (R : list El -> St -> Prop),
  (forall pre e post s, all = pre ++ e :: post -> R pre s -> R (pre ++ [e]) (occupy s e)) ->
  (forall pre p s, R pre s -> R pre (fst (sample p s))) ->
  1 <= length all ->
  forall ps s0, R [] s0 -> StronglySorted Qlt ps -> Forall (fun p => (0 <= p)%Q /\ (p <= 1)%Q) ps ->
  exists s' os n, percolate occupy sample all ps s0 = (s', os, n)
    /\ Forall2 (taken sample all R) ps os /\ R (firstn n all) s' /\ n <= length all
    /\ (forall p, In p ps -> exists k, least_reach k (length all) p /\ k <= n).
Proof. exact @percolate_spec. Qed.

(* non-vacuity: a triangle with a pendant edge, a non-trivial shuffle, points 0, 1/2, 1 *)
Example C13_example :
  let nodes := [0; 1; 2; 3] in let es0 := [(0, 1); (1, 2); (0, 2); (2, 3)] in let perm := [2; 0; 3; 1] in
  let ps := [0; 1 # 2; 1]%Q in
  nodes_ok nodes /\ Forall (valid_edge (length nodes)) es0 /\ is_perm perm (length es0)
  /\ StronglySorted Qlt ps /\ Forall (fun p => (0 <= p)%Q /\ (p <= 1)%Q) ps
  /\ Inv (init_bond nodes)
  /\ (let '(_, os, n) := do_bond nodes es0 perm ps in (series os, map o_ncomp os, map o_sizes os, n))
     = ([(0, 1%Z); (1 # 2, 3%Z); (1, 4%Z)]%Q, [4; 2; 1]%Z, [[1; 1; 1; 1]; [3; 3; 3; 1]; [4; 4; 4; 4]]%Z, 4).
Proof.
  cbv zeta. split; [|split; [|split; [|split; [|split; [|split]]]]].
  - intros n. cbn. lia.
  - repeat constructor; cbn; lia.
  - apply is_perm_by_In; [repeat constructor; cbn; lia | intros x; cbn; lia].
  - repeat constructor; unfold Qlt; cbn; lia.
  - repeat constructor; unfold Qle; cbn; lia.
  - apply init_bond_Inv. cbn. lia.
  - vm_compute. reflexivity.
Qed.

Example C13_example_site :
  let nodes := [0; 1; 2; 3] in let adj := fun n => nth n [[1; 2]; [0; 2]; [1; 0; 3]; [2]] [] in let perm := [3; 0; 2; 1] in
  let ps := [1 # 4; 3 # 4]%Q in
  nodes_ok nodes /\ NoDup nodes /\ adj_ok (length nodes) adj /\ is_perm perm (length nodes)
  /\ StronglySorted Qlt ps /\ Forall (fun p => (0 <= p)%Q /\ (p <= 1)%Q) ps
  /\ (let '(_, os, n) := do_site nodes adj perm ps in (series os, map o_ncomp os, map o_sizes os, map o_wnodes os, n))
     = ([(1 # 4, 1%Z); (3 # 4, 3%Z)]%Q, [1; 1]%Z, [[0; 0; 0; 1]; [3; 0; 3; 3]]%Z, [[3]; [3; 0; 2]], 3).
Proof.
  cbv zeta. split; [|split; [|split; [|split; [|split; [|split]]]]].
  - intros n. cbn. lia.
  - repeat constructor; cbn; lia.
  - intros x y. do 4 (destruct x as [|x]; [cbn; intros H; repeat (destruct H as [<-|H]); try contradiction; (split; [lia | cbn; tauto])|]).
    cbn. destruct x; intros [].
  - apply is_perm_by_In; [repeat constructor; cbn; lia | intros x; cbn; lia].
  - repeat constructor; unfold Qlt; cbn; lia.
  - repeat constructor; unfold Qle; cbn; lia.
  - vm_compute. reflexivity.
Qed.
