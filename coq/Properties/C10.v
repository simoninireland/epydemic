(* C10 - every run starts from a clean slate and prototypes are never modified.
   The statements, each an instance of a theorem of Proofs/Lifecycle.v (the unbounded case
   discharges the quota condition here), and a worked example: a scripted user, a prototype
   and a history of six runs with five kinds of failure, evaluated. *)
From Coq Require Import List ZArith QArith Bool Arith String Lia.
From EpyV Require Import Model.Kernel Model.Lifecycle Proofs.Lifecycle.
Import ListNotations.
Close Scope Q_scope.
Open Scope list_scope.

(* set-up overwrites every per-run field from constants, the parameters, the fresh network and
   the run's random source: from ANY two states (of experiment objects around the same prototype
   value, with the same quota status) it raises or not alike and leaves the same per-run state *)
Theorem C10_fresh : forall (G W P : Type) (u : user G W P) (g0 : G) (i : nat) (params : P) (s s' : state G W P),
  Inv G W P g0 s -> Inv G W P g0 s' -> can_generate G W P s = can_generate G W P s' ->
  snd (setup u i params None s) = snd (setup u i params None s')
  /\ view_of (fst (setup u i params None s)) = view_of (fst (setup u i params None s')).
Proof. intros G W P u g0 i params s s'. apply fresh. Qed.

(* for every list of earlier runs - any parameters, completed, cut short, or failed at any step
   with whatever the failing user code did before raising - the next run reaches
   simulationStarted (if the generator may still generate) in the state F(parameters, prototype
   value, its own random source): clock 0, id counter and queue holding only what this run's
   build and set-up posted, loci mirroring only the new network, a fresh copy of the prototype *)
Theorem C10_history : forall (G W P : Type) (u : user G W P) (g0 : G) (limit : option nat)
                             (h : list (P * outcome)) (params : P),
  let s := run_all u 0 h (initial u g0 limit) in
  can_generate G W P s = true ->
  exists s1, at_started u (List.length h) params s = Some s1 /\ view_of s1 = F u (List.length h) params g0.
Proof. intros G W P u g0 limit h params. apply history. Qed.

(* with an unbounded generator the side condition holds by itself *)
Theorem C10_history_unbounded : forall (G W P : Type) (u : user G W P) (g0 : G) (h : list (P * outcome)) (params : P),
  exists s1, at_started u (List.length h) params (run_all u 0 h (initial u g0 None)) = Some s1
             /\ view_of s1 = F u (List.length h) params g0.
Proof.
  intros G W P u g0 h params. apply history.
  unfold can_generate. rewrite run_all_unbounded; reflexivity.
Qed.

(* the prototype network holds the value it was constructed with after any history, and the
   working network is always another object *)
Theorem C10_prototype : forall (G W P : Type) (u : user G W P) (g0 : G) (limit : option nat) (h : list (P * outcome)),
  let s := run_all u 0 h (initial u g0 limit) in
  h_get (s_proto s) (s_heap s) = Some g0 /\ s_proto s = 0
  /\ match s_graph s with Some a => a <> s_proto s | None => True end.
Proof.
  intros G W P u g0 limit h. cbv zeta.
  pose proof (Inv_run_all G W P u g0 h 0 _ (Inv_initial G W P u g0 limit)) as (H1 & H2 & H3).
  split; [exact H1|]. split; [rewrite run_all_proto; reflexivity|].
  destruct (s_graph _); [exact (proj1 H3)|exact I].
Qed.

(* a generator created with a limit hands out at most that many networks in total *)
Theorem C10_quota : forall (G W P : Type) (u : user G W P) (g0 : G) (L : nat) (h : list (P * outcome)),
  s_generated (run_all u 0 h (initial u g0 (Some L))) <= L.
Proof.
  intros G W P u g0 L h.
  assert (HQ : quota_inv G W P L (initial u g0 (Some L))) by (exists L; split; [reflexivity|simpl; lia]).
  destruct (quota G W P u L h 0 _ HQ) as (r & _ & Hle). lia.
Qed.

(* the protocol of one run: tear-down after a completed and after a failing do(), not after a
   failing set-up; the queue is empty whenever tear-down ran; the status flag *)
Theorem C10_protocol : forall (G W P : Type) (u : user G W P) (g0 : G) (i : nat) (params : P) (o : outcome) (s : state G W P),
  Inv G W P g0 s -> can_generate G W P s = true ->
  let s' := fst (run_once u i params o s) in
  let failed := snd (run_once u i params o s) in
  match o with
  | Ok => failed = false /\ s_status s' = Some true /\ queue (s_k s') = []
          /\ calls_of G W P s s' [TSetUp; TGenerate true; TReset; TBuild; TProcSetUp; TStarted; TResults; TEnded; TProcTearDown; TTornDown]
  | FailAt FGenerate => failed = true /\ s_status s' = Some false /\ calls_of G W P s s' [TSetUp]
  | FailAt FReset => failed = true /\ s_status s' = Some false /\ calls_of G W P s s' [TSetUp; TGenerate true; TReset]
  | FailAt FBuild => failed = true /\ s_status s' = Some false /\ calls_of G W P s s' [TSetUp; TGenerate true; TReset; TBuild]
  | FailAt FProcSetUp => failed = true /\ s_status s' = Some false
                         /\ calls_of G W P s s' [TSetUp; TGenerate true; TReset; TBuild; TProcSetUp]
  | FailAt (FEvent _) => failed = true /\ s_status s' = Some false /\ queue (s_k s') = []
                         /\ calls_of G W P s s' [TSetUp; TGenerate true; TReset; TBuild; TProcSetUp; TStarted; TProcTearDown; TTornDown]
  | FailAt FResults => failed = true /\ s_status s' = Some false /\ queue (s_k s') = []
                       /\ calls_of G W P s s' [TSetUp; TGenerate true; TReset; TBuild; TProcSetUp; TStarted; TResults; TProcTearDown; TTornDown]
  | FailAt FProcTearDown => failed = true /\ s_status s' = Some false
                            /\ calls_of G W P s s' [TSetUp; TGenerate true; TReset; TBuild; TProcSetUp; TStarted; TResults; TEnded; TProcTearDown]
  end.
Proof. intros G W P u g0 i params o s HI Hq. exact (protocol G W P u g0 i params o s HI Hq). Qed.

(* a network is (nodes, edges); one process with a locus, an event and a set-up that posts; a
   do() that posts more events, empties the locus and deletes the edges of the working network *)
Definition ex_net : Type := (list Z * list (Z * Z))%type.
Definition ex_table (p : nat) (g : ex_net) : table unit :=
  {| t_maxtime := 2%Q; t_loci := [(0, map EN (fst g))];
     t_procs := [ {| p_events := [ {| ev_elem := true; ev_locus := 0; ev_p := (1#2)%Q; ev_prog := 0 |} ];
                     p_setup := [APost (inject_Z (Z.of_nat p)) 0; APost (1#2)%Q 0] |} ];
     t_progs := [static []]; t_world := tt; t_equil := fun _ _ => false |}.
Definition ex_mess (x : st unit * ex_net) : st unit * ex_net :=
  let k := fst x in
  ({| clock := 7%Q; nextid := 40; queue := [ {| e_time := 9%Q; e_id := 39; e_live := true; e_proc := 0; e_elem := EN 0; e_prog := 0; e_rep := None |} ];
      loci := []; world := tt; ids := [39]; out := []; rands := []; lns := []; draws := []; stuck := true |},
   (fst (snd x), [])).
Definition ex_user : user ex_net unit nat :=
  {| u_world := tt; u_table := ex_table; u_decorate := fun _ g => g;
     u_oracle := fun i => ([inject_Z (Z.of_nat i)], [], []);
     u_partial := fun _ _ => ex_mess; u_body := fun _ _ => ex_mess |}.
Definition ex_proto : ex_net := ([0; 1; 2]%Z, [(0, 1); (1, 2)]%Z).
Definition ex_history : list (nat * outcome) :=
  [(1, Ok); (2, FailAt (FEvent 3)); (3, FailAt FBuild); (1, FailAt FProcSetUp); (2, FailAt FGenerate); (0, FailAt FResults)].

Example C10_example :
  let s := run_all ex_user 0 ex_history (initial ex_user ex_proto (Some 7)) in
  can_generate _ _ _ s = true
  /\ s_generated s = 5 /\ s_remaining s = Some 1
  /\ h_get 0 (s_heap s) = Some ex_proto
  /\ option_map (fun s1 => (v_net (view_of s1), clock (s_k s1), nextid (s_k s1),
                            map (fun e => (e_time e, e_id e)) (queue (s_k s1)), loci (s_k s1)))
                (at_started ex_user 6 5 s)
     = Some (Some ex_proto, 0%Q, 2, [((1#2)%Q, 1); (5%Q, 0)], [[EN 0; EN 1; EN 2]]%Z)
  /\ option_map view_of (at_started ex_user 6 5 s) = Some (F ex_user 6 5 ex_proto).
Proof. vm_compute. repeat split; reflexivity. Qed.
