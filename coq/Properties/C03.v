(* C03 - simulation time never runs backwards and all clocks agree (Model/Kernel.v: both scheduler
   loops over arbitrary user programs).  The invariants and lemmas the proofs assemble are in Proofs/Kernel*.v.

   Vocabulary (KernelTime.v unless said otherwise):
     ht o            the OHandler / OTap records of an output, in order
     paired_fwd l    l is handler, tap, handler, tap, ... where every pair has the shape
                       OHandler k t t e m :: OTap t p name e
                     (handler argument = clock read inside the handler = tap time, same element;
                     name is NPost k when m = None (posted event) and NEv p j otherwise)
     obs_times o     the times of the OHandler / OTap records, in order
     time_of x       the time of an OHandler (its argument) or OTap record
     is_handler, is_tap   the tests for OHandler / OTap records; ntaps, nhandlers count them
     is_ph x         x is the OHandler record of a posted event (member None)  (KernelQueue.v)
     hrec x          OHandler (e_prog x) (e_time x) (e_time x) (e_elem x) None  (KernelBase.v)
     stoch_fired / sync_fired   the queue entries popped and fired during the run, in order  (KernelQueue.v)
     nonneg_tb tb    every event probability / rate ev_p of the table is >= 0  (KernelLoops.v)
   Hypotheses: only nonneg_tb and "every oracle value ln(1/r1) is >= 0", and only where needed. *)
From Coq Require Import List ZArith QArith Qabs Bool Arith Lia Lqa Sorted.
From EpyV Require Import Model.Kernel Proofs.KernelBase Proofs.KernelLoops Proofs.KernelQueue Proofs.KernelTime
  Proofs.KernelResults Proofs.KernelExample.
Import ListNotations.
Open Scope Q_scope.

(* C03_agree: one tap per executed event, carrying the handler's time and element; the time
   passed to the handler is the clock the handler reads.  No hypothesis, also for stuck runs. *)
Theorem C03_agree_stoch : forall W (tb : table W) pf fuel rs ls ds,
  paired_fwd (ht (r_out (stoch_run tb pf fuel rs ls ds))).
Proof. intros. exact (run_agree _ _ (stoch_run_of tb pf fuel rs ls ds)). Qed.

Theorem C03_agree_sync : forall W (tb : table W) pf fuel rs ds,
  paired_fwd (ht (r_out (sync_run tb pf fuel rs ds))).
Proof. intros. exact (run_agree _ _ (sync_run_of tb pf fuel rs ds)). Qed.

Theorem C03_handler_clock_stoch : forall W (tb : table W) pf fuel rs ls ds k targ clk e m,
  In (OHandler k targ clk e m) (r_out (stoch_run tb pf fuel rs ls ds)) -> targ = clk /\ targ == clk.
Proof. intros W tb pf fuel rs ls ds. exact (run_handler_clock _ _ (stoch_run_of tb pf fuel rs ls ds)). Qed.

Theorem C03_handler_clock_sync : forall W (tb : table W) pf fuel rs ds k targ clk e m,
  In (OHandler k targ clk e m) (r_out (sync_run tb pf fuel rs ds)) -> targ = clk /\ targ == clk.
Proof. intros W tb pf fuel rs ds. exact (run_handler_clock _ _ (sync_run_of tb pf fuel rs ds)). Qed.

Theorem C03_count_stoch : forall W (tb : table W) pf fuel rs ls ds,
  let r := stoch_run tb pf fuel rs ls ds in
  r_events r = ntaps (r_out r) /\ ntaps (r_out r) = nhandlers (r_out r).
Proof. intros. exact (run_count _ _ (stoch_run_of tb pf fuel rs ls ds)). Qed.

Theorem C03_count_sync : forall W (tb : table W) pf fuel rs ds,
  let r := sync_run tb pf fuel rs ds in
  r_events r = ntaps (r_out r) /\ ntaps (r_out r) = nhandlers (r_out r).
Proof. intros. exact (run_count _ _ (sync_run_of tb pf fuel rs ds)). Qed.

(* C03_monotone: handler and tap times never decrease (in a run that did not exhaust its
   fuel or oracle: once stuck the model keeps looping on default values) *)
Theorem C03_monotone_stoch : forall W (tb : table W) pf fuel rs ls ds,
  nonneg_tb tb -> Forall (Qle 0) ls ->
  let r := stoch_run tb pf fuel rs ls ds in
  r_stuck r = false ->
  StronglySorted Qle (obs_times (r_out r)) /\
  StronglySorted Qle (map time_of (filter is_handler (r_out r))) /\
  StronglySorted Qle (map time_of (filter is_tap (r_out r))).
Proof.
  intros W tb pf fuel rs ls ds Hnn Hl r Hs.
  exact (run_monotone _ _ (stoch_run_of tb pf fuel rs ls ds) _ (stoch_tinv tb pf fuel rs ls ds Hnn Hl Hs)).
Qed.

Theorem C03_monotone_sync : forall W (tb : table W) pf fuel rs ds,
  let r := sync_run tb pf fuel rs ds in
  r_stuck r = false ->
  StronglySorted Qle (obs_times (r_out r)) /\
  StronglySorted Qle (map time_of (filter is_handler (r_out r))) /\
  StronglySorted Qle (map time_of (filter is_tap (r_out r))).
Proof.
  intros W tb pf fuel rs ds r Hs. destruct (sync_tinv tb pf fuel rs ds Hs) as [L [_ T]].
  exact (run_monotone _ _ (sync_run_of tb pf fuel rs ds) L T).
Qed.

Theorem C03_end_stoch : forall W (tb : table W) pf fuel rs ls ds,
  nonneg_tb tb -> Forall (Qle 0) ls ->
  let r := stoch_run tb pf fuel rs ls ds in
  r_stuck r = false -> Forall (fun t => t <= r_time r) (obs_times (r_out r)).
Proof.
  intros W tb pf fuel rs ls ds Hnn Hl r Hs.
  exact (proj2 (run_times _ _ (stoch_run_of tb pf fuel rs ls ds) _ (stoch_tinv tb pf fuel rs ls ds Hnn Hl Hs))).
Qed.

(* synchronous: TIME is 1 + the number m of steps executed; steps 1 .. m were all before the
   maximum time; the loop stopped because the maximum time was reached or the process' own
   equilibrium test held; every event happened by step m = TIME - 1 *)
Theorem C03_end_sync : forall W (tb : table W) pf fuel rs ds,
  let r := sync_run tb pf fuel rs ds in
  r_stuck r = false ->
  Forall (fun t => t + 1 <= r_time r) (obs_times (r_out r)) /\
  exists m : nat, r_time r == 1 + inject_Z (Z.of_nat m) /\
    (t_maxtime tb <= r_time r \/ t_equil tb (loci (r_final r)) (world (r_final r)) = true) /\
    (forall j : nat, (j < m)%nat -> 1 + inject_Z (Z.of_nat j) < t_maxtime tb).
Proof.
  intros W tb pf fuel rs ds. cbv zeta. intros Hs. split.
  - destruct (sync_tinv tb pf fuel rs ds Hs) as [L [HL T]].
    eapply Forall_impl; [|exact (proj2 (run_times _ _ (sync_run_of tb pf fuel rs ds) L T))].
    cbn. intros a Ha. lra.
  - destruct (sync_time tb pf fuel rs ds) as [m [Ht [He Hj]]]. exists m. split; [exact Ht|split].
    + specialize (He Hs). unfold at_end in He. apply orb_true_iff in He.
      destruct He as [He|He]; [left; apply Qle_bool_iff, He|right; exact He].
    + intros j Hlt. apply Qle_bool_false. apply Hj, Hlt.
Qed.

(* posted events: the handler records with member None are exactly, in order, those of the
   queue entries fired, each with the entry's own time as argument and as clock; and an entry's
   time is the time that was given to postEvent (the OPosted record the user saw) *)
Theorem C03_posted_stoch : forall W (tb : table W) pf fuel rs ls ds,
  let r := stoch_run tb pf fuel rs ls ds in
  filter is_ph (r_out r) = map hrec (stoch_fired tb pf fuel rs ls ds) /\
  forall i tt x, In (OPosted i tt) (r_out r) -> In x (stoch_fired tb pf fuel rs ls ds) -> e_id x = i ->
    e_time x = tt /\ In (OHandler (e_prog x) tt tt (e_elem x) None) (r_out r).
Proof.
  intros W tb pf fuel rs ls ds r. pose proof (stoch_run_of tb pf fuel rs ls ds) as R.
  split; [exact (run_records _ _ R)|exact (run_posted_fired _ _ R)].
Qed.

Theorem C03_posted_sync : forall W (tb : table W) pf fuel rs ds,
  let r := sync_run tb pf fuel rs ds in
  filter is_ph (r_out r) = map hrec (sync_fired tb pf fuel rs ds) /\
  forall i tt x, In (OPosted i tt) (r_out r) -> In x (sync_fired tb pf fuel rs ds) -> e_id x = i ->
    e_time x = tt /\ In (OHandler (e_prog x) tt tt (e_elem x) None) (r_out r).
Proof.
  intros W tb pf fuel rs ds r. pose proof (sync_run_of tb pf fuel rs ds) as R.
  split; [exact (run_records _ _ R)|exact (run_posted_fired _ _ R)].
Qed.

(* Proofs/KernelExample.v: a table with a repeating event, a handler that posts a nested earlier
   event, an un-post, a rejected post into the past and a per-element stochastic event.  The
   premises hold, the run is not stuck, and the trace has 9 events under stochastic dynamics
   (7 posted ones: 1/2, 3/2, 2, the nested 9/4, the tie 5/2 5/2, 7/2) and 5 under synchronous. *)
Example C03_example_stoch :
  nonneg_tb ex_tb /\ Forall (Qle 0) ex_lns /\
  let r := stoch_run ex_tb 50 50 ex_rands ex_lns ex_draws in
  r_stuck r = false /\ r_time r = 4 /\ r_events r = 9%nat /\
  r_out r =
    [OPostedRep (1 # 2); OPosted 1 2; OPosted 2 (5 # 2); OPosted 3 (7 # 4);
     OUnpost 3 (Some (Some (7 # 4))); OQuery 3 None; OUnpost 3 (Some None); OUnpost 3 None; OValueError;
     OHandler 0 (1 # 2) (1 # 2) (EN 0) None; OObserve (1 # 2) [2%nat]; OTap (1 # 2) 0 (NPost 0) (EN 0);
     OHandler 2 1 1 (EN 0) (Some true); OTap 1 0 (NEv 0 0) (EN 0);
     OHandler 0 (3 # 2) (3 # 2) (EN 0) None; OObserve (3 # 2) [1%nat]; OTap (3 # 2) 0 (NPost 0) (EN 0);
     OHandler 1 2 2 (EN 0) None; OPosted 6 (9 # 4); OQuery 1 None; OTap 2 0 (NPost 1) (EN 0);
     OHandler 3 (9 # 4) (9 # 4) (EN 0) None; OTap (9 # 4) 0 (NPost 3) (EN 0);
     OHandler 3 (5 # 2) (5 # 2) (EN 0) None; OTap (5 # 2) 0 (NPost 3) (EN 0);
     OHandler 0 (5 # 2) (5 # 2) (EN 0) None; OObserve (5 # 2) [1%nat]; OTap (5 # 2) 0 (NPost 0) (EN 0);
     OHandler 0 (7 # 2) (7 # 2) (EN 0) None; OObserve (7 # 2) [1%nat]; OTap (7 # 2) 0 (NPost 0) (EN 0);
     OHandler 2 4 4 (EN 1) (Some true); OTap 4 0 (NEv 0 0) (EN 1)].
Proof.
  split; [|split].
  - repeat constructor. unfold Qle. cbn. lia.
  - repeat constructor; unfold Qle; cbn; lia.
  - cbv zeta. repeat split; vm_compute; reflexivity.
Qed.

Example C03_example_sync :
  let r := sync_run ex_tb 50 50 ex_sync_rands ex_draws in
  r_stuck r = false /\ r_time r = 3 /\ r_events r = 5%nat /\ r_steps r = 2%nat /\
  r_out r =
    [OPostedRep (1 # 2); OPosted 1 2; OPosted 2 (5 # 2); OPosted 3 (7 # 4);
     OUnpost 3 (Some (Some (7 # 4))); OQuery 3 None; OUnpost 3 (Some None); OUnpost 3 None; OValueError;
     OHandler 0 (1 # 2) (1 # 2) (EN 0) None; OObserve (1 # 2) [2%nat]; OTap (1 # 2) 0 (NPost 0) (EN 0);
     OHandler 2 1 1 (EN 0) (Some true); OTap 1 0 (NEv 0 0) (EN 0);
     OHandler 0 (3 # 2) (3 # 2) (EN 0) None; OObserve (3 # 2) [1%nat]; OTap (3 # 2) 0 (NPost 0) (EN 0);
     OHandler 1 2 2 (EN 0) None; OPosted 6 (9 # 4); OQuery 1 None; OTap 2 0 (NPost 1) (EN 0);
     OHandler 2 2 2 (EN 1) (Some true); OTap 2 0 (NEv 0 0) (EN 1)].
Proof. cbv zeta. repeat split; vm_compute; reflexivity. Qed.
