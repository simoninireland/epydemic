(* C05 - event functions are only invoked on live members of their locus.
   The statements about static tables come from Proofs/KernelMember.v, Proofs/KernelSync.v and (the
   scan) Proofs/GillespieSelect.v;
   those about state-dependent tables (second half) from Proofs/KernelDyn*.v and Proofs/CompartVI*.v.
   Everything is for every world type W, every table (arbitrary user programs), every oracle
   and every fuel.  A record [OHandler prog t clock e (Some m)] is written by the model at the
   instant a stochastic / per-element event function is entered; m is the outcome of the test
   [e in locus] on the registered locus at that instant (Model/Kernel.v, fire_event). *)
From Coq Require Import List ZArith QArith Bool Arith.
From EpyV Require Import Model.Kernel Proofs.KernelMember Proofs.KernelSync.
Import ListNotations.
Open Scope Q_scope.

(* Gillespie dynamics: the element is drawn from the live locus, read after the posted events ran *)
Theorem C05_member_stoch : forall W (tb : table W) pf fuel rs ls ds k t c e m,
  In (OHandler k t c e (Some m)) (r_out (stoch_run tb pf fuel rs ls ds)) -> m = true.
Proof.
  intros W tb pf fuel rs ls ds k t c e m H.
  exact (stoch_rec_member _ k t c e m (proj1 (Forall_forall _ _) (stoch_run_member tb pf fuel rs ls ds) _ H)).
Qed.

(* synchronous dynamics: because of the re-check in the loop over the tranche *)
Theorem C05_member_sync : forall W (tb : table W) pf fuel rs ds k t c e m,
  In (OHandler k t c e (Some m)) (r_out (sync_run tb pf fuel rs ds)) -> m = true.
Proof.
  intros W tb pf fuel rs ds k t c e m H.
  apply (stoch_rec_member (fun x => In x (all_events tb) /\ 0 < ev_p (snd x)) k t c e).
  exact (proj1 (Forall_forall _ _) (sync_run_records tb pf fuel rs ds) _ H).
Qed.

(* the same fact where it is established: one Gillespie iteration is selection (stoch_select),
   the posted events, then stoch_fire on the state s5 they left; a non-empty locus yields a call
   on one of its current members and consumes exactly one rank *)
Theorem C05_stoch_iteration : forall W (tb : table W) pf f t events s,
  stoch_loop tb pf (S f) t events s =
  if at_equil tb t s then (t, events, s)
  else if Qeq_bool (sum_rates s (transitions tb)) 0 then
    match next_pending_time s with
    | (None, s') => (t, events, s')
    | (Some et, s') => let '(n, s'') := run_pending tb pf et 0 s' in stoch_loop tb pf f et (events + n) s''
    end
  else
    match stoch_select tb s with
    | None => (t, events, set_stuck s)
    | Some (x, dt, s3) =>
        let nt := Qred (t + dt) in
        let '(n, s4) := run_pending tb pf nt 0 s3 in
        let '(ev', s6) := stoch_fire tb x nt (events + n) (set_clock nt s4) in
        stoch_loop tb pf f nt ev' s6
    end.
Proof. exact (@stoch_loop_S). Qed.

Theorem C05_stoch_fire_member : forall W (tb : table W) x nt ev (s5 : st W),
  locus s5 (ev_locus (snd x)) <> [] ->
  exists e, In e (locus s5 (ev_locus (snd x))) /\
    stoch_fire tb x nt ev s5 = (S ev, fire_event tb x nt e (advance 0 0 1 s5)).
Proof. exact (@stoch_fire_member). Qed.

(* a selected element that has left its locus when its turn comes (the skip of synchronousdynamics.py:114):
   no record, no count, state untouched, and the rest of the tranche proceeds *)
Theorem C05_sync_skip : forall W (tb : table W) t x e evs nev (s : st W),
  mem e (locus s (ev_locus (snd x))) = false ->
  fire_tranche tb t ((x, e) :: evs) nev s = fire_tranche tb t evs nev s.
Proof. intros W tb t x e evs nev s H. cbn [fire_tranche]. rewrite H. reflexivity. Qed.

Theorem C05_sync_fire : forall W (tb : table W) t x e evs nev (s : st W),
  mem e (locus s (ev_locus (snd x))) = true ->
  fire_tranche tb t ((x, e) :: evs) nev s = fire_tranche tb t evs (S nev) (fire_event tb x t e s).
Proof. intros W tb t x e evs nev s H. cbn [fire_tranche]. rewrite H. reflexivity. Qed.

(* over a whole tranche: every record is of the tranche class (handlers have member = true,
   time t, clock t) and the count grows by exactly the number of event functions entered *)
Theorem C05_sync_tranche_count : forall W (tb : table W) t evs nev (s : st W),
  clock s = t -> Forall (sel_ok tb) evs ->
  exists l, out (snd (fire_tranche tb t evs nev s)) = l ++ out s /\
            Forall (tranche_rec tb t) l /\
            fst (fire_tranche tb t evs nev s) = (nev + nfired l)%nat.
Proof. intros W tb t evs nev s Hc Hs. exact (proj2 (fire_tranche_spec tb t evs nev s Hc Hs)). Qed.

(* synchronous: allEventsInTimestep only selects registered events of positive probability, on
   members of the locus as it stood at that call *)
Theorem C05_zero_never_sync_select : forall W (tb : table W) (s : st W) x e,
  In (x, e) (fst (tranche tb s)) ->
  In x (all_events tb) /\ 0 < ev_p (snd x) /\ mem e (locus s (ev_locus (snd x))) = true.
Proof. exact (@tranche_member). Qed.

(* ... so an event registered with probability zero never fires in a synchronous run *)
Theorem C05_zero_never_sync : forall W (tb : table W) pf fuel rs ds pi j ev t e,
  In (pi, j, ev) (all_events tb) -> ev_p ev == 0 ->
  ~ In (OTap t pi (NEv pi j) e) (r_out (sync_run tb pf fuel rs ds)).
Proof.
  intros W tb pf fuel rs ds pi j ev t e Hin Hz H.
  assert (Hn : ~ 0 < ev_p ev) by (rewrite Hz; apply Qlt_irrefl).
  exact (run_rec_zero tb t pi j e ev Hin Hn (proj1 (Forall_forall _ _) (sync_run_records tb pf fuel rs ds) _ H)).
Qed.

(* Gillespie: the inverse-CDF scan.  With xs the running prefix sum, [select] returns the first
   x whose interval [xs + sum before, xs + sum before + rate x) contains xc *)
Theorem C05_select_interval : forall A (f : A -> Q) xc l xs cur, xs <= xc -> xc < xs + qsum f l ->
  exists l1 x l2, l = l1 ++ x :: l2 /\ select f xc xs cur l = x /\
    xs + qsum f l1 <= xc /\ xc < xs + qsum f l1 + f x /\
    (forall l1' y l1'', l1 = l1' ++ y :: l1'' -> xs + qsum f l1' + f y <= xc).
Proof. exact GillespieSelect.select_first. Qed.

(* hence, for 0 <= xc < total, the chosen transition has a positive rate *)
Theorem C05_select_positive : forall A (f : A -> Q) xc l cur, 0 <= xc -> xc < qsum f l ->
  In (select f xc 0 cur l) l /\ 0 < f (select f xc 0 cur l).
Proof. exact GillespieSelect.select_pos. Qed.

(* in the loop: with probabilities >= 0 and uniform variates in [0,1), whenever the total rate is
   non-zero the chosen transition has positive probability (and positive rate: for a per-element
   event its locus is non-empty at selection time) *)
Theorem C05_zero_never_stoch_select : forall W (tb : table W) (s : st W) x dt s3,
  nonneg_table tb -> Forall unit_rand (rands s) ->
  Qeq_bool (sum_rates s (transitions tb)) 0 = false ->
  stoch_select tb s = Some (x, dt, s3) ->
  In x (all_events tb) /\ 0 < ev_p (snd x) /\ 0 < rate s x.
Proof.
  exact (@stoch_select_pos).
Qed.

(* ... so an event registered with probability zero never fires in a Gillespie run *)
Theorem C05_zero_never_stoch : forall W (tb : table W) pf fuel rs ls ds pi j ev t e,
  nonneg_table tb -> Forall unit_rand rs ->
  In (pi, j, ev) (all_events tb) -> ev_p ev == 0 ->
  ~ In (OTap t pi (NEv pi j) e) (r_out (stoch_run tb pf fuel rs ls ds)).
Proof.
  intros W tb pf fuel rs ls ds pi j ev t e Hnn Hr Hin Hz H.
  assert (Hn : ~ 0 < ev_p ev) by (rewrite Hz; apply Qlt_irrefl).
  exact (run_rec_zero tb t pi j e ev Hin Hn (proj1 (Forall_forall _ _) (stoch_run_positive tb Hnn pf fuel rs ls ds Hr) _ H)).
Qed.

(* synchronous: an event whose locus is empty (or whose probability is <= 0) when
   allEventsInTimestep runs is passed over: nothing selected, no variate or rank consumed *)
Theorem C05_empty_never_sync : forall W (tb : table W) x evs (s : st W),
  locus s (ev_locus (snd x)) = [] ->
  tranche_elem (x :: evs) s = tranche_elem evs s /\ tranche_fixed (x :: evs) s = tranche_fixed evs s /\
  forall e, ~ In (x, e) (fst (tranche tb s)).
Proof.
  intros W tb x evs s H.
  assert (Ha : active (loci s) x = false) by (apply inactive_iff; left; exact H).
  split; [|split].
  - rewrite !tranche_elem_spec. cbn [spec_elem count_elem]. unfold block. rewrite Ha. reflexivity.
  - rewrite !tranche_fixed_spec. unfold count_fixed. cbn [spec_fixed filter]. rewrite Ha. reflexivity.
  - intros e Hin. rewrite tranche_spec in Hin. apply spec_tranche_In in Hin. cbn [fst] in Hin.
    destruct Hin as (_ & Hact & _). congruence.
Qed.

(* Gillespie: a chosen event whose locus is empty when its turn comes (after the posted events)
   is not fired: no rank drawn, no record, event count unchanged *)
Theorem C05_empty_never_stoch : forall W (tb : table W) x nt ev (s5 : st W),
  locus s5 (ev_locus (snd x)) = [] -> stoch_fire tb x nt ev s5 = (ev, s5).
Proof. exact (@stoch_fire_empty). Qed.

(* locus 0 = {1,2,3}, locus 1 empty.  Event (0,0): per element, p = 1, its handler removes
   element 2 and the element itself.  Event (0,1): p = 0.  Event (0,2): fixed rate on the empty
   locus.  A posted event at 1/2 observes the locus sizes. *)
Definition ex_tb (maxt : Q) : table unit :=
  {| t_maxtime := maxt; t_loci := [(0%nat, [EN 1; EN 2; EN 3]); (0%nat, [])];
     t_procs := [{| p_events := [ {| ev_elem := true; ev_locus := 0; ev_p := 1; ev_prog := 0 |};
                                  {| ev_elem := true; ev_locus := 0; ev_p := 0; ev_prog := 1 |};
                                  {| ev_elem := false; ev_locus := 1; ev_p := 1; ev_prog := 1 |} ];
                    p_setup := [APost (1#2) 2%nat] |}];
     t_progs := [static [ALDiscard 0 (EN 2); ALDiscardSelf 0]; static []; static [AObserve]];
     t_world := tt; t_equil := fun _ _ => false |}.

(* synchronous, one step: 1, 2, 3 are all selected; firing on 1 removes 2, which is then skipped *)
Example C05_example_sync :
  let r := sync_run (ex_tb 2) 10 10 [1#2; 1#2; 1#2] [] in
  r_out r = [OPosted 0 (1 # 2); OHandler 2 (1 # 2) (1 # 2) (EN 0) None;
             OObserve (1 # 2) [3%nat; 0%nat]; OTap (1 # 2) 0 (NPost 2) (EN 0);
             OHandler 0 1 1 (EN 1) (Some true); OTap 1 0 (NEv 0 0) (EN 1);
             OHandler 0 1 1 (EN 3) (Some true); OTap 1 0 (NEv 0 0) (EN 3)] /\
  r_events r = 3%nat /\ r_stuck r = false /\ nonneg_table (ex_tb 2).
Proof.
  cbv zeta. split; [vm_compute; reflexivity|]. split; [vm_compute; reflexivity|]. split; [vm_compute; reflexivity|].
  intros x Hx. vm_compute in Hx. destruct Hx as [<-|[<-|[<-|[]]]]; vm_compute; discriminate.
Qed.

(* Gillespie, two iterations: the first fires (0,0) on the drawn member 2; in the second the scan
   passes the zero-rate event (0,1) and lands on (0,2), whose locus is empty: nothing fires *)
Example C05_example_stoch :
  let r := stoch_run (ex_tb (7#12)) 10 10 [1#2; 1#4; 1#2; 3#4] [1; 1] [1%nat] in
  r_out r = [OPosted 0 (1 # 2); OHandler 0 (1 # 4) (1 # 4) (EN 2) (Some true);
             OTap (1 # 4) 0 (NEv 0 0) (EN 2);
             OHandler 2 (1 # 2) (1 # 2) (EN 0) None;
             OObserve (1 # 2) [2%nat; 0%nat]; OTap (1 # 2) 0 (NPost 2) (EN 0)] /\
  r_time r = 7 # 12 /\ r_events r = 2%nat /\ r_stuck r = false /\
  Forall unit_rand [1#2; 1#4; 1#2; 3#4].
Proof.
  cbv zeta. split; [vm_compute; reflexivity|]. split; [vm_compute; reflexivity|].
  split; [vm_compute; reflexivity|]. split; [vm_compute; reflexivity|].
  repeat constructor; vm_compute; discriminate.
Qed.

(* State-dependent event tables (SIR_VariableInfection): Model/KernelDyn.v is the two scheduler
   loops with a per-element event list computed from the current state; with no dynamic entries
   they ARE the loops of Model/Kernel.v (the two C05_dyn_conservative theorems), so everything above carries over,
   and the membership clauses hold for every dynamic table.  The Gillespie loop re-tests a
   one-element locus after the posted events of the interval ran (defect F15 of DESIGN.md was its
   absence), so the stochastic clause needs no proviso. *)
From EpyV Require Import Model.Loci Model.Compart Model.KernelDyn Model.CompartVI Proofs.KernelDynLoops
  Proofs.KernelDynRun Proofs.CompartVI Proofs.CompartVIMain.

Theorem C05_dyn_member_stoch : forall W (D : dtable W) pf fuel rs ls ds k t c e m,
  In (OHandler k t c e (Some m)) (r_out (dstoch_run D pf fuel rs ls ds)) -> m = true.
Proof. exact CVI_member_stoch. Qed.
(* synchronous dynamics: every event function entered from the tranche - registered event or
   appended entry - is entered on an element that passes the membership test of its locus at that
   instant *)
Theorem C05_dyn_member_sync : forall W (D : dtable W) pf fuel rs ds k t c e m,
  In (OHandler k t c e (Some m)) (r_out (dsync_run D pf fuel rs ds)) -> m = true.
Proof. intros W D. exact (dsync_run_member D). Qed.
(* the guard `len(l) > 0` of the Gillespie loop, for an appended entry: its membership test on the state
   the posted events of the interval left (repair F15: len(SingletonLocus) is 0 once its element has left
   the locus it was taken from).  A stale entry: no call, no record, no count, no rank consumed *)
Theorem C05_dyn_stoch_stale_skip : forall W (D : dtable W) pi d nt ev (s5 : st W),
  de_member d (loci s5) (world s5) = false -> dstoch_fire D (TDyn pi d) nt ev s5 = (ev, s5).
Proof. intros W D pi d nt ev s5 H. cbn [dstoch_fire]. rewrite H. reflexivity. Qed.
Theorem C05_dyn_stoch_live_fire : forall W (D : dtable W) pi d nt ev (s5 : st W),
  de_member d (loci s5) (world s5) = true -> dstoch_fire D (TDyn pi d) nt ev s5 = (S ev, fire_dyn D pi d nt s5).
Proof. intros W D pi d nt ev s5 H. cbn [dstoch_fire]. rewrite H. reflexivity. Qed.
(* a selected appended entry whose test fails when its turn comes: no call, no record, no count,
   state untouched, the rest of the tranche proceeds *)
Theorem C05_dyn_sync_skip : forall W (D : dtable W) t pi d e evs nev (s : st W),
  de_member d (loci s) (world s) = false ->
  dfire_tranche D t ((TDyn pi d, e) :: evs) nev s = dfire_tranche D t evs nev s.
Proof. intros W D t pi d e evs nev s H. cbn [dfire_tranche]. rewrite H. reflexivity. Qed.
Theorem C05_dyn_sync_fire : forall W (D : dtable W) t pi d e evs nev (s : st W),
  de_member d (loci s) (world s) = true ->
  dfire_tranche D t ((TDyn pi d, e) :: evs) nev s = dfire_tranche D t evs (S nev) (fire_dyn D pi d t s).
Proof. intros W D t pi d e evs nev s H. cbn [dfire_tranche]. rewrite H. reflexivity. Qed.
(* ... so in a synchronous run every tapped event is a registered event of positive probability or an
   appended entry of positive probability that the generator produced, fired on its own value:
   zero-probability and absent entries never fire *)
Theorem C05_dyn_zero_never_sync : forall W (D : dtable W) pf fuel rs ds t pi j e,
  In (OTap t pi (NEv pi j) e) (r_out (dsync_run D pf fuel rs ds)) -> fired_dyn_ok D pi j e.
Proof.
  intros W D pf fuel rs ds t pi j e H. rewrite dsync_run_out in H. apply in_rev in H.
  destruct (dsync_run_dsteps D pf fuel rs ds) as [cs Hs]. exact (DSteps_fired D _ _ _ _ _ _ _ _ _ Hs H).
Qed.
(* with probabilities >= 0 in every distribution and uniform variates in [0,1): zero-probability and absent
   entries never fire in a Gillespie run *)
Theorem C05_dyn_zero_never_stoch : forall W (D : dtable W) pf fuel rs ls ds t pi j e,
  (forall lc w, dnonneg D lc w) -> Forall unit_rand rs ->
  In (OTap t pi (NEv pi j) e) (r_out (dstoch_run D pf fuel rs ls ds)) -> fired_dyn_ok D pi j e.
Proof.
  intros W D pf fuel rs ls ds t pi j e Hnn Hr H. rewrite dstoch_run_out in H. apply in_rev in H.
  destruct (dstoch_run_dsteps_pos D pf fuel rs ls ds Hnn Hr) as [cs Hs]. exact (DSteps_fired D _ _ _ _ _ _ _ _ _ Hs H).
Qed.
Theorem C05_dyn_conservative_stoch : forall W (tb : table W) pf fuel rs ls ds,
  dstoch_run (static_dtable tb) pf fuel rs ls ds = stoch_run tb pf fuel rs ls ds.
Proof. exact CVI_conservative_stoch. Qed.
Theorem C05_dyn_conservative_sync : forall W (tb : table W) pf fuel rs ds,
  dsync_run (static_dtable tb) pf fuel rs ds = sync_run tb pf fuel rs ds.
Proof. exact CVI_conservative_sync. Qed.

(* SIR_VariableInfection (also with posted removals of its seeds): infect is only ever called on an edge that is
   in the SI locus at that instant; the appended entries are exactly the SI locus in ascending order, each with
   its edge's infectivity, each testing membership of its own edge *)
Theorem C05_vi_member_stoch : forall vm nodes edges init inf maxtime monitor pf fuel rs ls ds k t c e m,
  In (OHandler k t c e (Some m)) (r_out (dstoch_run (mk_vitable vm nodes edges init inf maxtime monitor) pf fuel rs ls ds)) -> m = true.
Proof. intros vm nodes edges init inf maxtime monitor. exact (dstoch_run_member (mk_vitable vm nodes edges init inf maxtime monitor)). Qed.
Theorem C05_vi_member_sync : forall vm nodes edges init inf maxtime monitor pf fuel rs ds k t c e m,
  In (OHandler k t c e (Some m)) (r_out (dsync_run (mk_vitable vm nodes edges init inf maxtime monitor) pf fuel rs ds)) -> m = true.
Proof. intros vm nodes edges init inf maxtime monitor. exact (dsync_run_member (mk_vitable vm nodes edges init inf maxtime monitor)). Qed.
(* the registered per-element events, then exactly one entry per element of the SI locus, in the
   order of that locus, each with its own element, the infectivity of that edge as probability,
   infect as event function and `still in the SI locus` as membership test *)
Theorem C05_vi_distribution : forall vm nodes edges init inf maxtime monitor lc w,
  let D := mk_vitable vm nodes edges init inf maxtime monitor in
  dper_element D lc w = map TStat (per_element (d_tb D))
    ++ map (fun e => TDyn (vi_mpi monitor) (vi_entry vm w e)) (nth (vim_si vm) lc []).
Proof. intros vm nodes edges init inf maxtime monitor lc w. exact (vi_dper_element vm nodes edges init inf maxtime monitor lc w). Qed.
Theorem C05_vi_entry : forall vm w n m, let d := vi_entry vm w (EE n m) in
  de_value d = EE n m /\ de_prog d = vi_infect_prog vm
  /\ de_p d = match infectivity (vi_inf w) n m with Some p => p | None => 0 end
  /\ forall lc w', de_member d lc w' = mem (EE n m) (nth (vim_si vm) lc []).
Proof. intros vm w n m. repeat split. Qed.

(* the F15 situation with the posted-removal subclass: path 0 - 1, node 0 infected and removed by an event posted
   for 1/2, infectivity 1, pRemove = 0.  Gillespie selects infect on (1,0) for time 1; the posted removal runs
   first; the entry is stale and is skipped: node 1 stays susceptible *)
Example C05_dyn_example_posted_removal :
  let D := mk_vitable (sir_vi_gen 0 (Some (1#2))) [0; 1]%Z [(0, 1)]%Z [(0, 1); (1, 3)]%Z
                      (initial_infectivities [(0, 1)]%Z [1]) 3 None in
  let r := dstoch_run D 50 50 [1#2; 1#2; 1#2] [1; 1] [] in
  r_out r = [OPosted 0 (1 # 2); OHandler 0 (1 # 2) (1 # 2) (EN 0) None; OTap (1 # 2) 0 (NPost 0) (EN 0)]
  /\ r_time r = 1 /\ r_events r = 1%nat /\ r_stuck r = false
  /\ map (getc (cw_st (vi_base (world (r_final r))))) [0; 1]%Z = [Some 2; Some 3]%Z.
Proof. exact CVI_example_posted_removal. Qed.

(* synchronous, the F8 situation on a triangle 0-1-2 with 0 and 1 infected, all infectivities 1: both (2,0) and
   (2,1) are selected; infect on (2,0) empties the SI locus; (2,1) fails its test and is skipped, uncounted *)
Example C05_dyn_example_sync_skip :
  let D := mk_vitable (sir_vi 0) [0; 1; 2]%Z [(0, 1); (0, 2); (1, 2)]%Z [(0, 1); (1, 1); (2, 3)]%Z
                      (initial_infectivities [(0, 1); (0, 2); (1, 2)]%Z [1; 1; 1]) 2 None in
  let r := dsync_run D 50 50 [1#2; 1#2] [] in
  r_out r = [OHandler 1 1 1 (EE 2 0) (Some true); OTap 1 0 (NEv 0 1) (EE 2 0)]
  /\ r_events r = 1%nat /\ r_steps r = 1%nat /\ r_stuck r = false
  /\ cw_occ (vi_base (world (r_final r))) = [((2, 0)%Z, 1)].
Proof. exact CVI_example_sync_skip. Qed.
